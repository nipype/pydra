(* Base/PyPath.v — lexical model of pathlib.PurePosixPath parsing (Python 3.12):
   anchor ("" | "/" | "//"), components with "" and "." dropped, str(), is_relative_to. *)
From Pydra Require Import Base.Prelude.
Local Open Scope char_scope.

Definition slash : ascii := "/".

(* split a char list on '/' *)
Fixpoint split_slash (l : list ascii) (cur : list ascii) : list (list ascii) :=
  match l with
  | [] => [rev cur]
  | c :: r => if Ascii.eqb c slash then rev cur :: split_slash r [] else split_slash r (c :: cur)
  end.

Definition is_dot (c : list ascii) : bool :=
  match c with ["."] => true | _ => false end.
Definition keep_comp (c : list ascii) : bool :=
  match c with [] => false | _ => negb (is_dot c) end.

Fixpoint leading_slashes (l : list ascii) : nat :=
  match l with c :: r => if Ascii.eqb c slash then S (leading_slashes r) else 0 | [] => 0 end.

Inductive anchor := ARel | ARoot | ARoot2.
Definition anchor_eqb (a b : anchor) : bool :=
  match a, b with ARel, ARel | ARoot, ARoot | ARoot2, ARoot2 => true | _, _ => false end.

Record ppath := { p_anchor : anchor; p_comps : list (list ascii) }.

Definition parse (l : list ascii) : ppath :=
  {| p_anchor := match leading_slashes l with 0 => ARel | 2 => ARoot2 | _ => ARoot end;
     p_comps := filter keep_comp (split_slash l []) |}.

Definition la_eqb (a b : list ascii) : bool := list_eqb Ascii.eqb a b.
Lemma la_eqb_spec a b : la_eqb a b = true <-> a = b.
Proof. apply list_eqb_spec. intros; apply Ascii.eqb_eq. Qed.
Lemma la_eqb_refl a : la_eqb a a = true.
Proof. now apply la_eqb_spec. Qed.

(* PurePath.is_relative_to: same anchor and component prefix *)
Definition rel_to (self other : ppath) : bool :=
  anchor_eqb (p_anchor self) (p_anchor other) && is_prefix la_eqb (p_comps other) (p_comps self).

Lemma anchor_eqb_spec a b : anchor_eqb a b = true <-> a = b.
Proof. destruct a, b; cbn; split; congruence. Qed.

Lemma rel_to_spec p m :
  rel_to p m = true <-> p_anchor p = p_anchor m /\ exists rest, p_comps p = (p_comps m ++ rest)%list.
Proof. unfold rel_to. now rewrite andb_true_iff, anchor_eqb_spec, (is_prefix_spec la_eqb la_eqb_spec). Qed.

Fixpoint join_slash (cs : list (list ascii)) : list ascii :=
  match cs with
  | [] => []
  | [c] => c
  | c :: r => c ++ slash :: join_slash r
  end.

Definition render (p : ppath) : list ascii :=
  match p_anchor p, p_comps p with
  | ARel, [] => ["."]
  | ARel, cs => join_slash cs
  | ARoot, cs => slash :: join_slash cs
  | ARoot2, cs => slash :: slash :: join_slash cs
  end.
