(* Base/Prelude.v — shared helpers for every model. Stdlib only. *)
From Coq Require Export List String Ascii Bool Arith ZArith NArith Lia.
Export ListNotations.

(* strings are byte strings; the harness prints non-printable ones as [bs [..]] *)
Fixpoint bs (l : list nat) : string :=
  match l with [] => EmptyString | n :: r => String (ascii_of_nat n) (bs r) end.

Fixpoint str_of (l : list ascii) : string :=
  match l with [] => EmptyString | c :: r => String c (str_of r) end.

Definition la_of (s : string) : list ascii := list_ascii_of_string s.

Lemma str_of_la_of s : str_of (la_of s) = s.
Proof. unfold la_of. induction s as [|c s IH]; cbn; [reflexivity| now rewrite IH]. Qed.
Lemma la_of_str_of l : la_of (str_of l) = l.
Proof. unfold la_of. induction l as [|c l IH]; cbn; [reflexivity| now rewrite IH]. Qed.
Lemma la_of_inj a b : la_of a = la_of b -> a = b.
Proof. intros E. rewrite <- (str_of_la_of a), <- (str_of_la_of b). now rewrite E. Qed.
Lemma la_of_append a b : la_of (a ++ b)%string = la_of a ++ la_of b.
Proof. unfold la_of. induction a as [|c a IH]; cbn; [reflexivity| now rewrite IH]. Qed.
Lemma str_of_app a b : str_of (a ++ b) = (str_of a ++ str_of b)%string.
Proof. induction a as [|c a IH]; cbn; [reflexivity| now rewrite IH]. Qed.

Lemma nat_of_ascii_inj a b : nat_of_ascii a = nat_of_ascii b -> a = b.
Proof. intros H. rewrite <- (ascii_nat_embedding a), <- (ascii_nat_embedding b). now rewrite H. Qed.
Lemma append_assoc (a b c : string) : ((a ++ b) ++ c = a ++ (b ++ c))%string.
Proof. induction a as [|x a IH]; cbn; [reflexivity| now rewrite IH]. Qed.
Lemma length_append (a b : string) : String.length (a ++ b) = String.length a + String.length b.
Proof. induction a as [|x a IH]; cbn; [reflexivity| now rewrite IH]. Qed.

(* generic boolean list equality *)
Fixpoint list_eqb {A} (eqb : A -> A -> bool) (a b : list A) : bool :=
  match a, b with
  | [], [] => true
  | x :: a', y :: b' => eqb x y && list_eqb eqb a' b'
  | _, _ => false
  end.

Lemma list_eqb_spec {A} (eqb : A -> A -> bool)
  (H : forall x y, eqb x y = true <-> x = y) :
  forall a b, list_eqb eqb a b = true <-> a = b.
Proof.
  induction a as [|x a IH]; destruct b as [|y b]; cbn.
  - split; reflexivity.
  - split; discriminate.
  - split; discriminate.
  - rewrite andb_true_iff, H, IH. split; [intros [-> ->]; reflexivity| intros E; inversion E; auto].
Qed.
Lemma list_eqb_refl {A} (eqb : A -> A -> bool) (R : forall x, eqb x x = true) l : list_eqb eqb l l = true.
Proof. induction l as [|x l IH]; cbn; [reflexivity| now rewrite R, IH]. Qed.
Lemma nat_list_eqb_eq (a b : list nat) : list_eqb Nat.eqb a b = true <-> a = b.
Proof. apply list_eqb_spec. intros x y. apply Nat.eqb_eq. Qed.

Definition option_eqb {A} (eqb : A -> A -> bool) (a b : option A) : bool :=
  match a, b with
  | None, None => true
  | Some x, Some y => eqb x y
  | _, _ => false
  end.

Definition pair_eqb {A B} (ea : A -> A -> bool) (eb : B -> B -> bool) (a b : A * B) : bool :=
  ea (fst a) (fst b) && eb (snd a) (snd b).

(* indices of the cases on which a boolean check fails: what every cases_*.v prints *)
Fixpoint bad_from {A} (ok : A -> bool) (i : nat) (l : list A) : list nat :=
  match l with
  | [] => []
  | x :: r => if ok x then bad_from ok (S i) r else i :: bad_from ok (S i) r
  end.
Definition bad {A} (ok : A -> bool) (l : list A) : list nat := bad_from ok 0 l.

Fixpoint is_prefix {A} (eqb : A -> A -> bool) (p l : list A) : bool :=
  match p, l with
  | [], _ => true
  | x :: p', y :: l' => eqb x y && is_prefix eqb p' l'
  | _ :: _, [] => false
  end.

Lemma is_prefix_spec {A} (eqb : A -> A -> bool)
  (H : forall x y, eqb x y = true <-> x = y) :
  forall p l, is_prefix eqb p l = true <-> exists r, l = p ++ r.
Proof.
  induction p as [|x p IH]; intros l; cbn.
  - split; [intros _; now exists l|auto].
  - destruct l as [|y l]; [split; [discriminate|intros [r E]; discriminate]|].
    rewrite andb_true_iff, H, IH. split.
    + intros [-> [r ->]]. now exists r.
    + intros [r E]. inversion E; subst. split; [reflexivity|now exists r].
Qed.

Lemma is_prefix_app {A} (eqb : A -> A -> bool) (H : forall x, eqb x x = true) p r :
  is_prefix eqb p (p ++ r) = true.
Proof. induction p as [|x p IH]; cbn; [reflexivity| now rewrite H]. Qed.
