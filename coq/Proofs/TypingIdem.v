(* Proofs/TypingIdem.v — C20: task-field histories, and idempotence of coercion on union-free types. *)
From Pydra Require Import Base.Prelude Model.Typing Spec.Typing Proofs.ListFacts Proofs.Typing.
Local Open Scope string_scope.

Section Field.
Variable T : tables.
Variable W : world.
Hypothesis WF : tables_wf T = true.

Theorem assign_conforms t v v' : assign T W t v = Ok v' -> conforms T t v'.
Proof. unfold assign. apply coerce_conforms, WF. Qed.

Theorem set_field_conforms t old v : conforms T t old -> conforms T t (set_field T W t old v).
Proof.
  intros H. unfold set_field. destruct (assign T W t v) eqn:E; [|exact H]. eapply assign_conforms; eassumption.
Qed.

(* every history of assignments: the field only ever holds a conforming value *)
Theorem field_history t vs : forall v0, conforms T t v0 -> conforms T t (fold_left (set_field T W t) vs v0).
Proof. induction vs as [|v vs IH]; intros v0 H; cbn; [exact H|]. apply IH, set_field_conforms, H. Qed.

Theorem set_field_rejected t old v e : assign T W t v = Err e -> set_field T W t old v = old.
Proof. intros H. unfold set_field. now rewrite H. Qed.
End Field.

(* [nd acc r]: no two items of r are [py_eq], and none is [py_eq] to an item of acc — what set() and dict keys keep,
   with acc the items seen so far *)
Inductive nd : list val -> list val -> Prop :=
  | nd_nil acc : nd acc []
  | nd_cons acc x r : existsb (fun y => py_eq y x) acc = false -> nd (x :: acc) r -> nd acc (x :: r).

Lemma dedupe_nd l : forall acc, exists r, dedupe l acc = (rev acc ++ r)%list /\ nd acc r.
Proof.
  induction l as [|x l IH]; intros acc; cbn.
  - exists []. rewrite app_nil_r. split; [reflexivity|constructor].
  - destruct (existsb (fun y => py_eq y x) acc) eqn:E.
    + apply IH.
    + destruct (IH (x :: acc)) as [r [Hr Hn]]. exists (x :: r). split.
      * rewrite Hr. cbn. now rewrite <- app_assoc.
      * now constructor.
Qed.

Lemma nd_dedupe r : forall acc, nd acc r -> dedupe r acc = (rev acc ++ r)%list.
Proof.
  induction r as [|x r IH]; intros acc H; cbn.
  - now rewrite app_nil_r.
  - inversion H as [|? ? ? Hx Hr]; subst. rewrite Hx, IH by assumption. cbn. now rewrite <- app_assoc.
Qed.

Lemma dedupe_idem l : dedupe (dedupe l []) [] = dedupe l [].
Proof.
  destruct (dedupe_nd l []) as [r [Hr Hn]]. cbn in Hr. rewrite Hr. now apply (nd_dedupe r []).
Qed.

Lemma dedupe_in l : forall acc x, In x (dedupe l acc) -> In x l \/ In x acc.
Proof. exact (dedupe_incl l). Qed.

(* two entries whose keys dict_set tells apart *)
Definition key_ne (p q : val * val) : Prop := py_eq (fst p) (fst q) = false.

Lemma dict_set_nd d : forall k x, ForallOrdPairs key_ne d -> ForallOrdPairs key_ne (dict_set d k x).
Proof.
  induction d as [|[k' x'] d IH]; intros k x H; cbn.
  - constructor; constructor.
  - inversion H as [|? ? Hall Hd]; subst. destruct (py_eq k' k) eqn:E.
    + constructor; assumption.
    + constructor; [|apply IH; assumption].
      apply (dict_set_forall (fun q => py_eq k' (fst q) = false)); auto.
Qed.

Lemma dict_set_fresh d k x :
  Forall (fun p => key_ne p (k, x)) d -> dict_set d k x = (d ++ [(k, x)])%list.
Proof.
  induction d as [|[k' x'] d IH]; cbn; intros H; [reflexivity|].
  inversion H as [|? ? Hk Hd]; subst. unfold key_ne in Hk. cbn in Hk. rewrite Hk. now rewrite IH.
Qed.

Lemma ForallOrdPairs_before {A} (R : A -> A -> Prop) l1 : forall y l2,
  ForallOrdPairs R (l1 ++ y :: l2) -> Forall (fun p => R p y) l1.
Proof.
  induction l1 as [|a l1 IH]; intros y l2 H; cbn in H; [constructor|].
  inversion H as [|? ? Hall Hr]; subst. constructor.
  - rewrite Forall_forall in Hall. apply Hall. apply in_or_app. right; left; reflexivity.
  - eapply IH; eassumption.
Qed.

Section DictIdem.
Variables fk fx : val -> result val.
Hypothesis Hk : forall a a', fk a = Ok a' -> fk a' = Ok a'.
Hypothesis Hx : forall b b', fx b = Ok b' -> fx b' = Ok b'.

Definition entry_fixed (p : val * val) : Prop :=
  fk (fst p) = Ok (fst p) /\ hashable (fst p) = true /\ fx (snd p) = Ok (snd p).
Definition dict_inv (d : list (val * val)) : Prop := ForallOrdPairs key_ne d /\ Forall entry_fixed d.

Lemma dict_res_inv : forall kv acc d, dict_inv acc -> dict_res fk fx kv acc = Ok d -> dict_inv d.
Proof.
  induction kv as [|[a b] kv IH]; cbn; intros acc d Hacc H.
  - now inversion H; subst.
  - destruct (fk a) as [a'|] eqn:Ea; [|discriminate].
    destruct (fx b) as [b'|] eqn:Eb; [|discriminate].
    destruct (hashable a') eqn:Eh; [|discriminate].
    eapply IH; [|exact H]. destruct Hacc as [H1 H2]. split.
    + now apply dict_set_nd.
    + apply dict_set_forall; [repeat split; cbn; eauto| |assumption].
      intros k' x' [A [B _]]. repeat split; cbn; eauto.
Qed.

Lemma dict_res_fixed : forall d2 d1,
  ForallOrdPairs key_ne (d1 ++ d2) -> Forall entry_fixed d2 -> dict_res fk fx d2 d1 = Ok (d1 ++ d2)%list.
Proof.
  induction d2 as [|[k x] d2 IH]; intros d1 Hnd Hfix; cbn.
  - now rewrite app_nil_r.
  - inversion Hfix as [|? ? [A [B C]] Hd]; subst. cbn in A, B, C. rewrite A, C, B.
    rewrite dict_set_fresh by (eapply ForallOrdPairs_before; eassumption).
    rewrite IH; [now rewrite <- app_assoc| now rewrite <- app_assoc |assumption].
Qed.
End DictIdem.

Lemma map_res_of_fixed {A} (f : A -> result A) l : Forall (fun y => f y = Ok y) l -> map_res f l = Ok l.
Proof. induction 1 as [|y l Hy Hl IH]; cbn; [reflexivity|]. now rewrite Hy, IH. Qed.

Lemma map_res_yields_fixed {A} (f : A -> result A) l l' :
  (forall x y, f x = Ok y -> f y = Ok y) -> map_res f l = Ok l' -> Forall (fun y => f y = Ok y) l'.
Proof. intros Hf H. apply (map_res_forall H). intros x y _. apply Hf. Qed.

Lemma is_none_ty_eq t : is_none_ty t = true -> t = TBase CNone.
Proof. destruct t as [[]| | | | | | |]; try discriminate; reflexivity. Qed.

(* an arm that never converts: it returns its input or raises TypeError *)
Definition never_converts (f : val -> result val) : Prop := forall x, f x = Ok x \/ f x = Err ETypeError.

(* a union of two idempotent arms, one of which never converts: if that arm accepted, the second run repeats the first;
   if the other did, it can only return the stored value or pass *)
Lemma first_ok2_idem {A} (c : A -> val -> result val) a b v v' :
  (forall x y, c a x = Ok y -> c a y = Ok y) -> (forall x y, c b x = Ok y -> c b y = Ok y) ->
  never_converts (c a) \/ never_converts (c b) ->
  first_ok (fun t => c t v) [a; b] = Ok v' -> first_ok (fun t => c t v') [a; b] = Ok v'.
Proof.
  intros Hf Hg Hin. cbn. destruct (c a v) as [y|[]] eqn:Ef; try discriminate.
  - intros [= <-]. now rewrite (Hf _ _ Ef).
  - destruct (c b v) as [y|[]] eqn:Eg; try discriminate. intros [= <-]. destruct Hin as [Hi|Hi].
    + destruct (Hi y) as [-> | ->]; [reflexivity|]. now rewrite (Hg _ _ Eg).
    + destruct (Hi v) as [E|E]; rewrite E in Eg; [injection Eg as <-|discriminate]. now rewrite Ef, E.
Qed.

Lemma stored_again o l :
  (is_setc o = true -> forallb hashable l = true) ->
  (is_setc o = true -> forallb hashable (stored o l) = true) /\ stored o (stored o l) = stored o l.
Proof.
  intros H. split.
  - intros Hs. apply forallb_forall, Forall_forall, stored_forall, Forall_forall, forallb_forall, H, Hs.
  - unfold stored. destruct (is_setc o); [apply dedupe_idem|reflexivity].
Qed.

Section Idem.
Variable T : tables.
Variable W : world.
Variable sac : bool.
Hypothesis WF : tables_wf T = true.

Lemma coerce_basic_idem c v v' : coerce_basic T W sac c v = Ok v' -> coerce_basic T W sac c v' = Ok v'.
Proof.
  rewrite !coerce_basic_enter. destruct (enter T sac c v) as [[|]|] eqn:E; [| |discriminate].
  - intros [= <-]. now rewrite E.
  - intros H. apply (construct_class T) in H. subst c. now rewrite (enter_inst T sac _ _ (is_instance_self T WF v')).
Qed.

Lemma none_never_converts : never_converts (coerce_basic T W sac CNone).
Proof.
  intros x. rewrite coerce_basic_enter. destruct (enter T sac CNone x) as [[|]|e] eqn:E; [now left|now right|right].
  now rewrite <- (enter_err T sac _ _ _ E).
Qed.

Lemma coerce_seq_idem o f v v' :
  In o seq_classes ->
  (forall x y, f x = Ok y -> f y = Ok y) ->
  coerce_seq T sac o f v = Ok v' -> coerce_seq T sac o f v' = Ok v'.
Proof.
  intros Ho Hf H. apply (coerce_seq_shape T WF) in H; [|exact Ho].
  destruct H as [Hi [items [l [k [Hl [-> Hh]]]]]].
  pose proof (stored_forall _ o l (map_res_yields_fixed f items l Hf Hl)) as Hfix.
  destruct (stored_again o l Hh) as [E1 E2].
  unfold coerce_seq. rewrite (enter_inst T sac _ _ Hi), iter_seq_value, (map_res_of_fixed f _ Hfix).
  rewrite build_ok, seq_value_tag, E2; [reflexivity|exact Ho|intros _; now apply seq_value_base|exact E1].
Qed.

Lemma coerce_multi_idem f v v' :
  (forall x y, f x = Ok y -> f y = Ok y) -> coerce_multi T f v = Ok v' -> coerce_multi T f v' = Ok v'.
Proof.
  intros Hf H. destruct (coerce_multi_shape T _ _ _ H) as [[x [Hx ->]]|[_ [items [l [_ [Hl ->]]]]]];
    unfold coerce_multi; rewrite (plain_list_not_vstr T WF); cbn [iter].
  - cbn. now rewrite (Hf _ _ Hx).
  - now rewrite (map_res_of_fixed f l (map_res_yields_fixed f items l Hf Hl)).
Qed.

Theorem coerce_idempotent_union_free :
  forall t, union_free t = true -> forall v v', coerce T W sac t v = Ok v' -> coerce T W sac t v' = Ok v'.
Proof.
  induction t as [c|a IHa|ts IHts|a IHa|k x IHk IHx|fr a IHa|ts IHts|a IHa] using ty_nested_ind;
    intros U v v' H; cbn [coerce] in *; cbn [union_free] in U; try destruct fr;
    try (eapply coerce_seq_idem; [cbn; tauto|apply IHa, U|exact H]).
  - eapply coerce_basic_idem; eassumption.
  - destruct (coerce_tuple_shape T WF sac _ _ _ _ H) as [Hi [l [k [-> Hz]]]].
    assert (Forall (fun a => forall x y, coerce T W sac a x = Ok y -> coerce T W sac a y = Ok y) ts) as HF.
    { rewrite forallb_forall in U. rewrite Forall_forall in *. intros a Ha. apply IHts; auto. }
    assert (zip_res (map (coerce T W sac) ts) l = Ok l) as H1.
    { clear - Hz HF. revert HF.
      induction Hz as [|a y ts l [x Hg] _ IH]; intros HF; [reflexivity|].
      inversion HF as [|? ? Ha Hts]; subst. cbn. now rewrite (Ha _ _ Hg), (IH Hts). }
    unfold coerce_tuple. rewrite (enter_inst T sac _ _ Hi). cbn [iter].
    rewrite map_length, (Forall2_length _ _ _ Hz), Nat.eqb_refl, H1. reflexivity.
  - apply andb_true_iff in U. destruct U as [Uk Ux].
    destruct (coerce_dict_shape T WF sac _ _ _ _ H) as [Hi [g0 [kv [g [d [-> [Hd ->]]]]]]].
    pose proof (dict_res_inv _ _ (IHk Uk) (IHx Ux) kv [] d) as Hinv.
    destruct Hinv as [Hnd Hfix]; [split; constructor|exact Hd|].
    unfold coerce_dict. rewrite (enter_inst T sac _ _ Hi).
    now rewrite (dict_res_fixed _ _ d [] Hnd Hfix).
  - (* Optional[...] *)
    destruct ts as [|a [|b [|c r]]]; try discriminate.
    inversion IHts as [|? ? IHa' IHr]; subst. apply Forall_inv in IHr.
    apply orb_true_iff in U. destruct U as [U|U]; apply andb_true_iff in U; destruct U as [Un Uf];
      apply is_none_ty_eq in Un; subst.
    + apply (first_ok2_idem (coerce T W sac) a (TBase CNone) v v');
        [exact (IHa' Uf)|apply coerce_basic_idem|right; apply none_never_converts|exact H].
    + apply (first_ok2_idem (coerce T W sac) (TBase CNone) b v v');
        [apply coerce_basic_idem|exact (IHr Uf)|left; apply none_never_converts|exact H].
  - eapply coerce_multi_idem; [apply IHa, U|exact H].
Qed.

End Idem.
