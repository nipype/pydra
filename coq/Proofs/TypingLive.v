(* Proofs/TypingLive.v — the conditions of the C20 theorems on the tables translated from the live source
   (Generated/TypingTables.v, rewritten on every run), re-checked by computation; examples evaluated on the live
   tables. *)
From Pydra Require Import Base.Prelude Model.Typing Spec.Typing Proofs.Typing Proofs.TypingNss.
From Pydra Require Import Generated.TypingTables.
Local Open Scope string_scope.

Lemma live_wf : tables_wf live = true.
Proof. vm_compute. reflexivity. Qed.

Lemma live_nss : tables_nss no_pairs live = true.
Proof. vm_compute. reflexivity. Qed.

(* a world in which every path exists and suits every format *)
Definition W_all : world := {| w_abs := fun p => p; w_check := fun _ _ => None |}.

(* the theorems are not vacuous: conversions do happen *)
Example ex_convert :
  coerce live W_all false (TList (TBase CFloat)) (VTuple None [VInt None 1; VBool true]) = Ok (VList None [VFloat None 1; VFloat None 1]).
Proof. vm_compute. reflexivity. Qed.
Example ex_reject : coerce live W_all false (TList (TBase CInt)) (VStr None "abc") = Err ETypeError.
Proof. vm_compute. reflexivity. Qed.
Example ex_nested :
  coerce live W_all true (TDict (TBase CPath) (TSet false (TBase CFloat)))
         (VDict None [(VStr None "a//b", VList None [VInt None 1; VFloat None 1; VInt None 2])])
  = Ok (VDict None [(VPath None "a/b", VSet None false [VFloat None 1; VFloat None 2])]).
Proof. vm_compute. reflexivity. Qed.

(* instances of registered subclasses (KSub 0 = class StrSub(str), KSub 5 = class ListSub(list), KSub 12 =
   numpy.int64): a str subclass is wrapped, not split, by a MultiInputObj field; a list subclass keeps its class;
   a numpy.int64 is converted by int() *)
Example ex_sub_str_multi :
  coerce live W_all false (TMulti (TBase CStr)) (VStr (Some 0) "abc") = Ok (VList None [VStr (Some 0) "abc"]).
Proof. vm_compute. reflexivity. Qed.
Example ex_sub_list :
  coerce live W_all false (TList (TBase CFloat)) (VList (Some 5) [VInt None 1])
  = Ok (VList (Some 5) [VFloat None 1]).
Proof. vm_compute. reflexivity. Qed.
Example ex_numpy_int :
  coerce live W_all false (TBase CInt) (VInt (Some 12) 3) = Ok (VInt None 3).
Proof. vm_compute. reflexivity. Qed.

(* the conversions of finding F20 (repaired by a fix: commit) are rejected *)
Example ex_str_to_set : coerce live W_all false (TSet false (TBase CStr)) (VStr None "abc") = Err ETypeError.
Proof. vm_compute. reflexivity. Qed.
Example ex_set_to_str : coerce live W_all false (TBase CStr) (VSet None false [VStr None "a"]) = Err ETypeError.
Proof. vm_compute. reflexivity. Qed.
Example ex_bytes_to_list : coerce live W_all false (TList (TBase CInt)) (VBytes None "ab") = Err ETypeError.
Proof. vm_compute. reflexivity. Qed.
Example ex_multi_bytes : coerce live W_all false (TMulti (TBase CBytes)) (VBytes None "ab") = Ok (VList None [VBytes None "ab"]).
Proof. vm_compute. reflexivity. Qed.
