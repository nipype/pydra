(* Proofs/HashOrder.v — what another session may change about a value (reorder: the iteration order of sets, the
   insertion order of dicts / attribute dicts, identities), the condition under which `sorted` undoes the change
   (keys_ok, sortable: `<` is a strict total order on the pairwise distinct elements / keys of every such
   container), and what `sorted` then gives the serializers (sorted_set_perm, mapping_eq).  str, bytes and int keys
   are such classes. *)
From Coq Require Import Sorting.Permutation.
From Pydra Require Import Base.Prelude Base.PySort Model.Hash Proofs.HashSort Proofs.HashCtx Proofs.ListFacts.

Local Open Scope list_scope.

Record ordered_class (P : pyval -> Prop) : Prop := {
  oc_def : forall x y, P x -> P y -> exists b, vlt x y = Some b;
  oc_trans : forall x y z, P x -> P y -> P z ->
                           vlt x y = Some true -> vlt y z = Some true -> vlt x z = Some true;
  oc_asym : forall x y, P x -> P y -> vlt x y = Some true -> vlt y x = Some true -> False;
  oc_total : forall x y, P x -> P y -> x <> y -> vlt x y = Some true \/ vlt y x = Some true }.

Definition keys_ok (ks : list pyval) : Prop := NoDup ks /\ exists P, ordered_class P /\ Forall P ks.

Inductive sortable : pyval -> Prop :=
| so_intro v :
    match v with
    | VSet _ l | VFrozenset _ l => keys_ok l
    | VDict _ kvs => keys_ok (map fst kvs)
    | VObj _ _ ats => keys_ok (map (fun a : string * pyval => VStr (fst a)) ats)
    | _ => True
    end ->
    (forall x, In x (subs v) -> sortable x) -> sortable v.

(* v2 is v1 with the element order of sets and the insertion order of dicts / attribute dicts changed,
   anywhere in the value (object identities may change too) *)
Inductive reorder : pyval -> pyval -> Prop :=
| ro_refl v : reorder v v
| ro_list i j l1 l2 : Forall2 reorder l1 l2 -> reorder (VList i l1) (VList j l2)
| ro_tuple i j l1 l2 : Forall2 reorder l1 l2 -> reorder (VTuple i l1) (VTuple j l2)
| ro_set i j l1 l2 : Permutation l1 l2 -> reorder (VSet i l1) (VSet j l2)
| ro_fset i j l1 l2 : Permutation l1 l2 -> reorder (VFrozenset i l1) (VFrozenset j l2)
| ro_dict i j kv1 kv' kv2 :
    Permutation kv1 kv' ->
    Forall2 (fun a b : pyval * pyval => fst a = fst b /\ reorder (snd a) (snd b)) kv' kv2 ->
    reorder (VDict i kv1) (VDict j kv2)
| ro_obj i j c a1 a' a2 :
    Permutation a1 a' ->
    Forall2 (fun a b : string * pyval => fst a = fst b /\ reorder (snd a) (snd b)) a' a2 ->
    reorder (VObj i c a1) (VObj j c a2).

Lemma sorted_set_perm l1 l2 :
  keys_ok l1 -> Permutation l1 l2 -> sorted_res vlt l1 = sorted_res vlt l2.
Proof.
  intros [Hnd (P & [Pdef Ptrans Pasym Ptotal] & HF)] Hp.
  destruct (py_sorted_perm_invariant vlt P Pdef Ptrans Pasym Ptotal l1 l2 HF Hnd Hp) as (s & E1 & E2 & _).
  unfold sorted_res. now rewrite E1, E2.
Qed.

(* HashCtx.same at the unit memo, spelled as an equation at tt: related sub-objects with the same digests give the
   same bytes *)
Lemma seq_contents_eq (rec : pyval -> unit -> res (string * unit)) l1 l2 :
  Forall2 (fun a b => rec a tt = rec b tt) l1 l2 -> seq_contents rec l1 tt = seq_contents rec l2 tt.
Proof.
  intros HF. apply (seq_contents_cong rec rec same same_ret same_bind).
  apply (F2_impl_in HF). intros a b _ _ E []. exact E.
Qed.

Lemma map_contents_eq (rec : pyval -> unit -> res (string * unit)) s1 s2 :
  Forall2 (fun a b : pyval * pyval => fst a = fst b /\ rec (snd a) tt = rec (snd b) tt) s1 s2 ->
  map_contents rec s1 tt = map_contents rec s2 tt.
Proof.
  intros HF. apply (map_contents_cong rec rec same same_ret same_err same_bind).
  apply (F2_impl_in HF). intros a b _ _ [Ek Ex]. split; [exact Ek|]. split; [intros x _ m; reflexivity|]. intros []. exact Ex.
Qed.

(* HashSort.py_sorted_rel in the form in which [mapping] and the set cases of [repr] meet the sort: an error is passed
   on, a result goes to what comes next *)
Lemma sorted_res_rel {A X} {lt : A -> A -> option bool} {Q : A -> A -> Prop} {k k' : list A -> res X} {l l'} :
  Forall2 Q l l' -> (forall a a' b b', Q a b -> Q a' b' -> lt a a' = lt b b') ->
  (forall s s', Forall2 Q s s' -> k s = k' s') ->
  match sorted_res lt l with Err e => Err e | Ok s => k s end = match sorted_res lt l' with Err e => Err e | Ok s => k' s end.
Proof.
  intros HF Hlt Hk. pose proof (py_sorted_rel lt lt Q Hlt l l' HF) as Hrel. unfold sorted_res.
  destruct (py_sorted lt l), (py_sorted lt l'); cbn in Hrel; try contradiction; auto.
Qed.

Lemma sorted_items_perm {B} (kv1 kv' : list (pyval * B)) :
  keys_ok (map fst kv1) -> Permutation kv1 kv' -> sorted_res kvlt kv1 = sorted_res kvlt kv'.
Proof.
  intros [Hnd (P & [Pdef Ptrans Pasym Ptotal] & HF)] Hp.
  (* two pairs with one key are incomparable under [kvlt]; among the pairs of kv1 there are none, the keys being distinct *)
  set (P' := fun kv : pyval * B => In kv kv1 /\ P (fst kv)).
  destruct (py_sorted_perm_invariant (@kvlt B) P') with (l1 := kv1) (l2 := kv') as (s & E1 & E2 & _); auto.
  - intros x y [_ Hx] [_ Hy]. apply Pdef; auto.
  - intros x y z [_ Hx] [_ Hy] [_ Hz]. apply Ptrans; auto.
  - intros x y [_ Hx] [_ Hy]. apply Pasym; auto.
  - intros x y [Hix Hx] [Hiy Hy] Hne. apply Ptotal; auto.
    intros E. apply Hne. eapply NoDup_map_inj; eauto.
  - rewrite Forall_forall. intros kv Hin. split; auto. rewrite Forall_forall in HF. apply HF. now apply in_map.
  - eapply NoDup_map_inv; eauto.
  - unfold sorted_res. now rewrite E1, E2.
Qed.

Lemma mapping_eq (rec : pyval -> unit -> res (string * unit)) kv1 kv' kv2 :
  keys_ok (map fst kv1) -> Permutation kv1 kv' ->
  Forall2 (fun a b : pyval * pyval => fst a = fst b /\ rec (snd a) tt = rec (snd b) tt) kv' kv2 ->
  mapping rec kv1 tt = mapping rec kv2 tt.
Proof.
  intros Hk Hp HQ. unfold mapping. rewrite (sorted_items_perm kv1 kv' Hk Hp).
  apply (sorted_res_rel HQ); [|apply map_contents_eq].
  intros a a' b b' [Ea _] [Ea' _]. unfold kvlt. now rewrite Ea, Ea'.
Qed.

Lemma str_ltb_cons : forall x a y b,
    str_ltb (String x a) (String y b) =
    match nat_of_ascii x ?= nat_of_ascii y with Lt => true | Gt => false | Eq => str_ltb a b end.
Proof.
  intros x a y b. cbn [str_ltb]. destruct (Nat.compare_spec (nat_of_ascii x) (nat_of_ascii y)) as [E|L|L].
  - now rewrite E, Nat.ltb_irrefl.
  - now rewrite (proj2 (Nat.ltb_lt _ _) L).
  - now rewrite (proj2 (Nat.ltb_ge _ _) (Nat.lt_le_incl _ _ L)), (proj2 (Nat.ltb_lt _ _) L).
Qed.

Lemma str_ltb_irrefl : forall a, str_ltb a a = false.
Proof. induction a as [|c a IH]; [reflexivity|]. now rewrite str_ltb_cons, Nat.compare_refl. Qed.

Lemma str_ltb_trans : forall a b c, str_ltb a b = true -> str_ltb b c = true -> str_ltb a c = true.
Proof.
  induction a as [|x a IH]; intros [|y b] [|z c]; try discriminate; auto. rewrite !str_ltb_cons.
  destruct (Nat.compare_spec (nat_of_ascii x) (nat_of_ascii y)), (Nat.compare_spec (nat_of_ascii y) (nat_of_ascii z)),
    (Nat.compare_spec (nat_of_ascii x) (nat_of_ascii z)); try discriminate; try lia; auto.
  apply IH.
Qed.

Lemma str_ltb_total : forall a b, a <> b -> str_ltb a b = true \/ str_ltb b a = true.
Proof.
  induction a as [|x a IH]; intros [|y b] Hne; [congruence|now left|now right|].
  rewrite !str_ltb_cons, (Nat.compare_antisym (nat_of_ascii x)).
  destruct (Nat.compare_spec (nat_of_ascii x) (nat_of_ascii y)) as [E|L|L]; [|now left|now right].
  apply IH. intros ->. apply Hne. f_equal. apply nat_of_ascii_inj, E.
Qed.

Lemma ordered_by {A} (mk : A -> pyval) (ltb : A -> A -> bool) :
  (forall a b, vlt (mk a) (mk b) = Some (ltb a b)) ->
  (forall a, ltb a a = false) -> (forall a b c, ltb a b = true -> ltb b c = true -> ltb a c = true) ->
  (forall a b, a <> b -> ltb a b = true \/ ltb b a = true) ->
  ordered_class (fun v => exists a, v = mk a).
Proof.
  intros Hlt Hirr Htr Htot. constructor.
  - intros x y [a ->] [b ->]. rewrite Hlt. now eexists.
  - intros x y z [a ->] [b ->] [c ->]. rewrite !Hlt. intros E1 E2. injection E1 as E1. injection E2 as E2.
    f_equal. eapply Htr; eassumption.
  - intros x y [a ->] [b ->]. rewrite !Hlt. intros E1 E2. injection E1 as E1. injection E2 as E2.
    pose proof (Htr _ _ _ E1 E2) as E. rewrite Hirr in E. discriminate.
  - intros x y [a ->] [b ->] Hne. rewrite !Hlt.
    destruct (Htot a b) as [E|E]; [congruence|rewrite E; now left|rewrite E; now right].
Qed.

Lemma ordered_str : ordered_class (fun v => exists s, v = VStr s).
Proof.
  apply (ordered_by VStr str_ltb); [reflexivity|exact str_ltb_irrefl|exact str_ltb_trans|exact str_ltb_total].
Qed.

Lemma ordered_bytes : ordered_class (fun v => exists s, v = VBytes s).
Proof.
  apply (ordered_by VBytes str_ltb); [reflexivity|exact str_ltb_irrefl|exact str_ltb_trans|exact str_ltb_total].
Qed.

Lemma ordered_int : ordered_class (fun v => exists z, v = VInt z).
Proof.
  apply (ordered_by VInt Z.ltb); [reflexivity|exact Z.ltb_irrefl| |].
  - intros a b c E1 E2. apply Z.ltb_lt in E1, E2. apply Z.ltb_lt. lia.
  - intros a b Hne. rewrite !Z.ltb_lt. lia.
Qed.

Lemma keys_ok_map {A} (mk : A -> pyval) (l : list A) :
  (forall a b, mk a = mk b -> a = b) -> ordered_class (fun v => exists a, v = mk a) -> NoDup l -> keys_ok (map mk l).
Proof.
  intros Hinj HP Hnd. split; [now apply FinFun.Injective_map_NoDup|].
  eexists. split; [exact HP|]. apply Forall_forall. intros x Hx. apply in_map_iff in Hx.
  destruct Hx as (a & <- & _). now exists a.
Qed.

(* every attribute dict is sortable: attribute names are distinct strings *)
Lemma keys_ok_attr_names (ats : list (string * pyval)) :
  NoDup (map fst ats) -> keys_ok (map (fun a : string * pyval => VStr (fst a)) ats).
Proof.
  intros Hnd. rewrite <- (map_map fst VStr).
  apply (keys_ok_map VStr); [congruence|exact ordered_str|exact Hnd].
Qed.

(* a non-trivial instance of the hypotheses: {"b": {3, 1, 2}, "a": [b"x"]} with the set and the dict reordered *)
Example reorder_example :
  let v1 := VDict 1 [(VStr "b", VSet 2 [VInt 3; VInt 1; VInt 2]); (VStr "a", VList 3 [VBytes "x"])] in
  let v2 := VDict 7 [(VStr "a", VList 8 [VBytes "x"]); (VStr "b", VSet 9 [VInt 2; VInt 3; VInt 1])] in
  reorder v1 v2 /\ sortable v1.
Proof.
  cbv zeta. split.
  - apply ro_dict with (kv' := [(VStr "a", VList 3 [VBytes "x"]); (VStr "b", VSet 2 [VInt 3; VInt 1; VInt 2])]).
    + apply perm_swap.
    + constructor; [split; [reflexivity|]|constructor; [split; [reflexivity|]|constructor]]; cbn [snd].
      * apply ro_list. constructor; [apply ro_refl|constructor].
      * apply ro_set. apply perm_trans with [VInt 3; VInt 2; VInt 1]; [apply perm_skip; apply perm_swap|apply perm_swap].
  - assert (Hatom : forall v, subs v = [] -> match v with VSet _ _ | VFrozenset _ _ | VDict _ _ | VObj _ _ _ => False | _ => True end -> sortable v).
    { intros v Hs Hm. constructor; [destruct v; auto; contradiction|rewrite Hs; intros x []]. }
    constructor.
    + cbn. split; [repeat constructor; cbn; intuition discriminate|].
      eexists. split; [exact ordered_str|]. repeat constructor; now eexists.
    + cbn. intros x [<-|[<-|[]]].
      * constructor.
        -- split; [repeat constructor; cbn; intuition discriminate|].
           eexists. split; [exact ordered_int|]. repeat constructor; now eexists.
        -- cbn. intros x [<-|[<-|[<-|[]]]]; apply Hatom; cbn; auto.
      * constructor; [exact Logic.I|]. cbn. intros x [<-|[]]. apply Hatom; cbn; auto.
Qed.
