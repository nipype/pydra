(* Proofs/StateWfStep.v — C03: the spec's folds over the inputs of a node (ups, up_axes), other_states as the
   model wires them, and _add_state_history on separate origins. *)
From Pydra Require Import Base.Prelude Model.StateWf Spec.StateWf Proofs.StateWfLists Proofs.ListFacts.

Local Open Scope nat_scope.

(* what one input contributes to up_axes and to ups: both folds append what is not there yet *)
Definition open_axes (stab : list sentry) (b : binding) : list key :=
  match b with BUp j => s_faxes_of stab j | _ => [] end.
Definition state_inputs (stab : list sentry) (b : binding) : list nat :=
  match b with BUp j => if is_nil (s_faxes_of stab j) then [] else [j] | _ => [] end.

Lemma up_axes_pushes stab fields : up_axes stab fields = pushes key_eqb [] (flat_map (open_axes stab) fields).
Proof. unfold up_axes. apply fold_pushes. intros a [z|vs|j]; reflexivity. Qed.
Lemma ups_pushes stab fields : ups stab fields = pushes Nat.eqb [] (flat_map (state_inputs stab) fields).
Proof.
  unfold ups. apply fold_pushes. intros a [z|vs|j]; try reflexivity.
  cbn. destruct (is_nil (s_faxes_of stab j)); reflexivity.
Qed.

Lemma In_state_inputs stab x b : In x (state_inputs stab b) <-> b = BUp x /\ s_faxes_of stab x <> [].
Proof.
  destruct b as [z|vs|j]; cbn; [split; [intros [] | intros [E _]; discriminate E] .. |].
  destruct (s_faxes_of stab j) eqn:E; cbn.
  - split; [intros [] | intros [Ej H]]. inversion Ej; subst. contradiction.
  - split; [intros [<-|[]]; split; [reflexivity | rewrite E; discriminate] | intros [Ej _]; inversion Ej; left; reflexivity].
Qed.
Lemma ups_in stab fields x : In x (ups stab fields) <-> In (BUp x) fields /\ s_faxes_of stab x <> [].
Proof.
  rewrite ups_pushes, (In_pushes Nat.eqb Nat.eqb_eq), in_flat_map. split.
  - intros [[]|[b [Hb Hx]]]. apply In_state_inputs in Hx. destruct Hx as [-> H]. split; assumption.
  - intros [Hb H]. right. exists (BUp x). split; [exact Hb | apply In_state_inputs; split; [reflexivity | exact H]].
Qed.
Lemma ups_nodup stab fields : NoDup (ups stab fields).
Proof. rewrite ups_pushes. apply (NoDup_pushes Nat.eqb Nat.eqb_eq). constructor. Qed.

Lemma up_axes_nodup stab fields : NoDup (up_axes stab fields).
Proof. rewrite up_axes_pushes. apply (NoDup_pushes key_eqb key_eqb_eq). constructor. Qed.
Lemma In_up_axes stab fields k :
  In k (up_axes stab fields) <-> exists x, In (BUp x) fields /\ In k (s_faxes_of stab x).
Proof.
  rewrite up_axes_pushes, (In_pushes key_eqb key_eqb_eq), in_flat_map. split.
  - intros [[]|[b [Hb Hk]]]. destruct b as [z|vs|j]; try contradiction. exists j. split; assumption.
  - intros [x [Hb Hk]]. right. exists (BUp x). split; assumption.
Qed.

(* every state-carrying input x has a representative rep x with the same open axes, and different representatives
   have no axis in common: rep = id for separate origins; a state and its relay have one representative *)
Lemma up_axes_flat stab (rep : nat -> nat) (Q : nat -> Prop) :
  (forall p, Q p -> NoDup (s_faxes_of stab p)) ->
  (forall p q, Q p -> Q q -> p <> q -> forall k, In k (s_faxes_of stab p) -> ~ In k (s_faxes_of stab q)) ->
  forall fields,
  (forall x, In x (ups stab fields) -> Q (rep x) /\ s_faxes_of stab (rep x) = s_faxes_of stab x) ->
  up_axes stab fields = flat_map (s_faxes_of stab) (pushes Nat.eqb [] (map rep (flat_map (state_inputs stab) fields))).
Proof.
  intros QN QD fields H. rewrite up_axes_pushes.
  assert (F : Forall Q (map rep (flat_map (state_inputs stab) fields))).
  { apply Forall_forall. intros p Hp. apply in_map_iff in Hp. destruct Hp as [x [<- Hx]].
    apply H. rewrite ups_pushes. apply (In_pushes Nat.eqb Nat.eqb_eq). right. exact Hx. }
  rewrite <- (pushes_blocks key_eqb Nat.eqb (s_faxes_of stab) Q key_eqb_eq Nat.eqb_eq QN QD _ F [] (Forall_nil _)).
  f_equal. rewrite flat_map_map, flat_map_flat_map. apply flat_map_ext_in. intros [z|vs|j] Hb; try reflexivity.
  cbn [open_axes state_inputs]. destruct (s_faxes_of stab j) eqn:E; [reflexivity|]. cbn [is_nil flat_map]. rewrite app_nil_r, <- E.
  symmetry. apply (H j). apply ups_in. split; [exact Hb | rewrite E; discriminate].
Qed.

Lemma up_axes_one stab fields x :
  NoDup (s_faxes_of stab x) -> ups stab fields <> [] ->
  (forall j, In j (ups stab fields) -> s_faxes_of stab j = s_faxes_of stab x) ->
  up_axes stab fields = s_faxes_of stab x.
Proof.
  intros HN Hne HA. rewrite (up_axes_flat stab (fun _ => x) (eq x)).
  - rewrite (pushes_const Nat.eqb Nat.eqb_eq); [cbn; apply app_nil_r|].
    intros E. apply Hne. rewrite ups_pushes, E. reflexivity.
  - intros p <-. exact HN.
  - intros p q <- <- H. contradiction.
  - intros j Hj. split; [reflexivity | symmetry; exact (HA j Hj)].
Qed.

Lemma add_other_fields o j f : add_other o j f = add_fields o j [f].
Proof. induction o as [|[j' fl] o IH]; cbn; [reflexivity|]. rewrite IH. reflexivity. Qed.
Lemma add_fields_fst o j fl : map fst (add_fields o j fl) = pushes Nat.eqb (map fst o) [j].
Proof.
  induction o as [|[j' fl'] o IH]; [reflexivity|].
  cbn [add_fields map fst]. unfold pushes in *. cbn [fold_left existsb] in *. rewrite (Nat.eqb_sym j j').
  destruct (Nat.eqb j' j) eqn:E; cbn [orb map fst]; [reflexivity|]. rewrite IH.
  destruct (existsb (Nat.eqb j) (map fst o)); reflexivity.
Qed.
Lemma fields_of_add_fields o j fl z :
  fields_of (add_fields o j fl) z = if Nat.eqb z j then fields_of o j ++ fl else fields_of o z.
Proof.
  unfold fields_of. induction o as [|[j' fl'] o IH]; cbn.
  - rewrite (Nat.eqb_sym j z). destruct (Nat.eqb z j); reflexivity.
  - destruct (Nat.eqb_spec j' j) as [->|Hj]; cbn.
    + rewrite (Nat.eqb_sym z j). destruct (Nat.eqb j z); reflexivity.
    + destruct (Nat.eqb_spec j' z) as [->|Hz]; [|exact IH]. rewrite (proj2 (Nat.eqb_neq z j) Hj). reflexivity.
Qed.

Section Upstream.
Variables (mtab : list mnode) (stab : list sentry).

(* the positions, counted from f0, of the fields bound to a state-carrying x *)
Fixpoint fed (x f0 : nat) (fields : list binding) : list nat :=
  match fields with
  | [] => []
  | b :: r => (if memn x (state_inputs stab b) then [f0] else []) ++ fed x (S f0) r
  end.
Lemma In_fed x fields : forall f0 f,
  In f (fed x f0 fields) <-> exists i, f = f0 + i /\ nth_error fields i = Some (BUp x) /\ s_faxes_of stab x <> [].
Proof.
  induction fields as [|b fields IH]; intros f0 f; cbn [fed].
  - split; [intros [] | intros [[|i] [_ [E _]]]; discriminate E].
  - split.
    + intros H. apply in_app_or in H. destruct H as [H|H].
      * destruct (memn x (state_inputs stab b)) eqn:E; [|destruct H]. destruct H as [<-|[]].
        apply memn_In, In_state_inputs in E. destruct E as [-> E]. exists 0. rewrite Nat.add_0_r. auto.
      * apply IH in H. destruct H as [i [-> H]]. exists (S i). rewrite Nat.add_succ_comm. auto.
    + intros [[|i] [-> [E H]]]; apply in_or_app.
      * left. injection E as ->. rewrite Nat.add_0_r.
        rewrite (proj2 (memn_In _ _) (proj2 (In_state_inputs stab x (BUp x)) (conj eq_refl H))). left; reflexivity.
      * right. apply IH. exists i. rewrite Nat.add_succ_comm. auto.
Qed.
Lemma NoDup_fed x fields : forall f0, NoDup (fed x f0 fields).
Proof.
  induction fields as [|b fields IH]; intros f0; cbn [fed]; [constructor|].
  destruct (memn x (state_inputs stab b)); [|apply IH]. constructor; [|apply IH].
  intros H. apply In_fed in H. destruct H as [i [E _]]. lia.
Qed.

Lemma upstream_from_spec : forall fields f0 o, (forall x, In (BUp x) fields -> ent_rpnf mtab x = s_faxes_of stab x) ->
  map fst (upstream_from mtab f0 fields o) = pushes Nat.eqb (map fst o) (flat_map (state_inputs stab) fields) /\
  forall x, fields_of (upstream_from mtab f0 fields o) x = fields_of o x ++ fed x f0 fields.
Proof.
  induction fields as [|b fields IH]; intros f0 o HL; cbn [upstream_from fed flat_map].
  - split; [reflexivity | intros x; rewrite app_nil_r; reflexivity].
  - rewrite pushes_app.
    assert (HL' : forall x, In (BUp x) fields -> ent_rpnf mtab x = s_faxes_of stab x) by (intros x Hx; apply HL; right; exact Hx).
    destruct b as [z|vs|j]; try exact (IH (S f0) o HL').
    rewrite (HL j (or_introl eq_refl)). cbn [state_inputs].
    destruct (is_nil (s_faxes_of stab j)); [exact (IH (S f0) o HL')|].
    destruct (IH (S f0) (add_other o j f0) HL') as [E1 E2]. split.
    + rewrite E1, add_other_fields, add_fields_fst. reflexivity.
    + intros x. rewrite E2, add_other_fields, fields_of_add_fields. cbn [memn existsb orb].
      destruct (Nat.eqb x j) eqn:E; [|reflexivity]. apply Nat.eqb_eq in E. subst j. rewrite <- app_assoc. reflexivity.
Qed.

End Upstream.

Lemma s_faxes_of_app stab ext x : x < List.length stab -> s_faxes_of (stab ++ ext) x = s_faxes_of stab x.
Proof. intros H. unfold s_faxes_of. rewrite nth_error_app1 by exact H. reflexivity. Qed.
Lemma s_out_of_app stab ext x rho : x < List.length stab -> s_out_of (stab ++ ext) x rho = s_out_of stab x rho.
Proof. intros H. unfold s_out_of. rewrite nth_error_app1 by exact H. reflexivity. Qed.
Lemma up_axes_ext stab stab' fields : (forall x, In (BUp x) fields -> s_faxes_of stab' x = s_faxes_of stab x) ->
  up_axes stab' fields = up_axes stab fields.
Proof.
  intros H. rewrite !up_axes_pushes.
  f_equal. apply flat_map_ext_in. intros [z|vs|j] Hb; try reflexivity. exact (H j Hb).
Qed.

(* _add_state_history, and with it both passes of connect, leave separate origins alone *)
Lemma history_id mtab prev other :
  (forall el z, In el prev -> In z (ent_prev mtab el) -> ~ In z prev) -> history mtab prev other = Some (prev, other).
Proof.
  intros H.
  assert (H' : forall el, In el prev ->
            filter (fun x => memn x (filter (fun e => is_nil (ent_other mtab e)) prev)) (ent_prev mtab el) = []).
  { intros el Hel. apply filter_nil. intros z Hz. apply memn_false. intros Hin. apply filter_In in Hin.
    exact (H el z Hel Hz (proj1 Hin)). }
  unfold history. rewrite (fold_left_fix _ _ (Some (prev, other))).
  - apply fold_left_fix. intros el Hel. apply filter_In in Hel. rewrite (H' el (proj1 Hel)). reflexivity.
  - intros el Hel. apply filter_In in Hel. rewrite (H' el (proj1 Hel)). reflexivity.
Qed.
Lemma connect_id mtab other :
  (forall el z, In el (map fst other) -> In z (ent_prev mtab el) -> ~ In z (map fst other)) ->
  connect mtab other = Some (map fst other, other).
Proof.
  intros H. unfold connect. rewrite (history_id _ _ _ H).
  rewrite filter_nil by (intros x Hx; rewrite (proj2 (memn_In x _) Hx); reflexivity).
  destruct (Nat.leb 2 (List.length (map fst other))); [apply history_id; exact H | reflexivity].
Qed.
