(* Proofs/Template.v — output templates (C26).  pathlib's normal form: parse keeps components without "/" that are
   neither "" nor ".", and parse after render is the identity on such paths; hence job_dir / name lies inside the job
   directory exactly when the name is a proper component.  Then: formatting reads only the fields the template refers
   to; without keep_extension the extensions of path values do not matter; str.format on a template that ends in a
   field commutes with extending that field's value. *)
From Pydra Require Import Base.Prelude Base.PyPath Base.PyFormat Proofs.Assoc Model.Template Spec.Template.

Local Open Scope char_scope.
Local Open Scope list_scope.

(* a component as parse leaves it: non-empty, not ".", no "/" *)
Definition comp_ok (c : list ascii) : Prop := keep_comp c = true /\ ~ In slash c.

Lemma split_slash_noslash l : forall cur, ~ In slash cur ->
  Forall (fun c => ~ In slash c) (split_slash l cur).
Proof.
  induction l as [|c l IH]; intros cur Hc; cbn.
  - constructor; [|constructor]. now rewrite <- in_rev.
  - destruct (Ascii.eqb c slash) eqn:E.
    + constructor; [now rewrite <- in_rev| apply IH; intros []].
    + apply IH. intros [->|H]; [|auto]. rewrite Ascii.eqb_refl in E. discriminate.
Qed.

Lemma parse_wf s : Forall comp_ok (p_comps (parse s)).
Proof.
  unfold parse; cbn. apply Forall_forall. intros c Hc.
  apply filter_In in Hc. destruct Hc as [Hin Hk]. split; [exact Hk|].
  pose proof (split_slash_noslash s [] (fun x => x)) as H. rewrite Forall_forall in H. now apply H.
Qed.

Lemma split_slash_plain l : ~ In slash l -> forall cur, split_slash l cur = [rev cur ++ l].
Proof.
  induction l as [|c l IH]; intros Hn cur; cbn.
  - now rewrite app_nil_r.
  - destruct (Ascii.eqb c slash) eqn:E.
    + apply Ascii.eqb_eq in E. subst. exfalso. apply Hn. now left.
    + rewrite IH; [|intros H; apply Hn; now right]. cbn. now rewrite <- app_assoc.
Qed.

Lemma split_slash_sep a : forall cur b, split_slash (a ++ slash :: b) cur = split_slash a cur ++ split_slash b [].
Proof.
  induction a as [|x a IH]; intros cur b; cbn; [reflexivity|].
  destruct (Ascii.eqb x slash); [cbn; f_equal|]; apply IH.
Qed.

Lemma comp_ok_nonempty c : comp_ok c -> c <> [].
Proof. intros [H _] ->. discriminate. Qed.

Lemma leading_slashes_comp c r : comp_ok c -> leading_slashes (c ++ r) = 0.
Proof.
  intros [Hk Hn]. destruct c as [|x c]; [discriminate|]. cbn.
  destruct (Ascii.eqb x slash) eqn:E; [|reflexivity].
  apply Ascii.eqb_eq in E. subst. exfalso. apply Hn. now left.
Qed.

Lemma parse_nil : parse [] = {| p_anchor := ARel; p_comps := [] |}.
Proof. reflexivity. Qed.

Lemma split_join_noslash cs : Forall (fun c => ~ In slash c) cs -> cs <> [] -> split_slash (join_slash cs) [] = cs.
Proof.
  induction 1 as [|c cs Hc _ IH]; intros Hne; [congruence|]. destruct cs as [|d cs].
  - apply (split_slash_plain c Hc []).
  - change (join_slash (c :: d :: cs)) with (c ++ slash :: join_slash (d :: cs)).
    rewrite split_slash_sep, (split_slash_plain c Hc []), IH by discriminate. reflexivity.
Qed.

Lemma split_join cs : Forall comp_ok cs -> cs <> [] -> split_slash (join_slash cs) [] = cs.
Proof. intros H. apply split_join_noslash. revert H. apply Forall_impl. now intros c [_ H]. Qed.

Lemma filter_keep_ok cs : Forall comp_ok cs -> filter keep_comp cs = cs.
Proof.
  induction 1 as [|c cs [Hk _] _ IH]; cbn; [reflexivity|]. now rewrite Hk, IH.
Qed.

Lemma leading_join cs : Forall comp_ok cs -> leading_slashes (join_slash cs) = 0.
Proof.
  intros Hf. destruct cs as [|c cs]; [reflexivity|]. inversion Hf as [|? ? Hc Hcs]; subst.
  destruct cs as [|d cs].
  - cbn. rewrite <- (app_nil_r c). now apply leading_slashes_comp.
  - change (join_slash (c :: d :: cs)) with (c ++ slash :: join_slash (d :: cs)). now apply leading_slashes_comp.
Qed.

Lemma comps_of_join cs : Forall comp_ok cs -> filter keep_comp (split_slash (join_slash cs) []) = cs.
Proof.
  intros Hf. destruct cs as [|c cs]; [reflexivity|].
  rewrite split_join; [now apply filter_keep_ok|assumption|discriminate].
Qed.

Lemma comps_sep a b : p_comps (parse (a ++ slash :: b)) = p_comps (parse a) ++ p_comps (parse b).
Proof. unfold parse. cbn [p_comps]. now rewrite split_slash_sep, filter_app. Qed.

Lemma parse_render p : Forall comp_ok (p_comps p) -> parse (render p) = p.
Proof.
  destruct p as [a cs]. cbn [p_comps]. intros Hf.
  pose proof (leading_join cs Hf) as L. pose proof (comps_of_join cs Hf) as C.
  destruct a; unfold render; cbn [p_anchor p_comps].
  - destruct cs as [|c cs]; [reflexivity|]. unfold parse. now rewrite L, C.
  - unfold parse. cbn [leading_slashes split_slash]. rewrite Ascii.eqb_refl, L. cbn [rev filter keep_comp]. now rewrite C.
  - unfold parse. cbn [leading_slashes split_slash]. rewrite !Ascii.eqb_refl, L. cbn [rev filter keep_comp]. now rewrite C.
Qed.

Lemma parse_comp c : comp_ok c -> parse c = {| p_anchor := ARel; p_comps := [c] |}.
Proof. intros H. apply (parse_render {| p_anchor := ARel; p_comps := [c] |}). now constructor. Qed.

Lemma last_in {A} (l : list A) d : l <> [] -> In (last l d) l.
Proof.
  induction l as [|x l IH]; [congruence|]. intros _. destruct l as [|y l]; [now left|].
  right. apply IH. discriminate.
Qed.

Lemma pname_cases p : Forall comp_ok (p_comps p) -> pname p = [] \/ comp_ok (pname p).
Proof.
  intros Hf. unfold pname. destruct (p_comps p) as [|c cs] eqn:E; [now left|].
  right. rewrite Forall_forall in Hf. apply Hf, last_in. discriminate.
Qed.

Definition in_cache_path (cd s : list ascii) : ppath := pjoin (parse cd) (parse (pname (parse s))).

Lemma in_cache_path_wf cd s : Forall comp_ok (p_comps (in_cache_path cd s)).
Proof.
  unfold in_cache_path, pjoin. destruct (p_anchor (parse (pname (parse s)))); try apply parse_wf.
  cbn. apply Forall_app. split; apply parse_wf.
Qed.

Lemma parse_in_cache cd s : parse (in_cache cd s) = in_cache_path cd s.
Proof. apply (parse_render (in_cache_path cd s)), in_cache_path_wf. Qed.

Lemma in_cache_path_cases cd s :
  in_cache_path cd s = match pname (parse s) with
                       | [] => parse cd
                       | n => {| p_anchor := p_anchor (parse cd); p_comps := p_comps (parse cd) ++ [n] |}
                       end.
Proof.
  unfold in_cache_path. destruct (pname_cases (parse s) (parse_wf s)) as [E|H].
  - rewrite E, parse_nil. unfold pjoin; cbn [p_anchor p_comps]. rewrite app_nil_r. now destruct (parse cd).
  - rewrite (parse_comp _ H). destruct (pname (parse s)); [destruct H as [Hk _]; discriminate Hk|reflexivity].
Qed.

Lemma in_cache_inside_iff cd s : inside_str cd (in_cache cd s) <-> bad_name s = false.
Proof.
  unfold inside_str, bad_name. rewrite parse_in_cache, in_cache_path_cases.
  destruct (pname (parse s)) as [|x n]; split.
  - intros [_ (rest & d & Ec & W)].
    rewrite <- app_nil_r in Ec at 1. apply app_inv_head in Ec. subst rest. discriminate W.
  - discriminate.
  - intros [_ (rest & d & Ec & W)]. cbn [p_comps] in Ec. apply app_inv_head in Ec. subst rest.
    cbn [walk] in W. unfold is_dotdot, dotdot in W. now destruct (la_eqb (x :: n) ["."; "."]).
  - intros Hb. split; [reflexivity|]. exists [x :: n], 0. split; [reflexivity|]. cbn [walk]. unfold is_dotdot, dotdot. now rewrite Hb.
Qed.

Lemma insideb_spec job p : insideb job p = true <-> inside job p.
Proof.
  unfold insideb, inside. fold (rel_to p job). rewrite andb_true_iff, rel_to_spec. split.
  - intros [[Ha [rest E]] Hw]. split; [exact Ha|]. exists rest. rewrite E, skipn_app, skipn_all, Nat.sub_diag in Hw.
    cbn in Hw. destruct (walk 0 rest) as [[|d]|]; try discriminate. now exists d.
  - intros [Ha (rest & d & E & W)]. split; [split; [exact Ha|now exists rest]|].
    rewrite E, skipn_app, skipn_all, Nat.sub_diag. cbn. now rewrite W.
Qed.

Definition formatted_strings (f : formatted) : list (list ascii) :=
  match f with FNone => [] | FOne s => [s] | FMany l => l end.
Definition resolved_paths (r : resolved) : list (list ascii) :=
  match r with ROne s => [s] | RMany l => l | _ => [] end.

Lemma resolve_output_shape o values cd r :
  resolve_output o values cd = Ok r ->
  exists f, template_formatting o values = Ok f /\ r = place cd f.
Proof.
  unfold resolve_output, bind. destruct (template_formatting o values) as [f|e]; [|discriminate].
  intros H. inversion H. now exists f.
Qed.

(* witnesses Props/C26.v evaluates against C26_full_statement: a template that is literally ".." resolves to the
   parent of the job directory (the cache root); one that fills in to "" / "." / "/" resolves to the job directory
   itself *)
Definition dotdot_outarg : outarg := {| o_multi := false; o_keep := true; o_template := TOne (la_of "..") |}.
Definition jobdir_outarg : outarg := {| o_multi := false; o_keep := false; o_template := TOne (la_of "{a}") |}.

Theorem false_is_absent o values cd : resolve_input o GFalse values cd = Ok RAbsent.
Proof. reflexivity. Qed.

Definition template_refs (o : outarg) : list (list ascii) :=
  match o_template o with TOne t => inp_fields t | TMany ts => flat_map inp_fields ts end.

Lemma collect_frame names v1 v2 : (forall n, In n names -> lookup n v1 = lookup n v2) ->
  forall d ft, collect names v1 d ft = collect names v2 d ft.
Proof.
  induction names as [|n r IH]; intros H d ft; [reflexivity|]. cbn [collect].
  rewrite <- (H n (or_introl eq_refl)).
  assert (Hr : forall m, In m r -> lookup m v1 = lookup m v2) by (intros m Hm; apply H; now right).
  destruct (lookup n v1) as [[|[s|z|ng m k|p]|l]|]; try reflexivity; try (now apply IH).
  destruct ft; [reflexivity|now apply IH].
Qed.

Lemma single_frame multi keep t v1 v2 : (forall n, In n (inp_fields t) -> lookup n v1 = lookup n v2) ->
  single_template_formatting multi keep t v1 = single_template_formatting multi keep t v2.
Proof.
  intros H. unfold single_template_formatting. destruct (inp_fields t) as [|n r] eqn:E; [reflexivity|].
  now rewrite (collect_frame (n :: r) v1 v2 H).
Qed.

Lemma mapM_ext {A B} (f g : A -> res B) l : (forall x, In x l -> f x = g x) -> mapM f l = mapM g l.
Proof.
  induction l as [|x l IH]; intros H; [reflexivity|]. cbn. rewrite (H x (or_introl eq_refl)).
  rewrite IH; [reflexivity|]. intros y Hy. apply H. now right.
Qed.

Theorem template_formatting_frame o v1 v2 :
  (forall n, In n (template_refs o) -> lookup n v1 = lookup n v2) ->
  template_formatting o v1 = template_formatting o v2.
Proof.
  unfold template_refs, template_formatting. destruct (o_template o) as [t|ts]; intros H.
  - now apply single_frame.
  - rewrite (mapM_ext _ (fun t => single_template_formatting (o_multi o) (o_keep o) t v2) ts); [reflexivity|].
    intros t Ht. apply single_frame. intros n Hn. apply H. apply in_flat_map. now exists t.
Qed.

Definition ft_rel (a b : option (list ascii * list ascii)) : Prop :=
  match a, b with
  | None, None => True
  | Some (n1, f1), Some (n2, f2) => n1 = n2 /\ file_stem_path f1 = file_stem_path f2
  | _, _ => False
  end.

(* two input assignments that differ at most in the extensions of path-valued fields *)
Definition same_up_to_ext (v1 v2 : env) : Prop :=
  forall k, match lookup k v1, lookup k v2 with
            | Some (VAtom (APath f1)), Some (VAtom (APath f2)) => file_stem_path f1 = file_stem_path f2
            | a, b => a = b
            end.

Definition collected_rel (a b : res collected) : Prop :=
  match a, b with
  | Ok CNone, Ok CNone => True
  | Ok (CDict d1 f1), Ok (CDict d2 f2) => d1 = d2 /\ ft_rel f1 f2
  | Err e1, Err e2 => e1 = e2
  | _, _ => False
  end.

Lemma collect_rel names v1 v2 : same_up_to_ext v1 v2 ->
  forall d ft1 ft2, ft_rel ft1 ft2 -> collected_rel (collect names v1 d ft1) (collect names v2 d ft2).
Proof.
  intros Hv. induction names as [|n r IH]; intros d ft1 ft2 Hft; cbn [collect].
  - cbn. auto.
  - specialize (Hv n).
    destruct (lookup n v1) as [[|[s1|z1|ng1 m1 k1|p1]|l1]|], (lookup n v2) as [[|[s2|z2|ng2 m2 k2|p2]|l2]|];
      try discriminate; try (inversion Hv; subst); try (cbn; auto; fail); try (now apply IH).
    destruct ft1 as [[a1 b1]|], ft2 as [[a2 b2]|]; cbn in Hft; try contradiction; cbn; auto.
    apply IH. cbn. auto.
Qed.

Lemma element_formatting_dropped t d ft1 ft2 : ft_rel ft1 ft2 ->
  element_formatting t d ft1 false = element_formatting t d ft2 false.
Proof.
  destruct ft1 as [[n1 f1]|], ft2 as [[n2 f2]|]; cbn; try contradiction; [|reflexivity].
  intros [-> E]. now rewrite E.
Qed.

Lemma single_dropped multi t v1 v2 : same_up_to_ext v1 v2 ->
  single_template_formatting multi false t v1 = single_template_formatting multi false t v2.
Proof.
  intros Hv. unfold single_template_formatting. destruct (inp_fields t) as [|n r]; [reflexivity|].
  pose proof (collect_rel (n :: r) v1 v2 Hv [] None None I) as H.
  destruct (collect (n :: r) v1 [] None) as [[|d1 f1]|e1], (collect (n :: r) v2 [] None) as [[|d2 f2]|e2];
    cbn in H; try contradiction; cbn [bind]; try reflexivity; [|now subst].
  destruct H as [<- Hf].
  rewrite (element_formatting_dropped t d1 f1 f2 Hf).
  destruct (multi && existsb (fun kv => is_list (snd kv)) d1); [|reflexivity].
  destruct (list_keys d1) as [|k0 ks]; [reflexivity|].
  match goal with |- (if ?c then _ else _) = _ => destruct c end; [reflexivity|].
  rewrite (mapM_ext _ (fun ii => element_formatting t (pick ii d1) f2 false)); [reflexivity|].
  intros; now apply element_formatting_dropped.
Qed.

Lemma lookup_set k' k v d : lookup k' (dict_set k v d) = if la_eqb k' k then Some v else lookup k' d.
Proof. exact (assoc_get_put la_eqb la_eqb_spec k v d k'). Qed.

Lemma render_pieces_app d ps qs :
  render_pieces d (ps ++ qs) =
  bind (render_pieces d ps) (fun a => bind (render_pieces d qs) (fun b => Ok (a ++ b))).
Proof.
  induction ps as [|p ps IH]; cbn.
  - destruct (render_pieces d qs); reflexivity.
  - destruct (render_piece d p) as [a|e]; cbn; [|reflexivity]. rewrite IH.
    destruct (render_pieces d ps) as [x|e]; cbn; [|reflexivity].
    destruct (render_pieces d qs) as [y|e]; cbn; [|reflexivity]. now rewrite app_assoc.
Qed.

Lemma word_neq c x : is_word c = true -> is_word x = false -> Ascii.eqb c x = false.
Proof. intros Hc Hx. destruct (Ascii.eqb c x) eqn:E; [|reflexivity]. apply Ascii.eqb_eq in E. congruence. Qed.

Lemma scan_word_field n : all_word n = true -> forall acc rest out,
  scan (InField acc) (n ++ rbrace :: rest) out = scan Top rest (mk_field (rev acc ++ n) :: out).
Proof.
  induction n as [|c n IH]; intros Hw acc rest out.
  - cbn. now rewrite app_nil_r.
  - cbn in Hw. apply andb_true_iff in Hw. destruct Hw as [Hc Hw]. cbn [app scan].
    rewrite (word_neq c rbrace Hc eq_refl), (word_neq c lbrace Hc eq_refl), (IH Hw). cbn [rev]. now rewrite <- app_assoc.
Qed.

Lemma scan_word_close n : all_word n = true -> forall out, scan Top (n ++ [rbrace]) out = Err EFormat.
Proof.
  induction n as [|c n IH]; intros Hw out; [reflexivity|].
  cbn in Hw. apply andb_true_iff in Hw. destruct Hw as [Hc Hw]. cbn [app scan].
  rewrite (word_neq c rbrace Hc eq_refl), (word_neq c lbrace Hc eq_refl). now apply IH.
Qed.

Lemma split_colon_word n : all_word n = true -> forall acc, split_colon n acc = (rev acc ++ n, None).
Proof.
  induction n as [|c n IH]; intros Hw acc; cbn.
  - now rewrite app_nil_r.
  - cbn in Hw. apply andb_true_iff in Hw. destruct Hw as [Hc Hw].
    rewrite (word_neq c ":" Hc eq_refl), (IH Hw). cbn. now rewrite <- app_assoc.
Qed.

Lemma scan_open_word n rest out : all_word n = true -> n <> [] ->
  scan AfterOpen (n ++ rbrace :: rest) out = scan Top rest (Field n None :: out).
Proof.
  destruct n as [|c n]; [congruence|]. intros Hw _. pose proof Hw as Hcn.
  cbn in Hw. apply andb_true_iff in Hw. destruct Hw as [Hc Hw]. cbn [app scan].
  rewrite (word_neq c rbrace Hc eq_refl), (word_neq c lbrace Hc eq_refl), (scan_word_field n Hw).
  cbn [rev app]. unfold mk_field. now rewrite (split_colon_word (c :: n) Hcn []).
Qed.

Lemma scan_suffix t : forall st out l ps, scan st (t ++ l) out = Ok ps -> exists st' out', scan st' l out' = Ok ps.
Proof.
  induction t as [|c t IH]; intros st out l ps H; [eauto|]. cbn [app scan] in H.
  destruct st, (Ascii.eqb c lbrace), (Ascii.eqb c rbrace); try discriminate H; exact (IH _ _ _ _ H).
Qed.

Lemma scan_field_ref n st out ps : all_word n = true -> n <> [] ->
  scan st (field_ref n) out = Ok ps -> exists ps', ps = ps' ++ [Field n None].
Proof.
  intros Hw Hne H. unfold field_ref in H. cbn [scan] in H. rewrite Ascii.eqb_refl in H.
  destruct st; try discriminate H.
  - rewrite (scan_open_word n [] out Hw Hne) in H. inversion H. now exists (rev out).
  - (* "{{" is a literal brace, and then the closing brace stands alone *)
    now rewrite (scan_word_close n Hw) in H.
Qed.

Lemma ends_with_suffix l suf : ends_with l suf = true -> exists pre, l = pre ++ suf.
Proof.
  induction l as [|c l IH]; cbn [ends_with].
  - destruct (la_eqb [] suf) eqn:E; intros H; [|discriminate]. apply la_eqb_spec in E. subst. now exists [].
  - destruct (la_eqb (c :: l) suf) eqn:E; intros H.
    + apply la_eqb_spec in E. subst. now exists [].
    + destruct (IH H) as [pre ->]. now exists (c :: pre).
Qed.

Fixpoint count_field (n : list ascii) (ps : list piece) : nat :=
  match ps with
  | [] => 0
  | Field m _ :: r => (if la_eqb m n then 1 else 0) + count_field n r
  | Lit _ :: r => count_field n r
  end.

Lemma count_field_app n ps qs : count_field n (ps ++ qs) = count_field n ps + count_field n qs.
Proof. induction ps as [|[c|m sp] ps IH]; cbn; [reflexivity|exact IH|rewrite IH; lia]. Qed.

Lemma render_pieces_unused n a b d ps : count_field n ps = 0 ->
  render_pieces (dict_set n a d) ps = render_pieces (dict_set n b d) ps.
Proof.
  induction ps as [|[c|m sp] ps IH]; cbn [count_field render_pieces render_piece]; intros H; [reflexivity|now rewrite IH|].
  destruct (la_eqb m n) eqn:E; [discriminate|]. now rewrite !lookup_set, E, IH.
Qed.

Lemma format_trailing_field t n d x y :
  all_word n = true -> n <> [] ->
  ends_with t (field_ref n) = true ->
  (forall ps, tokenize t = Ok ps -> count_field n ps <= 1) ->
  py_format t (dict_set n (VAtom (AStr (x ++ y))) d) =
  bind (py_format t (dict_set n (VAtom (AStr x)) d)) (fun s => Ok (s ++ y)).
Proof.
  intros Hw Hne He Hc. unfold py_format. destruct (tokenize t) as [ps|e] eqn:Et; [|reflexivity]. cbn [bind].
  destruct (ends_with_suffix _ _ He) as [pre ->].
  destruct (scan_suffix pre Top [] _ ps Et) as (st & out & Es).
  destruct (scan_field_ref n st out ps Hw Hne Es) as [ps' ->].
  (* the pieces are ps' ++ [Field n]; n occurs at most once, so ps' renders alike under both values *)
  specialize (Hc _ eq_refl). rewrite count_field_app in Hc. cbn in Hc.
  rewrite la_eqb_refl in Hc.
  rewrite !render_pieces_app, (render_pieces_unused n _ (VAtom (AStr x)) d ps') by lia.
  destruct (render_pieces (dict_set n (VAtom (AStr x)) d) ps') as [a|e]; cbn [bind]; [|reflexivity].
  cbn [render_pieces render_piece]. destruct n as [|c0 n0]; [congruence|].
  destruct (all_digits (c0 :: n0)); [reflexivity|]. rewrite Hw. cbn [negb].
  rewrite !lookup_set, la_eqb_refl. cbn. now rewrite !app_nil_r, app_assoc.
Qed.

Lemma bind_ok_id {A} (r : res A) : bind r (fun s => Ok s) = r.
Proof. now destruct r. Qed.

Lemma dict_set_set k v1 v2 d : dict_set k v2 (dict_set k v1 d) = dict_set k v2 d.
Proof.
  induction d as [|[k' v'] d IH]; cbn.
  - now rewrite la_eqb_refl.
  - destruct (la_eqb k k') eqn:E; cbn.
    + now rewrite la_eqb_refl.
    + now rewrite E, IH.
Qed.

Lemma app_last_removelast {A} (l : list A) d : l <> [] -> l = removelast l ++ [last l d].
Proof. apply app_removelast_last. Qed.

Lemma walk_app_nil d : walk d [] = Some d.
Proof. reflexivity. Qed.
