(* Proofs/HashDom.v — computable checkers for the domains of the C08 theorems: inj_domb and sortableb are
   sufficient for inj_dom and sortable (soundness proved here); norefb (no VRef anywhere) is necessary for
   HashCtx.wf and has no theorem.  The correspondence run evaluates in_domains on every generated value to report
   how many cases lie inside the theorems' domains; the Examples of HashExamples.v, HashOrderDeep.v and
   HashChecksum.v use the soundness lemmas to show that the hypotheses are satisfiable. *)
From Pydra Require Import Base.Prelude Model.Hash Proofs.HashCtx Proofs.HashInjStr Proofs.HashInj Proofs.HashOrder.
Local Open Scope list_scope.

Fixpoint nodupb {A} (eqb : A -> A -> bool) (l : list A) : bool :=
  match l with [] => true | x :: r => negb (existsb (eqb x) r) && nodupb eqb r end.

Lemma nodupb_sound {A} (eqb : A -> A -> bool) (Hrefl : forall x, eqb x x = true) :
  forall l, nodupb eqb l = true -> NoDup l.
Proof.
  induction l as [|x l IH]; cbn; intros E; [constructor|].
  apply andb_true_iff in E. destruct E as [E1 E2]. constructor; auto.
  intros Hin. apply negb_true_iff in E1. assert (existsb (eqb x) l = true); [|congruence].
  apply existsb_exists. exists x. auto.
Qed.

Definition keyatomb (v : pyval) : bool :=
  match v with
  | VNone | VBool _ | VInt _ | VStr _ | VBytes _ => true
  | VFloat b => Nat.eqb (String.length b) 8
  | _ => false
  end.
Definition local_okb (v : pyval) : bool :=
  match v with
  | VNone | VBool _ | VInt _ | VStr _ | VBytes _ => true
  | VFloat b => Nat.eqb (String.length b) 8
  | VPath c _ => path_cls c
  | VList _ _ | VTuple _ _ | VSet _ _ | VFrozenset _ _ => true
  | VDict _ kvs => forallb keyatomb (map fst kvs)
  | VObj _ c _ => obj_cls c
  | VNd _ c dt _ _ => nd_cls c && nocolon dt
  | _ => false
  end.
Fixpoint inj_domb (f : nat) (v : pyval) : bool :=
  match f with 0 => false | S f' => local_okb v && forallb (inj_domb f') (subs v) end.

Lemma keyatomb_sound v : keyatomb v = true -> keyatom v.
Proof. destruct v; cbn; try discriminate; auto. apply Nat.eqb_eq. Qed.

Lemma local_okb_sound v : local_okb v = true -> local_ok v.
Proof.
  destruct v; cbn; try discriminate; auto.
  - apply Nat.eqb_eq.
  - intros E. rewrite Forall_forall. intros k Hk. apply keyatomb_sound. rewrite forallb_forall in E. auto.
  - intros E. now apply andb_true_iff in E.
Qed.

Lemma inj_domb_sound : forall f v, inj_domb f v = true -> inj_dom v.
Proof.
  induction f as [|f IH]; intros v E; [discriminate|]. cbn in E. apply andb_true_iff in E. destruct E as [E1 E2].
  constructor; [now apply local_okb_sound|]. intros x Hx. apply IH. rewrite forallb_forall in E2. auto.
Qed.

(* sufficient for keys_ok: the keys are all str, all bytes or all int, and pairwise distinct *)
Fixpoint strs_of (ks : list pyval) : option (list string) :=
  match ks with
  | [] => Some []
  | VStr s :: r => option_map (cons s) (strs_of r)
  | _ => None
  end.
Fixpoint bytess_of (ks : list pyval) : option (list string) :=
  match ks with
  | [] => Some []
  | VBytes s :: r => option_map (cons s) (bytess_of r)
  | _ => None
  end.
Fixpoint ints_of (ks : list pyval) : option (list Z) :=
  match ks with
  | [] => Some []
  | VInt z :: r => option_map (cons z) (ints_of r)
  | _ => None
  end.
Definition keys_okb (ks : list pyval) : bool :=
  match strs_of ks, bytess_of ks, ints_of ks with
  | Some l, _, _ => nodupb String.eqb l
  | _, Some l, _ => nodupb String.eqb l
  | _, _, Some l => nodupb Z.eqb l
  | _, _, _ => false
  end.

Lemma strs_of_map ks l : strs_of ks = Some l -> ks = map VStr l.
Proof.
  revert l. induction ks as [|k ks IH]; intros l E; cbn in E; [inversion E; reflexivity|].
  destruct k; try discriminate. destruct (strs_of ks) as [l'|]; [|discriminate]. inversion E. cbn. f_equal. auto.
Qed.
Lemma bytess_of_map ks l : bytess_of ks = Some l -> ks = map VBytes l.
Proof.
  revert l. induction ks as [|k ks IH]; intros l E; cbn in E; [inversion E; reflexivity|].
  destruct k; try discriminate. destruct (bytess_of ks) as [l'|]; [|discriminate]. inversion E. cbn. f_equal. auto.
Qed.
Lemma ints_of_map ks l : ints_of ks = Some l -> ks = map VInt l.
Proof.
  revert l. induction ks as [|k ks IH]; intros l E; cbn in E; [inversion E; reflexivity|].
  destruct k; try discriminate. destruct (ints_of ks) as [l'|]; [|discriminate]. inversion E. cbn. f_equal. auto.
Qed.

Lemma keys_okb_sound ks : keys_okb ks = true -> keys_ok ks.
Proof.
  unfold keys_okb. intros E.
  destruct (strs_of ks) as [l|] eqn:E1.
  { apply strs_of_map in E1. subst ks. apply (keys_ok_map VStr); [congruence|exact ordered_str|].
    now apply (nodupb_sound String.eqb String.eqb_refl). }
  destruct (bytess_of ks) as [l|] eqn:E2.
  { apply bytess_of_map in E2. subst ks. apply (keys_ok_map VBytes); [congruence|exact ordered_bytes|].
    now apply (nodupb_sound String.eqb String.eqb_refl). }
  destruct (ints_of ks) as [l|] eqn:E3; [|discriminate].
  apply ints_of_map in E3. subst ks. apply (keys_ok_map VInt); [congruence|exact ordered_int|].
  now apply (nodupb_sound Z.eqb Z.eqb_refl).
Qed.

Definition sort_okb (v : pyval) : bool :=
  match v with
  | VSet _ l | VFrozenset _ l => keys_okb l
  | VDict _ kvs => keys_okb (map fst kvs)
  | VObj _ _ ats => keys_okb (map (fun a : string * pyval => VStr (fst a)) ats)
  | _ => true
  end.
Fixpoint sortableb (f : nat) (v : pyval) : bool :=
  match f with 0 => false | S f' => sort_okb v && forallb (sortableb f') (subs v) end.

Lemma sortableb_sound : forall f v, sortableb f v = true -> sortable v.
Proof.
  induction f as [|f IH]; intros v E; [discriminate|]. cbn in E. apply andb_true_iff in E. destruct E as [E1 E2].
  constructor.
  - destruct v; cbn in E1 |- *; auto; now apply keys_okb_sound.
  - intros x Hx. apply IH. rewrite forallb_forall in E2. auto.
Qed.

Fixpoint norefb (f : nat) (v : pyval) : bool :=
  match f with
  | 0 => false
  | S f' => match v with VRef _ => false | _ => forallb (norefb f') (subs v) end
  end.

(* the three domains on one value, as the correspondence run reports them *)
Definition in_domains (v : pyval) : bool * bool * bool :=
  let f := S (vdepth v) in (norefb f v, sortableb f v, inj_domb f v).
