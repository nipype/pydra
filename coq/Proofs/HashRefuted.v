(* Proofs/HashRefuted.v — concrete witnesses: what the serializers of pydra/utils/hash.py get wrong.
   Each witness is evaluated on the model with vm_compute; the correspondence run replays its kind on the code:
   harness/c08.py the cycle and the dict with frozenset keys from corpus/C08 and a PathLike-key pair it searches
   for at every run (pathkey_attack), harness/c07.py the frozenset of frozensets from corpus/C07. *)
From Pydra Require Import Base.Prelude Model.Hash Spec.Hash Proofs.HashCtx.
Local Open Scope list_scope.
Local Open Scope string_scope.

(* a stand-in hash function used only to show that two digests CAN differ (the statements refuted below are
   quantified over every H; real blake2b is observed to behave the same way by the correspondence run) *)
Definition toy_step (acc : Z) (c : ascii) : Z := ((acc * 131 + Z.of_nat (nat_of_ascii c) + 1) mod 340282366920938463463374607431768211456)%Z.
Fixpoint toy_fold (s : string) (acc : Z) : Z :=
  match s with EmptyString => acc | String c r => toy_fold r (toy_step acc c) end.
Definition toyH (s : string) : string := le_bytes 16 (toy_fold s 7).

(* toyH computed with one-pass operations (masks and shifts for mod and div by powers of two, binary byte codes).
   The witnesses are evaluated with it: coqchk re-evaluates them without the VM, and there the long division on
   128-bit numbers at every byte is what toyH spends its time on.  A witness that refutes a statement about every H
   is stated for toyH' itself; the two whose statement names toyH (pathkey_same_bytes_example, and
   partial_order_iteration_dependent for C07_refuted_value) are carried over by toyH_fast and HashCtx.ExtH. *)
Definition toy_step' (acc : Z) (c : ascii) : Z :=
  Z.land (131 * acc + Z.of_N (N_of_ascii c) + 1) 340282366920938463463374607431768211455.
Fixpoint toy_fold' (s : string) (acc : Z) : Z :=
  match s with EmptyString => acc | String c r => toy_fold' r (toy_step' acc c) end.
Fixpoint le_bytes' (n : nat) (u : Z) : string :=
  match n with
  | 0 => ""
  | S k => String (ascii_of_N (Z.to_N (Z.land u 255))) (le_bytes' k (Z.shiftr u 8))
  end.
Definition toyH' (s : string) : string := le_bytes' 16 (toy_fold' s 7).

Lemma toyH_fast : forall s, toyH s = toyH' s.
Proof.
  intros s. unfold toyH, toyH'.
  assert (Ef : forall acc, toy_fold s acc = toy_fold' s acc).
  { induction s as [|c s IH]; intros acc; [reflexivity|]. cbn [toy_fold toy_fold']. rewrite IH. f_equal.
    unfold toy_step, toy_step', nat_of_ascii. rewrite N_nat_Z, (Z.mul_comm acc).
    symmetry. apply (Z.land_ones _ 128). discriminate. }
  rewrite Ef. generalize 16%nat (toy_fold' s 7). induction n as [|n IH]; intros u; [reflexivity|].
  cbn [le_bytes le_bytes']. rewrite IH. change 255%Z with (Z.ones 8).
  rewrite Z.land_ones, Z.shiftr_div_pow2 by discriminate. reflexivity.
Qed.

(* cycles: a = [1, b]; b = [2, a] *)
Definition cyc_a : pyval := VList 1 [VInt 1; VList 2 [VInt 2; VRef 1]].
Definition cyc_b : pyval := VList 2 [VInt 2; VList 1 [VInt 1; VRef 2]].

Lemma cycle_context_dependent :
  hash_in toyH' [cyc_b] cyc_a <> hash_in toyH' [] cyc_a.
Proof. vm_compute. intros E. discriminate E. Qed.

(* os.PathLike keys are not self-delimiting:
   {P("a"): v, P("b"): w}  and  {P("a=" + digest(v) + ",pathlib.PurePosixPath:b"): w}  have the same bytes *)
Definition pp : string := "pathlib.PurePosixPath".
Definition pk_d1 (v w : pyval) : pyval := VDict 1 [(VPath pp "a", v); (VPath pp "b", w)].
Definition pk_d2 (H : string -> string) (v w : pyval) : pyval :=
  VDict 1 [(VPath pp ("a=" ++ match digest H v with Ok d => d | Err _ => "" end ++ "," ++ pp ++ ":b"), w)].

Lemma pk_d2_fast : forall v w, pk_d2 toyH v w = pk_d2 toyH' v w.
Proof. intros v w. unfold pk_d2. now rewrite (digest_ext toyH toyH' toyH_fast). Qed.

Lemma pathkey_same_bytes_example :
  preimage toyH (pk_d1 (VInt 10115) (VStr "x")) = preimage toyH (pk_d2 toyH (VInt 10115) (VStr "x")).
Proof. rewrite pk_d2_fast, !(preimage_ext toyH toyH' toyH_fast). vm_compute. reflexivity. Qed.

(* `<` on frozensets is only a partial order:
   a dict with two incomparable frozenset keys, in its two insertion orders *)
Definition fs12 : pyval := VFrozenset 2 [VInt 1; VInt 2].
Definition fs34 : pyval := VFrozenset 3 [VInt 3; VInt 4].
Definition po_d1 : pyval := VDict 1 [(fs12, VStr "a"); (fs34, VStr "b")].
Definition po_d2 : pyval := VDict 1 [(fs34, VStr "b"); (fs12, VStr "a")].

Lemma partial_order_insertion_dependent :
  veq po_d1 po_d2 /\ digest toyH' po_d1 <> digest toyH' po_d2.
Proof. split; [vm_compute; reflexivity|]. vm_compute. intros E. discriminate E. Qed.

(* the same through a set: the two iteration orders of {frozenset({1,2}), frozenset({3,4})} *)
Definition po_s1 : pyval := VFrozenset 1 [fs12; fs34].
Definition po_s2 : pyval := VFrozenset 1 [fs34; fs12].
Lemma partial_order_iteration_dependent :
  veq po_s1 po_s2 /\ digest toyH po_s1 <> digest toyH po_s2.
Proof.
  split; [vm_compute; reflexivity|]. rewrite !(digest_ext toyH toyH' toyH_fast). vm_compute. intros E. discriminate E.
Qed.
