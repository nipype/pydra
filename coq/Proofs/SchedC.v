(* Proofs/SchedC.v — the scheduler invariant on the node states, and the steps a poll is made of: update_status on
   one node, all(p.done for p in predecessors), NodeExecution.get_runnable_tasks. *)
From Pydra Require Import Base.Prelude Base.SchedBase Model.Sched Spec.Sched Proofs.SchedA Proofs.SchedSpec Proofs.ListFacts.
Local Open Scope nat_scope.

Section Inv.
Variable V : Type.
Variable fails : job -> bool.
Variable vr : variant.
Hypothesis F14 : fix14 vr = true.
Variable g : graph.
Hypothesis WF : wf_graph g.

Notation world := (world V).
Notation nstate := (nstate V).
Notation sstate := (sstate V).
Notation NInv := (NInv V fails g).
Notation upstream_ok := (upstream_ok V g).
Notation Updated := (@Updated V).

(* results agree with the fixed set of failing jobs *)
Definition WInv (w : world) : Prop :=
  forall j, (is_ok w j = true -> fails j = false) /\ (is_err w j = true -> fails j = true).

Record GInv (w : world) (ss : sstate) : Prop := {
  gi_raised : raised ss = false;
  gi_node : forall n, NInv w n (nst ss n);
  gi_preds : forall nd, In nd g -> started_flag (nst ss (nid nd)) = true -> unrunnable (nst ss (nid nd)) = false ->
             forall p, In p (npreds nd) ->
             started_flag (nst ss p) = true /\ unrunnable (nst ss p) = false
}.

Lemma set_ns_same (st : nstates V) n s : set_ns st n s n = s.
Proof. unfold set_ns. rewrite Nat.eqb_refl. reflexivity. Qed.
Lemma set_ns_other (st : nstates V) n s m : m <> n -> set_ns st n s m = st m.
Proof. unfold set_ns. intros H. apply Nat.eqb_neq in H. rewrite H. reflexivity. Qed.

Lemma nst_update (w : world) ss p m :
  nst (update vr w ss p) m = if m =? p then fst (update_ns vr w p (nst ss p)) else nst ss m.
Proof. unfold update. destruct (update_ns vr w p (nst ss p)) as [s r]. cbn. unfold set_ns. reflexivity. Qed.
Lemma raised_update (w : world) ss p :
  raised (update vr w ss p) = raised ss || snd (update_ns vr w p (nst ss p)).
Proof. unfold update. destruct (update_ns vr w p (nst ss p)) as [s r]. reflexivity. Qed.
Lemma polls_update (w : world) ss p : polls (update vr w ss p) = polls ss.
Proof. unfold update. destruct (update_ns vr w p (nst ss p)) as [s r]. reflexivity. Qed.

(* GInv after the state of the one node n has changed *)
Lemma GInv_at (w : world) ss ss' n :
  GInv w ss -> raised ss' = false -> (forall m, m <> n -> nst ss' m = nst ss m) -> NInv w n (nst ss' n) ->
  (started_flag (nst ss n) = true -> unrunnable (nst ss n) = false ->
   started_flag (nst ss' n) = true /\ unrunnable (nst ss' n) = false) ->
  (started_flag (nst ss' n) = true -> unrunnable (nst ss' n) = false ->
   forall nd, In nd g -> nid nd = n -> forall p, In p (npreds nd) ->
   started_flag (nst ss p) = true /\ unrunnable (nst ss p) = false) ->
  GInv w ss'.
Proof.
  intros G R O N Keep Preds.
  assert (L : forall p, started_flag (nst ss p) = true /\ unrunnable (nst ss p) = false ->
                        started_flag (nst ss' p) = true /\ unrunnable (nst ss' p) = false).
  { intros p [A B]. destruct (Nat.eq_dec p n) as [->|Ne]; [auto|rewrite (O p Ne); auto]. }
  constructor.
  - exact R.
  - intros m. destruct (Nat.eq_dec m n) as [->|Ne]; [exact N|rewrite (O m Ne); apply (gi_node _ _ G)].
  - intros nd Hnd Fl U p Hp. apply L. destruct (Nat.eq_dec (nid nd) n) as [E|Ne].
    + rewrite E in Fl, U. apply (Preds Fl U nd Hnd E p Hp).
    + rewrite (O _ Ne) in Fl, U. apply (gi_preds _ _ G nd Hnd Fl U p Hp).
Qed.

Lemma nst_update_other (w : world) ss p m : m <> p -> nst (update vr w ss p) m = nst ss m.
Proof. intros H. rewrite nst_update. apply Nat.eqb_neq in H. rewrite H. reflexivity. Qed.

Lemma update_spec (w : world) ss p :
  GInv w ss ->
  GInv w (update vr w ss p)
  /\ Updated w p (nst (update vr w ss p) p)
  /\ (forall m, Updated w m (nst ss m) -> nst (update vr w ss p) m = nst ss m).
Proof.
  intros G. destruct (update_ns_spec V fails vr F14 g w p (nst ss p) _ _ (gi_node _ _ G p) (surjective_pairing _)) as [R [N F]].
  split; [|split].
  - apply (GInv_at w ss _ p G);
      rewrite ?nst_update, ?Nat.eqb_refl, ?(update_ns_flag V vr F14), ?(update_ns_unr V vr F14); auto.
    + rewrite raised_update, R, (gi_raised _ _ G). reflexivity.
    + intros m. apply nst_update_other.
    + intros Fl U nd Hnd <-. apply (gi_preds _ _ G nd Hnd Fl U).
  - rewrite nst_update, Nat.eqb_refl. exact F.
  - intros m Fm. rewrite nst_update. destruct (m =? p) eqn:E; [|reflexivity].
    apply Nat.eqb_eq in E. subst m. rewrite (update_ns_idem V vr F14 w p _ Fm). reflexivity.
Qed.

(* all(p.done for p in predecessors), on predecessors that are Updated: the state stays, only the answer matters *)
Lemma all_done_updated (w : world) (st : nstates V) ps : forall ss ss' b,
  GInv w ss -> (forall m, nst ss m = st m) -> (forall p, In p ps -> Updated w p (st p)) ->
  all_done vr w ss ps = (ss', b) ->
  GInv w ss' /\ (forall m, nst ss' m = st m) /\ b = forallb (fun p => done_ns (st p)) ps.
Proof.
  induction ps as [|p ps IH]; intros ss ss' b G S F E; cbn in E.
  - injection E as <- <-. auto.
  - destruct (update_spec w ss p G) as [G1 [_ K1]].
    assert (S1 : forall m, nst (update vr w ss p) m = st m).
    { intros m. rewrite <- S. destruct (Nat.eq_dec m p) as [->|Ne]; [|apply nst_update_other, Ne].
      apply K1. rewrite S. apply F. left; reflexivity. }
    rewrite S1 in E. cbn [forallb]. destruct (done_ns (st p)).
    + apply (IH _ _ _ G1 S1 (fun q Hq => F q (or_intror Hq)) E).
    + injection E as <- <-. auto.
Qed.

Lemma done_members (w : world) p (s : nstate) :
  NInv w p s -> done_ns s = true -> unrunnable s = false ->
  started_flag s = true /\ forall i, i < njobs_of g p -> In i (successful s) \/ In i (errored s).
Proof.
  intros I D U. apply (NInv_done V fails g w p s I) in D. destruct D as [Fl [Q R]]. split; [exact Fl|].
  intros i Hi. pose proof (ni_part I Fl U i Hi) as M.
  unfold SchedA.members in M. rewrite Q, R in M. apply in_app_or. exact M.
Qed.

Lemma done_clean_ok (w : world) p (s : nstate) :
  NInv w p s -> done_ns s = true -> errored s = [] -> unrunnable s = false ->
  started_flag s = true /\ forall i, i < njobs_of g p -> is_ok w (p, i) = true.
Proof.
  intros I D E U. destruct (done_members w p s I D U) as [Fl M]. split; [exact Fl|].
  intros i Hi. destruct (M i Hi) as [X|X]; [apply (ni_succ I i X)|rewrite E in X; destruct X].
Qed.

Lemma not_done_runnable (w : world) n (s : nstate) :
  NInv w n s -> done_ns s = false -> started_flag s = true -> unrunnable s = false.
Proof.
  intros I D Fl. destruct (unrunnable s) eqn:U; [|reflexivity].
  destruct (members_nil V s (ni_unr I U)) as [Hq [Hr _]].
  rewrite (proj2 (NInv_done V fails g w n s I)) in D by auto. discriminate.
Qed.

Lemma has_fail_b_false (w : world) p :
  WInv w -> (forall i, i < njobs_of g p -> is_ok w (p, i) = true) -> has_fail_b g fails p = false.
Proof.
  intros W H. unfold has_fail_b. destruct (existsb _ _) eqn:E; [|reflexivity].
  apply existsb_exists in E. destruct E as [i [Hi Fi]]. apply in_seq in Hi.
  destruct (W (p, i)) as [A _]. rewrite A in Fi; [discriminate|]. apply H. lia.
Qed.

Lemma has_fail_b_true (w : world) p i :
  WInv w -> i < njobs_of g p -> is_err w (p, i) = true -> has_fail_b g fails p = true.
Proof.
  intros W Hi E. unfold has_fail_b. apply existsb_exists. exists i. split; [apply in_seq; lia|].
  destruct (W (p, i)) as [_ B]. auto.
Qed.

Lemma in_all_jobs nd i : In nd g -> i < njobs nd -> In (nid nd, i) (all_jobs g).
Proof.
  intros H Hi. unfold all_jobs. apply in_flat_map. exists nd. split; [exact H|].
  unfold jobs_of. apply in_map_iff. exists i. split; [reflexivity|apply in_seq; lia].
Qed.

Lemma njobs_of_nd nd : In nd g -> njobs_of g (nid nd) = njobs nd.
Proof. intros H. unfold njobs_of. rewrite (topo_b_find [] g nd WF H). reflexivity. Qed.

Lemma in_queued_jobs n (l : list nat) (j : job) : In j (map (fun i => (n, i)) l) -> fst j = n /\ In (snd j) l.
Proof. intros H. apply in_map_iff in H. destruct H as [i [<- Hi]]. auto. Qed.

Lemma failed_pred_tainted (w : world) ss nd p :
  GInv w ss -> WInv w -> In nd g -> In p (npreds nd) ->
  negb (is_nil (errored (nst ss p))) || unrunnable (nst ss p) = true ->
  tainted_b g fails (nid nd) = true.
Proof.
  intros G W Hnd Hp Ep. pose proof (gi_node _ _ G p) as Ip.
  rewrite (tainted_char g fails WF nd Hnd). apply existsb_exists. exists p. split; [exact Hp|].
  apply orb_true_iff. apply orb_true_iff in Ep. destruct Ep as [Ep|Ep]; [right|left; apply (ni_taint_unr Ip Ep)].
  apply negb_true_iff, is_nil_false in Ep. destruct (errored (nst ss p)) as [|i l] eqn:Ee; [congruence|].
  assert (Hi : In i (errored (nst ss p))) by (rewrite Ee; left; reflexivity).
  apply (has_fail_b_true w p i W); [|apply (ni_err Ip i Hi)].
  apply (ni_range Ip). unfold SchedA.members. rewrite !in_app_iff. auto.
Qed.

Lemma NInv_unrunnable (w : world) n ins :
  tainted_b g fails n = true -> NInv w n (mkNS true [] [] [] [] [] true ins).
Proof. intros T. constructor; cbn; try discriminate; try (intros i []); auto. constructor. Qed.

(* NodeExecution.start on a node whose predecessors have all succeeded *)
Lemma NInv_start (w : world) nd :
  In nd g -> upstream_ok w (nid nd) -> tainted_b g fails (nid nd) = false ->
  NInv w (nid nd) (mkNS true [] (seq 0 (njobs nd)) [] [] [] false (inputs_from V g w nd)).
Proof.
  intros Hnd Hup Ht. pose proof (njobs_of_nd nd Hnd) as Hnj.
  constructor; cbn; unfold SchedA.members; cbn; rewrite ?app_nil_r.
  - intros i [].
  - intros i [].
  - reflexivity.
  - discriminate.
  - discriminate.
  - intros _ _ i Hi. apply in_seq. lia.
  - intros i Hi. apply in_seq in Hi. lia.
  - intros _ _. exact Hup.
  - intros _ _ nd' Fd. rewrite (topo_b_find [] g nd WF Hnd) in Fd. inversion Fd. reflexivity.
  - apply seq_NoDup.
  - discriminate.
  - intros _ _. exact Ht.
Qed.

(* a node after update_status *)
Definition refresh (w : world) (st : nstates V) (m : nat) : nstate := fst (update_ns vr w m (st m)).

(* the state in which NodeExecution.get_runnable_tasks leaves a node that was in state s, its predecessors being in
   the states st: unrunnable behind a failed predecessor; started, with every job queued, the first time all
   predecessors are done; as it was otherwise *)
Definition runnable_state (w : world) (st : nstates V) (s : nstate) (nd : node) : nstate :=
  if existsb (fun p => negb (is_nil (errored (st p))) || unrunnable (st p)) (npreds nd)
  then mkNS true [] [] [] [] [] true (ninputs s)
  else if forallb (fun p => done_ns (st p)) (npreds nd) && negb (is_started s)
       then mkNS true [] (seq 0 (njobs nd)) [] [] [] false (inputs_from V g w nd)
       else s.

Lemma runnable_state_ext (w : world) st st' s nd : (forall p, In p (npreds nd) -> st p = st' p) -> runnable_state w st s nd = runnable_state w st' s nd.
Proof.
  intros H. unfold runnable_state.
  rewrite (existsb_ext_in _ (fun p => negb (is_nil (errored (st' p))) || unrunnable (st' p)) (npreds nd))
    by (intros p Hp; rewrite (H p Hp); reflexivity).
  rewrite (forallb_ext_in _ (fun p => done_ns (st' p)) (npreds nd)) by (intros p Hp; rewrite (H p Hp); reflexivity).
  reflexivity.
Qed.

Lemma refresh_spec (w : world) ss m : GInv w ss -> NInv w m (refresh w (nst ss) m) /\ Updated w m (refresh w (nst ss) m).
Proof. intros G. apply (update_ns_spec V fails vr F14 g w m _ _ _ (gi_node _ _ G m) (surjective_pairing _)). Qed.

Lemma refresh_idem (w : world) ss m : GInv w ss -> fst (update_ns vr w m (refresh w (nst ss) m)) = refresh w (nst ss) m.
Proof. intros G. rewrite (update_ns_idem V vr F14 w m _ (proj2 (refresh_spec w ss m G))). reflexivity. Qed.

Lemma refresh_started (w : world) ss m : GInv w ss -> is_started (refresh w (nst ss) m) = started_flag (nst ss m).
Proof.
  intros G. rewrite (NInv_started V fails g w m _ (proj1 (refresh_spec w ss m G))). apply (update_ns_flag V vr F14).
Qed.

Lemma done_started (w : world) ss m : GInv w ss -> done_ns (refresh w (nst ss) m) = true -> started_flag (nst ss m) = true.
Proof.
  intros G D. rewrite <- (update_ns_flag V vr F14 w m). apply (NInv_done V fails g w m _ (proj1 (refresh_spec w ss m G))), D.
Qed.

Lemma any_not_done_false (w : world) ss :
  any_not_done vr g w ss = false <-> forall nd, In nd g -> done_ns (refresh w (nst ss) (nid nd)) = true.
Proof.
  unfold any_not_done. rewrite existsb_false_In. split; intros H nd Hnd; [apply negb_false_iff|apply negb_false_iff]; exact (H nd Hnd).
Qed.

Lemma node_runnable_spec (w : world) ss nd ss' tl :
  GInv w ss -> WInv w -> In nd g ->
  (forall p, In p (npreds nd) -> Updated w p (nst ss p)) ->
  node_runnable vr g w ss nd = (ss', tl) ->
  GInv w ss'
  /\ (forall m, m <> nid nd -> nst ss' m = nst ss m)
  /\ nst ss' (nid nd) = runnable_state w (nst ss) (nst ss (nid nd)) nd
  /\ tl = map (fun i => (nid nd, i)) (queued (nst ss' (nid nd)))
  /\ (started_flag (nst ss (nid nd)) = true -> unrunnable (nst ss (nid nd)) = false ->
      nst ss' (nid nd) = nst ss (nid nd)).
Proof.
  intros G W Hnd Fp E. unfold node_runnable in E. unfold runnable_state.
  set (n := nid nd) in *. set (s := nst ss n) in *. pose proof (gi_node _ _ G n) as In_. fold s in In_.
  assert (Oth : forall (st : nstates V) s0, (forall m, m <> n -> st m = nst ss m) ->
                forall m, m <> n -> set_ns st n s0 m = nst ss m)
    by (intros st s0 H m Hm; rewrite set_ns_other by exact Hm; apply H, Hm).
  destruct (existsb _ (npreds nd)) eqn:EX.
  - (* some predecessor errored / unrunnable: the node, which cannot be running, becomes unrunnable *)
    apply existsb_exists in EX. destruct EX as [p [Hp Ep]].
    pose proof (failed_pred_tainted w ss nd p G W Hnd Hp Ep) as Ht. fold n in Ht.
    assert (Hnot : ~ (started_flag s = true /\ unrunnable s = false)).
    { intros [Fl U]. rewrite (ni_taint_run In_ Fl U) in Ht. discriminate. }
    assert (Hmem : SchedA.members V s = []).
    { destruct (started_flag s) eqn:Fl; [|apply (ni_noflag In_ Fl)].
      destruct (unrunnable s) eqn:U; [apply (ni_unr In_ U)|exfalso; apply Hnot; auto]. }
    destruct (members_nil V _ Hmem) as [Hq [Hr [Hs He]]].
    unfold update in E. cbn [nst raised polls] in E. rewrite set_ns_same, Hq, Hr, Hs, He in E.
    rewrite (update_ns_idem V vr F14 w n) in E by (split; intros i []).
    injection E as <- <-. cbn [nst]. rewrite !set_ns_same.
    pose proof (Oth _ (mkNS true [] [] [] [] [] true (ninputs s)) (Oth (nst ss) (mkNS true [] [] [] [] [] true (ninputs s)) (fun m _ => eq_refl))) as O.
    split; [|split; [exact O|split; [reflexivity|split; [reflexivity|intros A B; exfalso; apply Hnot; auto]]]].
    apply (GInv_at w ss _ n G); cbn [nst raised]; rewrite ?set_ns_same; [|exact O|apply NInv_unrunnable, Ht| |discriminate].
    + rewrite (gi_raised _ _ G). reflexivity.
    + intros A B. exfalso. apply Hnot. auto.
  - destruct (all_done vr w ss (npreds nd)) as [ss1 alld] eqn:AD.
    destruct (all_done_updated w (nst ss) _ _ _ _ G (fun m => eq_refl) Fp AD) as [G1 [Hsame ->]].
    fold n in E. rewrite Hsame in E. fold s in E.
    destruct (forallb _ (npreds nd)) eqn:AllD; cbn [andb]; cycle 1.
    { (* some predecessor is not done *)
      injection E as <- <-. rewrite Hsame. auto 6. }
    destruct (is_started s) eqn:St; cbn [negb].
    + (* already started: nothing new (blocked is empty) *)
      (* the rewrite backwards turns the literal [] of the model's record into `blocked s`: the record is then s, field by field *)
      replace (mkNS (started_flag s) [] (queued s ++ blocked s) (running s) (successful s) (errored s) (unrunnable s) (ninputs s))
        with s in E by (rewrite (ni_blocked In_), app_nil_r, <- (ni_blocked In_); destruct s; reflexivity).
      injection E as <- <-. cbn [nst]. rewrite set_ns_same.
      pose proof (Oth (nst ss1) s (fun m _ => Hsame m)) as O.
      split; [|auto 6].
      apply (GInv_at w ss _ n G); cbn [nst raised]; rewrite ?set_ns_same; auto; [apply (gi_raised _ _ G1)|].
      intros Fl U nd0 H0 <-. apply (gi_preds _ _ G nd0 H0 Fl U).
    + (* first time, every predecessor done and clean: start the node, queue every job *)
      assert (Hpred : forall p, In p (npreds nd) ->
                started_flag (nst ss p) = true /\ unrunnable (nst ss p) = false
                /\ (forall i, i < njobs_of g p -> is_ok w (p, i) = true)).
      { intros p Hp. pose proof (proj1 (forallb_forall _ _) AllD p Hp) as Dp.
        pose proof (existsb_false_at EX Hp) as Ef. apply orb_false_iff in Ef. destruct Ef as [Ee Eu].
        apply negb_false_iff, is_nil_true in Ee.
        destruct (done_clean_ok w p (nst ss p) (gi_node _ _ G p) Dp Ee Eu) as [A B]. auto. }
      pose proof (topo_b_find [] g nd WF Hnd) as Hfind. fold n in Hfind.
      rewrite (NInv_started V fails g w n s In_) in St. destruct (ni_noflag In_ St) as [Hmem Hu].
      destruct (members_nil V s Hmem) as [Hq [Hr [Hs He]]].
      unfold start_ns in E. cbn [started_flag blocked queued running successful errored unrunnable ninputs] in E.
      rewrite Hq, Hr, Hs, He, Hu in E. cbn [app] in E. fold (inputs_from V g w nd) in E.
      assert (I2 : NInv w n (mkNS true [] (seq 0 (njobs nd)) [] [] [] false (inputs_from V g w nd))).
      { apply NInv_start; [exact Hnd| |].
        - intros q Hq'. unfold upstream_jobs in Hq'. fold n in Hq'. rewrite Hfind in Hq'. apply in_flat_map in Hq'.
          destruct Hq' as [p [Hp Hq']]. apply in_queued_jobs in Hq'. destruct q as [p' i]. cbn in Hq'. destruct Hq' as [-> Hi].
          apply in_seq in Hi. apply (Hpred p Hp). lia.
        - rewrite (tainted_char g fails WF nd Hnd). apply existsb_false_In. intros p Hp. destruct (Hpred p Hp) as [A [B C]].
          rewrite (ni_taint_run (gi_node _ _ G p) A B). apply (has_fail_b_false w p W C). }
      injection E as <- <-. cbn [nst]. rewrite set_ns_same.
      pose proof (Oth (nst ss1) (mkNS true [] (seq 0 (njobs nd)) [] [] [] false (inputs_from V g w nd)) (fun m _ => Hsame m)) as O.
      split; [|split; [exact O|split; [reflexivity|split; [reflexivity|congruence]]]].
      apply (GInv_at w ss _ n G); cbn [nst raised]; rewrite ?set_ns_same; auto; [apply (gi_raised _ _ G1)|].
      intros _ _ nd0 H0 E p Hp0.
      assert (nd0 = nd) by (pose proof (topo_b_find [] g nd0 WF H0) as F0; rewrite E in F0; congruence).
      subst nd0. destruct (Hpred p Hp0) as [A [B _]]. auto.
Qed.

End Inv.

Arguments gi_raised {V fails g w ss}.
Arguments gi_node {V fails g w ss}.
Arguments gi_preds {V fails g w ss}.
