(* Proofs/Pickle.v — C29: a successful round trip (__getstate__, cloudpickle on the plain data,
   __setstate__) restores every attribute outside the transient sets at every depth, because what
   __setstate__ assigns and pushes lands on transient attributes only; the round trip is defined
   exactly on the picklable values; the driver's comparison survivesb is sound. *)
From Pydra Require Import Base.Prelude Model.Pickle Spec.Pickle Proofs.Assoc.
Local Open Scope string_scope.
Local Open Scope list_scope.

Lemma val_nested_ind (P : val -> Prop) :
  P VNone -> (forall n, P (VData n)) -> (forall n, P (VLive n)) -> (forall t, P (VFresh t)) ->
  (forall c l, Forall (fun kv => P (snd kv)) l -> P (VObj c l)) ->
  forall v, P v.
Proof.
  intros H0 H1 H2 H3 H4. fix IH 1. intros [|n|n|t|c l]; [exact H0|apply H1|apply H2|apply H3|].
  apply H4. induction l as [|[k x] r IHr]; constructor; [apply IH|assumption].
Qed.

Lemma transient_false d k :
  mem k (transient d) = false ->
  mem k (d_drop d) = false /\ mem k (d_null d) = false /\ mem k (map fst (d_fresh d)) = false.
Proof.
  unfold transient, mem. rewrite !existsb_app, !orb_false_iff. tauto.
Qed.

Lemma lookup_set k k' v l : lookup k (set k' v l) = if String.eqb k k' then Some v else lookup k l.
Proof. exact (assoc_get_put String.eqb String.eqb_eq k' v l k). Qed.

Lemma mem_eqb_false k k0 l : mem k l = false -> mem k0 l = true -> String.eqb k k0 = false.
Proof. intros H H0. destruct (String.eqb_spec k k0) as [->|]; [congruence|reflexivity]. Qed.

Lemma lookup_set_all_other k fs : forall l,
  mem k (map fst fs) = false -> lookup k (set_all fs l) = lookup k l.
Proof.
  unfold set_all. induction fs as [|[k0 v0] fs IH]; intros l H; cbn in *; [reflexivity|].
  apply orb_false_iff in H. destruct H as [E H]. rewrite IH by assumption.
  now rewrite lookup_set, E.
Qed.

(* push_wfb of the specification as a Prop, for a class table given as a function (push_wfb_ok) *)
Definition lands_transient (desc : string -> descr) (p : string * string * string * string) : Prop :=
  let '(_, cc, ck, _) := p in mem ck (transient (desc cc)) = true.
Definition push_wf (desc : string -> descr) : Prop := forall c, Forall (lands_transient desc) (d_push (desc c)).

Lemma apply_push_lookup desc ch cc ck own l0 l k :
  mem ck (transient (desc cc)) = true ->
  opt_rel (survives desc) (lookup k l0) (lookup k l) ->
  opt_rel (survives desc) (lookup k l0) (lookup k (apply_push (ch, cc, ck, own) l)).
Proof.
  intros W H. unfold apply_push.
  destruct (lookup ch l) as [[| | | |c' a]|] eqn:Lc; try assumption.
  destruct (lookup own l) as [v|]; [|assumption].
  destruct (String.eqb_spec c' cc) as [<-|]; [|assumption].
  rewrite lookup_set. destruct (String.eqb_spec k ch) as [->|]; [|assumption]. rewrite Lc in H.
  inversion H as [|x y Hxy Ex Ey]; subst. constructor.
  (* the push rewrites attribute ck of the held object, which is transient for its class: every
     other attribute of it is read as before *)
  inversion Hxy as [| |c0 l1 l2 Hk]; subst. constructor. intros k' Hk'.
  rewrite lookup_set, (mem_eqb_false _ _ _ Hk' W). now apply Hk.
Qed.

Lemma push_all_lookup desc ps l0 k : Forall (lands_transient desc) ps -> forall l,
  opt_rel (survives desc) (lookup k l0) (lookup k l) ->
  opt_rel (survives desc) (lookup k l0) (lookup k (push_all ps l)).
Proof.
  unfold push_all. induction 1 as [|[[[ch cc] ck] own] ps W _ IH]; intros l H; cbn; [assumption|].
  apply IH. now apply apply_push_lookup.
Qed.

Lemma survives_obj_inv desc c l v' :
  survives desc (VObj c l) v' ->
  exists l', v' = VObj c l' /\
    forall k, mem k (transient (desc c)) = false -> opt_rel (survives desc) (lookup k l) (lookup k l').
Proof. intros H. inversion H as [| |c0 l0 l' Hk]; subst. now exists l'. Qed.

Lemma survives_checksum desc (task_hash : val -> nat) c l v' n :
  identity_safe desc c = true -> lookup "task" l = Some (VData n) ->
  survives desc (VObj c l) v' -> checksum task_hash v' = checksum task_hash (VObj c l).
Proof.
  intros S T H. destruct (survives_obj_inv _ _ _ _ H) as (l' & -> & Hk).
  pose proof (proj1 (forallb_forall _ _) S) as R.
  pose proof (Hk _ (proj1 (negb_true_iff _) (R "_checksum" (or_introl eq_refl)))) as H1.
  pose proof (Hk _ (proj1 (negb_true_iff _) (R "task" (or_intror (or_introl eq_refl))))) as H2.
  unfold checksum. rewrite T in *.
  assert (E2 : lookup "task" l' = Some (VData n)). { inversion H2 as [|a b Hab]. now inversion Hab. }
  rewrite E2. destruct H1 as [|a b Hab]; [reflexivity|destruct Hab; reflexivity].
Qed.

Definition is_some {A} (o : option A) : bool := match o with Some _ => true | None => false end.

Section Facts.
  Variable desc : string -> descr.
  Variable cp : nat -> option nat.

  Lemma rt_obj c l :
    rt desc cp (VObj c l) =
    match rt_attrs desc cp (desc c) l with
    | Some st => Some (VObj c (setstate (desc c) st))
    | None => None
    end.
  Proof.
    cbn [rt].
    match goal with |- match ?f l with _ => _ end = _ =>
      assert (E : forall r, f r = rt_attrs desc cp (desc c) r) end.
    { induction r as [|[k x] r IH]; [reflexivity|]. cbn [rt_attrs]. rewrite <- IH. reflexivity. }
    rewrite E. reflexivity.
  Qed.

  (* what __setstate__ assigns is there afterwards *)
  Lemma recreated c l v' k x :
    rt desc cp (VObj c l) = Some v' -> d_fresh (desc c) = [(k, x)] -> d_push (desc c) = [] ->
    exists l', v' = VObj c l' /\ lookup k l' = Some x.
  Proof.
    rewrite rt_obj. destruct (rt_attrs desc cp (desc c) l) as [st|]; [|discriminate].
    intros E F G. inversion E; subst. eexists; split; [reflexivity|]. unfold setstate. rewrite F, G. cbn.
    now rewrite lookup_set, String.eqb_refl.
  Qed.

  Lemma picklable_obj c l :
    picklableb desc (VObj c l) =
    forallb (fun kv => mem (fst kv) (d_drop (desc c)) || mem (fst kv) (d_null (desc c)) || picklableb desc (snd kv)) l.
  Proof. cbn. induction l as [|[k x] r IH]; cbn; [reflexivity|]. rewrite IH. reflexivity. Qed.

  Lemma rt_attrs_lookup d l :
    Forall (fun kv => forall v', rt desc cp (snd kv) = Some v' -> survives desc (snd kv) v') l ->
    forall st, rt_attrs desc cp d l = Some st ->
    forall k, mem k (d_drop d) = false -> mem k (d_null d) = false ->
    opt_rel (survives desc) (lookup k l) (lookup k st).
  Proof.
    induction 1 as [|[k0 x] r Hx _ IH]; intros st E k Hd Hn; cbn in *.
    - injection E as <-. constructor.
    - destruct (mem k0 (d_drop d)) eqn:D0; [rewrite (mem_eqb_false k k0 _ Hd D0); now apply IH|].
      destruct (mem k0 (d_null d)) eqn:N0.
      + destruct (rt_attrs desc cp d r) as [r'|]; [|discriminate]. injection E as <-. cbn.
        rewrite (mem_eqb_false k k0 _ Hn N0). now apply IH.
      + destruct (rt desc cp x) as [x'|]; [|discriminate].
        destruct (rt_attrs desc cp d r) as [r'|]; [|discriminate]. injection E as <-. cbn.
        destruct (String.eqb k k0); [constructor; now apply Hx|now apply IH].
  Qed.

  (* cloudpickle is faithful on plain data: whatever it returns is what went in *)
  Hypothesis cp_faithful : forall n m, cp n = Some m -> m = n.
  Hypothesis pushes_ok : push_wf desc.

  Theorem roundtrip_nontransient : forall v v', rt desc cp v = Some v' -> survives desc v v'.
  Proof.
    induction v as [|n|n|t|c l IH] using val_nested_ind; intros v' E.
    - cbn in E. inversion E. constructor.
    - cbn in E. destruct (cp n) as [m|] eqn:C; [|discriminate]. inversion E; subst.
      rewrite (cp_faithful _ _ C). constructor.
    - discriminate.
    - discriminate.
    - rewrite rt_obj in E. destruct (rt_attrs desc cp (desc c) l) as [st|] eqn:Es; [|discriminate].
      inversion E; subst. constructor. intros k Hk.
      apply transient_false in Hk. destruct Hk as (Hd & Hn & Hf).
      unfold setstate. apply push_all_lookup; [exact (pushes_ok c)|].
      rewrite lookup_set_all_other by assumption.
      eapply rt_attrs_lookup; eassumption.
  Qed.

  Hypothesis cp_total : forall n, cp n <> None.

  Lemma picklable_is_some : forall v, picklableb desc v = is_some (rt desc cp v).
  Proof.
    induction v as [|n|n|t|c l IH] using val_nested_ind; try reflexivity.
    - cbn. destruct (cp n) eqn:C; [reflexivity|now destruct (cp_total n)].
    - rewrite picklable_obj, rt_obj.
      transitivity (is_some (rt_attrs desc cp (desc c) l)); [|now destruct (rt_attrs desc cp (desc c) l)].
      induction IH as [|[k x] r Hx _ IHr]; cbn [forallb rt_attrs fst snd] in *; [reflexivity|]. rewrite IHr, Hx.
      destruct (mem k (d_drop (desc c))); [reflexivity|].
      destruct (mem k (d_null (desc c))), (rt desc cp x), (rt_attrs desc cp (desc c) r); reflexivity.
  Qed.

End Facts.

Lemma survivesb_obj desc c l c' l' :
  survivesb desc (VObj c l) (VObj c' l') =
  String.eqb c c' &&
  forallb (fun kv => mem (fst kv) (transient (desc c)) ||
                     match lookup (fst kv) l' with Some x' => survivesb desc (snd kv) x' | None => false end) l &&
  forallb (fun kv => mem (fst kv) (transient (desc c)) ||
                     match lookup (fst kv) l with Some _ => true | None => false end) l'.
Proof.
  cbn. f_equal. f_equal. induction l as [|[k x] r IH]; cbn; [reflexivity|]. rewrite IH. reflexivity.
Qed.

Lemma lookup_in k l v : lookup k l = Some v -> In (k, v) l.
Proof. exact (assoc_get_in String.eqb String.eqb_eq k v l). Qed.
Lemma lookup_none_in k l : lookup k l = None -> forall v, ~ In (k, v) l.
Proof. intros H v I. exact (proj1 (assoc_get_none String.eqb String.eqb_eq k l) H (in_map fst _ _ I)). Qed.

Theorem survivesb_sound desc : forall a b, survivesb desc a b = true -> survives desc a b.
Proof.
  induction a as [|n|n|t|c l IH] using val_nested_ind; intros b H; destruct b as [|m|m|t'|c' l']; try discriminate.
  - constructor.
  - cbn in H. apply Nat.eqb_eq in H. subst. constructor.
  - rewrite survivesb_obj, !andb_true_iff in H. destruct H as [[Ec F1] F2].
    apply String.eqb_eq in Ec. subst c'. constructor. intros k Hk.
    rewrite forallb_forall in F1, F2. rewrite Forall_forall in IH.
    destruct (lookup k l) as [x|] eqn:L.
    + pose proof (lookup_in _ _ _ L) as Hin. specialize (F1 _ Hin). cbn in F1. rewrite Hk in F1. cbn in F1.
      destruct (lookup k l') as [x'|]; [|discriminate]. constructor. apply (IH _ Hin). assumption.
    + destruct (lookup k l') as [x'|] eqn:L'; [|constructor].
      pose proof (lookup_in _ _ _ L') as Hin. specialize (F2 _ Hin). cbn in F2. rewrite Hk, L in F2. discriminate.
Qed.

Lemma table_in t c : table t c = no_descr \/ exists c', In (c', table t c) t.
Proof.
  induction t as [|[c0 d0] r IH]; cbn; [auto|].
  destruct (String.eqb c c0); [right; exists c0; auto|].
  destruct IH as [H|[c' H]]; [auto|right; exists c'; auto].
Qed.

Lemma push_wfb_ok t : push_wfb t = true -> push_wf (table t).
Proof.
  unfold push_wfb. rewrite forallb_forall. intros H c.
  destruct (table_in t c) as [->|[c' E]]; [constructor|].
  apply Forall_forall. intros [[[ch cc] ck] own] Hp. exact (proj1 (forallb_forall _ _) (H _ E) _ Hp).
Qed.

Theorem roundtrip_nontransient_table t cp :
  (forall n m, cp n = Some m -> m = n) -> push_wfb t = true ->
  forall v v', rt (table t) cp v = Some v' -> survives (table t) v v'.
Proof. intros F W. apply roundtrip_nontransient; [assumption| apply push_wfb_ok; assumption]. Qed.

Lemma config_safe_not_transient t req c ks k :
  config_safeb t req = true -> In (c, ks) req -> In k ks -> mem k (transient (table t c)) = false.
Proof.
  unfold config_safeb. rewrite forallb_forall. intros S Hc Hin. specialize (S _ Hc). cbn in S.
  rewrite forallb_forall in S. now apply negb_true_iff, S.
Qed.

(* a table shaped like pydra's (the driver reads the real one off the live classes on every run) *)
Definition ex_table : list (string * descr) :=
  [("Job", no_descr);
   ("Submitter", mkDescr [] ["loop"] [("loop", VFresh "loop")] [("worker", "ConcurrentFuturesWorker", "loop", "loop")]);
   ("ConcurrentFuturesWorker", mkDescr ["pool"] ["loop"] [("loop", VNone); ("pool", VFresh "pool")] []);
   ("Audit", no_descr)].
Definition ex_job : val :=
  VObj "Job" [("task", VData 1); ("submitter",
      VObj "Submitter" [("audit", VObj "Audit" [("audit_flags", VData 2)]); ("_cache_root", VData 3);
                        ("loop", VLive 1);
                        ("worker", VObj "ConcurrentFuturesWorker" [("loop", VLive 1); ("n_procs", VData 4); ("pool", VLive 2)])]);
      ("name", VData 5); ("_checksum", VNone); ("audit", VObj "Audit" [("audit_flags", VData 2)])].

Example ex_roundtrip :
  push_wfb ex_table = true /\ identity_safe (table ex_table) "Job" = true /\
  picklableb (table ex_table) ex_job = true /\
  rt (table ex_table) Some ex_job =
  Some (VObj "Job" [("task", VData 1); ("submitter",
      VObj "Submitter" [("audit", VObj "Audit" [("audit_flags", VData 2)]); ("_cache_root", VData 3);
                        ("loop", VFresh "loop");
                        ("worker", VObj "ConcurrentFuturesWorker" [("loop", VFresh "loop"); ("n_procs", VData 4); ("pool", VFresh "pool")])]);
      ("name", VData 5); ("_checksum", VNone); ("audit", VObj "Audit" [("audit_flags", VData 2)])]).
Proof. vm_compute. repeat split; reflexivity. Qed.

(* a live ResourceMonitor held by the job's Audit (F36 with AuditFlag.RESOURCE) is not transient: no pickle *)
Example ex_live_member_unpicklable :
  rt (table ex_table) Some
     (VObj "Job" [("task", VData 1); ("audit", VObj "Audit" [("audit_flags", VData 2); ("resource_monitor", VLive 3)])]) = None.
Proof. reflexivity. Qed.
