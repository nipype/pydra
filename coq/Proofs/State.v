(* Proofs/State.v — the RPN stack machine of State.splits computes the reference expansion (C01). *)
From Pydra Require Import Base.Prelude Model.State Spec.State Proofs.ListFacts.

Section SplInd.
  Variable P : spl -> Prop.
  Hypothesis HF : forall f, P (Fld f).
  Hypothesis HO : forall l, Forall P l -> P (Outer l).
  Hypothesis HI : forall l, Forall P l -> P (Inner l).
  Fixpoint spl_nested_ind (s : spl) : P s :=
    match s with
    | Fld f => HF f
    | Outer l => HO l ((fix go (l : list spl) : Forall P l :=
                          match l with [] => Forall_nil _ | x :: r => Forall_cons _ (spl_nested_ind x) (go r) end) l)
    | Inner l => HI l ((fix go (l : list spl) : Forall P l :=
                          match l with [] => Forall_nil _ | x :: r => Forall_cons _ (spl_nested_ind x) (go r) end) l)
    end.
End SplInd.

Definition ixs (a : list assignment) : list idx := map (map snd) a.

Lemma ixs_cart a b : ixs (cart a b) = pyprod (ixs a) (ixs b).
Proof.
  unfold ixs, cart, pyprod. induction a as [|x a IH]; cbn [flat_map map]; [reflexivity|].
  rewrite map_app, IH. f_equal. rewrite !map_map. apply map_ext. intros y. apply map_app.
Qed.

Lemma ixs_pairup a b : ixs (pairup a b) = pyzip (ixs a) (ixs b).
Proof.
  unfold ixs. revert b; induction a as [|x a IH]; intros [|y b]; cbn [pairup pyzip map]; try reflexivity.
  rewrite map_app, IH. reflexivity.
Qed.

(* shape_eqb, like the comparison of index tuples in lookup_last, is list_eqb Nat.eqb: Prelude's nat_list_eqb_eq reads both *)
Lemma shape_eqb_refl a : shape_eqb a a = true.
Proof. apply nat_list_eqb_eq. reflexivity. Qed.

Lemma memb_In x l : memb x l = true <-> In x l.
Proof. exact (existsb_eqb_In Nat.eqb Nat.eqb_eq x l). Qed.

(* node false l = Outer l, node true l = Inner l: the two differ in the sign of the RPN and in the binary step of the
   reference product, and in nothing else on the way from the splitter to its jobs *)
Definition node (dot : bool) (l : list spl) : spl := if dot then Inner l else Outer l.
Definition dsign (dot : bool) : tok := if dot then TDot else TMul.

Lemma spl_node_ind (P : spl -> Prop) :
  (forall f, P (Fld f)) -> (forall dot l, Forall P l -> P (node dot l)) -> forall s, P s.
Proof. intros HF HN. exact (spl_nested_ind P HF (HN false) (HN true)). Qed.

Lemma rpn_node dot x r : rpn (node dot (x :: r)) = rpn x ++ flat_map (fun y => rpn y ++ [dsign dot]) r.
Proof. destruct dot; reflexivity. Qed.
Lemma leaves_node dot l : leaves (node dot l) = flat_map leaves l.
Proof. destruct dot; reflexivity. Qed.
Lemma wfb_node dot l : wfb (node dot l) = match l with [] => false | _ => forallb wfb l end.
Proof. destruct dot; reflexivity. Qed.

Lemma rpn_nonempty s : wfb s = true -> rpn s <> [].
Proof.
  induction s as [f|dot l IH] using spl_node_ind; [discriminate|]. rewrite wfb_node.
  destruct l as [|x r]; [discriminate|]. rewrite rpn_node. cbn [forallb]. intros W. apply andb_true_iff in W as [Wx _].
  inversion IH as [|? ? Hx _]; subst. intros E. apply app_eq_nil in E as [E _]. exact (Hx Wx E).
Qed.

Definition dall (dot : bool) : list (option denot) -> option denot := if dot then inner_all else outer_all.
Definition dstep (dot : bool) (d d' : option denot) : option denot := dall dot [d; d'].

Lemma expand_node e dot l : expand e (node dot l) = dall dot (map (expand e) l).
Proof. destruct dot; reflexivity. Qed.
Lemma dall_single dot d : dall dot [d] = d.
Proof. destruct dot; reflexivity. Qed.
Lemma dall_cons2 dot d d' r : dall dot (d :: d' :: r) = dstep dot d (dall dot (d' :: r)).
Proof. destruct dot; reflexivity. Qed.

Lemma dstep_some dot d d' c : dstep dot d d' = Some c -> exists a b, d = Some a /\ d' = Some b.
Proof. destruct dot, d as [[? ?]|], d' as [[? ?]|]; cbn; try discriminate; eauto. Qed.

Lemma cart_assoc (a b c : list assignment) : cart (cart a b) c = cart a (cart b c).
Proof.
  unfold cart. induction a as [|x a IH]; cbn [flat_map]; [reflexivity|].
  rewrite flat_map_app, IH. f_equal.
  clear IH. induction b as [|y b IHb]; cbn [flat_map map]; [reflexivity|].
  rewrite map_app, <- IHb. f_equal. rewrite !map_map. apply map_ext. intros z. symmetry. apply app_assoc.
Qed.

Lemma pairup_assoc (a b c : list assignment) : pairup (pairup a b) c = pairup a (pairup b c).
Proof.
  revert b c; induction a as [|x a IH]; intros [|y b] [|z c]; cbn [pairup]; try reflexivity.
  rewrite IH, app_assoc. reflexivity.
Qed.

Lemma dstep_assoc dot d1 d2 d3 : dstep dot (dstep dot d1 d2) d3 = dstep dot d1 (dstep dot d2 d3).
Proof.
  destruct dot, d1 as [[a sa]|], d2 as [[b sb]|], d3 as [[c sc]|]; cbn [dstep dall outer_all inner_all]; try reflexivity.
  - destruct (shape_eqb sa sb) eqn:E1, (shape_eqb sb sc) eqn:E2; cbn [inner_all].
    + apply nat_list_eqb_eq in E1, E2. subst. rewrite shape_eqb_refl, pairup_assoc. reflexivity.
    + apply nat_list_eqb_eq in E1. subst. rewrite E2. reflexivity.
    + rewrite E1. reflexivity.
    + reflexivity.
  - destruct (shape_eqb sa sb); reflexivity.
  - rewrite cart_assoc, app_assoc. reflexivity.
Qed.

Lemma fold_dall dot r : forall d, fold_left (dstep dot) r d = dall dot (d :: r).
Proof.
  assert (A : forall t d d', dall dot (dstep dot d d' :: t) = dstep dot d (dall dot (d' :: t))).
  { induction t as [|d'' t IH]; intros d d'; [rewrite !dall_single; reflexivity|].
    rewrite !dall_cons2. apply dstep_assoc. }
  induction r as [|d' r IH]; intros d; cbn [fold_left]; [symmetry; apply dall_single|].
  rewrite IH, A, dall_cons2. reflexivity.
Qed.

Section Preserves.
  Variable e : env.
  Variable Q : list nat -> list assignment -> shape -> Prop.
  Hypothesis Hleaf : forall f, Q [f] (fst (leafd e f)) (snd (leafd e f)).
  Hypothesis Hcart : forall la a sa lb b sb, Q la a sa -> Q lb b sb -> Q (la ++ lb) (cart a b) (sa ++ sb).
  Hypothesis Hpair : forall la a sa lb b, Q la a sa -> Q lb b sa -> Q (la ++ lb) (pairup a b) sa.

  Lemma dstep_preserves dot la lb a sa b sb c sc :
    dstep dot (Some (a, sa)) (Some (b, sb)) = Some (c, sc) -> Q la a sa -> Q lb b sb -> Q (la ++ lb) c sc.
  Proof.
    destruct dot; cbn [dstep dall outer_all inner_all].
    - destruct (shape_eqb sa sb) eqn:Es; [|discriminate]. apply nat_list_eqb_eq in Es. subst sb. intros [= <- <-]. apply Hpair.
    - intros [= <- <-]. apply Hcart.
  Qed.

  Lemma expand_preserves : forall s a sh, expand e s = Some (a, sh) -> Q (leaves s) a sh.
  Proof.
    induction s as [f|dot l IH] using spl_node_ind; intros a sh E.
    - inversion E; subst. apply Hleaf.
    - rewrite expand_node in E. rewrite leaves_node. revert a sh E. induction l as [|x [|y r] IHl]; intros a sh E.
      + destruct dot; discriminate.
      + cbn [map] in E. rewrite dall_single in E. cbn [flat_map]. rewrite app_nil_r. inversion IH; subst; auto.
      + cbn [map] in E. rewrite dall_cons2 in E. destruct (dstep_some _ _ _ _ E) as ([a1 s1] & [a2 s2] & E1 & E2). rewrite E1, E2 in E.
        inversion IH as [|? ? Hx IH']; subst. exact (dstep_preserves dot _ _ _ _ _ _ _ _ E (Hx _ _ E1) (IHl IH' _ _ E2)).
  Qed.
End Preserves.

Lemma rpn_node_snoc dot x r y : rpn (node dot (x :: r ++ [y])) = rpn (node dot (x :: r)) ++ rpn y ++ [dsign dot].
Proof. rewrite !rpn_node, flat_map_app. cbn [flat_map]. rewrite app_nil_r, !app_assoc. reflexivity. Qed.
Lemma leaves_node_snoc dot x r y : leaves (node dot (x :: r ++ [y])) = leaves (node dot (x :: r)) ++ leaves y.
Proof. rewrite !leaves_node, app_comm_cons, flat_map_app. cbn [flat_map]. rewrite app_nil_r. reflexivity. Qed.
Lemma expand_node_snoc e dot x r y :
  expand e (node dot (x :: r ++ [y])) = dstep dot (expand e (node dot (x :: r))) (expand e y).
Proof. rewrite !expand_node. cbn [map]. rewrite map_app, <- !fold_dall, fold_left_app. reflexivity. Qed.

Section Compile.
  Variable e : env.

  (* x is a stack entry standing for the denotation (a, sh) of a sub-splitter with leaf sequence lv *)
  Definition stands (x : sel) (a : list assignment) (sh : shape) (lv : list nat) : Prop :=
    force e x = (ixs a, sh, lv).

  (* after running the code of a sub-splitter: either an evaluated triple was pushed and `keys` holds its
     keys, or (single field, possibly wrapped in one-element lists) its bare name was pushed; the code is then the one
     token of that field, the case State.splits treats apart (_single_op_splits; lemma splits_rpn below) *)
  Definition pushed (p : list tok) (x : sel) (lv keys keys' : list nat) : Prop :=
    (exists v sh, x = SVal v sh lv /\ keys' = lv) \/ (exists f, x = SName f /\ p = [TF f] /\ keys' = keys).

  Definition runs_to (s : spl) (p : list tok) : Prop :=
    forall st keys,
      match expand e s with
      | Some (a, sh) => exists x keys', stands x a sh (leaves s) /\ pushed p x (leaves s) keys keys' /\
                          forall k, run e (p ++ k) st keys = run e k (x :: st) keys'
      | None => forall k, run e (p ++ k) st keys = Err EShape
      end.

  Lemma binop_stands dot x a sa lx y b sb ly : stands x a sa lx -> stands y b sb ly ->
    binop e dot x y = match dstep dot (@Some denot (a, sa)) (@Some denot (b, sb)) with
                      | Some (c, sc) => Ok (ixs c, sc, lx ++ ly)
                      | None => Err EShape
                      end.
  Proof.
    unfold stands, binop. intros -> ->. destruct dot; cbn [dstep dall outer_all inner_all].
    - destruct (shape_eqb sa sb) eqn:E; [|reflexivity]. apply nat_list_eqb_eq in E. subst sb. rewrite ixs_pairup. reflexivity.
    - rewrite ixs_cart. reflexivity.
  Qed.

  (* one operator: the code of two operands, then the sign, computes their binary product; t is any splitter with that
     product as its expansion and the two leaf sequences, one after the other, as its own *)
  Lemma runs_step dot s y t p q :
    expand e t = dstep dot (expand e s) (expand e y) -> leaves t = leaves s ++ leaves y ->
    runs_to s p -> runs_to y q -> runs_to t (p ++ q ++ [dsign dot]).
  Proof.
    intros Et Lt Hs Hy st keys. specialize (Hs st keys). rewrite Et, Lt.
    destruct (expand e s) as [[a sa]|].
    2:{ destruct dot; intros k; rewrite <- app_assoc; apply Hs. }
    destruct Hs as (x0 & keys0 & Hx0 & _ & Hrun0). specialize (Hy (x0 :: st) keys0).
    destruct (expand e y) as [[b sb]|].
    2:{ destruct dot; intros k; rewrite <- !app_assoc, Hrun0; apply Hy. }
    destruct Hy as (xy & keysy & Hxy & _ & Hruny).
    assert (Hop : forall k, run e ((p ++ q ++ [dsign dot]) ++ k) st keys =
                            match binop e dot x0 xy with
                            | Ok (v, sh, ks) => run e k (SVal v sh ks :: st) ks
                            | Err z => Err z
                            end).
    { intros k. rewrite <- !app_assoc, Hrun0, Hruny. destruct dot; reflexivity. }
    rewrite (binop_stands dot _ _ _ _ _ _ _ _ Hx0 Hxy) in Hop.
    destruct (dstep dot _ _) as [[c sc]|]; [|exact Hop].
    eexists _, _. split; [|split; [|exact Hop]]; [reflexivity| left; eauto].
  Qed.

  (* by induction on the operands after the first, from the right: the code of the list is the code of the list without
     its last operand, then the code of that operand, then the sign *)
  Lemma node_runs (dot : bool) x : forall r,
    Forall (fun y => runs_to y (rpn y)) (x :: r) -> runs_to (node dot (x :: r)) (rpn (node dot (x :: r))).
  Proof.
    induction r as [|y r IH] using rev_ind; intros HF.
    - apply Forall_cons_iff in HF as [Hx _].
      intros st keys. rewrite expand_node, rpn_node, leaves_node. cbn [map flat_map]. rewrite dall_single, !app_nil_r.
      exact (Hx st keys).
    - rewrite app_comm_cons in HF. apply Forall_app in HF as [HF Hy]. apply Forall_cons_iff in Hy as [Hy _].
      rewrite rpn_node_snoc.
      exact (runs_step dot _ y _ _ _ (expand_node_snoc e dot x r y) (leaves_node_snoc dot x r y) (IH HF) Hy).
  Qed.

  Lemma run_rpn s : wfb s = true -> runs_to s (rpn s).
  Proof.
    induction s as [f|dot l IH] using spl_node_ind; intros W.
    - intros st keys. cbn [expand rpn]. exists (SName f), keys. split; [|split].
      + unfold stands, leafd, ixs, irange. cbn [force fst snd leaves]. rewrite map_map. reflexivity.
      + right. exists f. auto.
      + reflexivity.
    - rewrite wfb_node in W. destruct l as [|x r]; [discriminate|]. apply node_runs.
      rewrite Forall_forall in *. rewrite forallb_forall in W. intros y Hy. exact (IH y Hy (W y Hy)).
  Qed.
End Compile.

Lemma combine_ixs lv a : (forall x, In x a -> map fst x = lv) -> map (combine lv) (ixs a) = a.
Proof.
  unfold ixs. intros H. rewrite map_map. rewrite <- (map_id a) at 2. apply map_ext_in. intros x Hx.
  rewrite <- (H x Hx). clear. induction x as [|[k v] x IH]; cbn; [reflexivity| now rewrite IH].
Qed.

Lemma in_cart z (a b : list assignment) : In z (cart a b) <-> exists x y, In x a /\ In y b /\ z = x ++ y.
Proof.
  unfold cart. rewrite in_flat_map. split.
  - intros (x & Hx & Hz). apply in_map_iff in Hz as (y & <- & Hy). eauto.
  - intros (x & y & Hx & Hy & ->). exists x. split; [exact Hx|]. apply in_map. exact Hy.
Qed.

Lemma in_pairup z (a : list assignment) : forall b, In z (pairup a b) -> exists x y, In x a /\ In y b /\ z = x ++ y.
Proof.
  induction a as [|x a IH]; intros [|y b] H; cbn [pairup] in H; try contradiction.
  destruct H as [<-|H]; [exists x, y; cbn; auto|].
  destruct (IH b H) as (x' & y' & Hx & Hy & ->). exists x', y'. cbn. auto.
Qed.

Section Good.
  Variable e : env.

  Definition good (lv : list nat) (x : assignment) : Prop := map fst x = lv /\ in_range e x = true.

  Lemma in_range_app x y : in_range e (x ++ y) = in_range e x && in_range e y.
  Proof. unfold in_range. apply forallb_app. Qed.

  Lemma good_app la lb x y : good la x -> good lb y -> good (la ++ lb) (x ++ y).
  Proof. intros [A1 A2] [B1 B2]. split; [rewrite map_app, A1, B1; reflexivity| rewrite in_range_app, A2, B2; reflexivity]. Qed.

  (* c is cart a b or pairup a b *)
  Lemma good_prod la lb a b c : (forall z, In z c -> exists x y, In x a /\ In y b /\ z = x ++ y) ->
    Forall (good la) a -> Forall (good lb) b -> Forall (good (la ++ lb)) c.
  Proof.
    intros H Ha Hb. rewrite Forall_forall in *. intros z Hz. destruct (H z Hz) as (x & y & Hx & Hy & ->). apply good_app; auto.
  Qed.

  Lemma good_leaf f : Forall (good [f]) (fst (leafd e f)).
  Proof.
    apply Forall_forall. intros x Hx. apply in_map_iff in Hx as (i & <- & Hi). apply in_seq in Hi.
    split; [reflexivity|]. unfold in_range. cbn [forallb fst snd]. rewrite andb_true_r. apply Nat.ltb_lt. lia.
  Qed.

  Lemma expand_good s : forall a sh, expand e s = Some (a, sh) -> Forall (good (leaves s)) a.
  Proof.
    apply (expand_preserves e (fun lv a _ => Forall (good lv) a)).
    - exact good_leaf.
    - intros la a1 _ lb b1 _. apply good_prod. intros z. apply in_cart.
    - intros la a1 _ lb b1. apply good_prod. intros z. apply in_pairup.
  Qed.

  Lemma expand_keys s a sh x : expand e s = Some (a, sh) -> In x a -> map fst x = leaves s.
  Proof. intros E Hx. pose proof (expand_good s a sh E) as G. rewrite Forall_forall in G. apply (G x Hx). Qed.
End Good.
Arguments expand_good [e s a sh].
Arguments expand_keys [e s a sh x].

Lemma splits_run e p : (forall f, p <> [TF f]) ->
  splits e p = match run e p [] [] with
               | Ok (SVal v _ _ :: _, keys) => Ok (v, keys)
               | Ok (_, _) => Err EStack
               | Err x => Err x
               end.
Proof.
  intros H. unfold splits. destruct p as [|[f| |] [|t p]]; try reflexivity. exfalso. eapply H. reflexivity.
Qed.

Lemma splits_rpn e s : wfb s = true ->
  splits e (rpn s) = match expand e s with
                     | Some (a, _) => Ok (ixs a, leaves s)
                     | None => Err EShape
                     end.
Proof.
  intros W. pose proof (run_rpn e s W [] []) as H.
  destruct (expand e s) as [[a sh]|].
  - destruct H as (x & keys' & Hx & Hp & Hr). specialize (Hr []). rewrite app_nil_r in Hr. cbn [run] in Hr.
    destruct Hp as [(v & sh' & -> & ->)|(f & -> & Ep & ->)].
    + rewrite splits_run.
      * rewrite Hr. unfold stands in Hx. cbn [force] in Hx. inversion Hx; subst. reflexivity.
      * intros f Ef. rewrite Ef in Hr. cbn [run] in Hr. discriminate.
    + rewrite Ep. unfold splits. unfold stands in Hx. cbn [force] in Hx. inversion Hx; subst. reflexivity.
  - specialize (H []). rewrite app_nil_r in H. rewrite splits_run.
    + rewrite H. reflexivity.
    + intros f Ef. rewrite Ef in H. cbn [run] in H. discriminate.
Qed.

Theorem prepare_states_spec e s : wfb s = true -> prepare_states e s = spec_result e s.
Proof.
  intros W. unfold prepare_states, spec_result, jobs. rewrite (splits_rpn e s W).
  destruct (expand e s) as [[a sh]|] eqn:E; [|reflexivity].
  pose proof (expand_good E) as G. rewrite Forall_forall in G. unfold states_ind.
  rewrite combine_ixs by (intros x Hx; apply (G x Hx)).
  rewrite (proj2 (forallb_forall (in_range e) a)) by (intros x Hx; apply (G x Hx)). reflexivity.
Qed.

Lemma nprod_app a b : nprod (a ++ b) = nprod a * nprod b.
Proof. unfold nprod. induction a as [|x a IH]; cbn [app fold_right]; [lia| rewrite IH; lia]. Qed.

Lemma cart_length (a b : list assignment) : List.length (cart a b) = List.length a * List.length b.
Proof.
  induction a as [|x a IH]; [reflexivity|]. change (cart (x :: a) b) with (map (fun y => x ++ y) b ++ cart a b).
  rewrite app_length, map_length. cbn [List.length Nat.mul]. f_equal. exact IH.
Qed.
Lemma pairup_length (a : list assignment) : forall b, List.length (pairup a b) = Nat.min (List.length a) (List.length b).
Proof. induction a as [|x a IH]; intros [|y b]; cbn [pairup List.length Nat.min]; auto. Qed.

Lemma expand_count [e s a sh] : expand e s = Some (a, sh) -> List.length a = nprod sh.
Proof.
  revert a sh. apply (expand_preserves e (fun _ a sh => List.length a = nprod sh)).
  - intros f. unfold leafd. cbn [fst snd]. rewrite map_length, seq_length. reflexivity.
  - intros _ a1 s1 _ b1 s2 H1 H2. rewrite cart_length, nprod_app, H1, H2. reflexivity.
  - intros _ a1 s1 _ b1 H1 H2. rewrite pairup_length, H1, H2. apply Nat.min_id.
Qed.

Lemma cart_nth (a b : list assignment) i j :
  i < List.length a -> j < List.length b -> nth (i * List.length b + j) (cart a b) [] = nth i a [] ++ nth j b [].
Proof.
  revert i. induction a as [|x a IH]; intros i Hi Hj; cbn [List.length] in Hi; [lia|].
  change (cart (x :: a) b) with (map (fun y : assignment => x ++ y) b ++ cart a b).
  assert (L : List.length (map (fun y : assignment => x ++ y) b) = List.length b) by apply map_length.
  destruct i as [|i]; cbn [Nat.mul Nat.add nth].
  - rewrite app_nth1 by lia. rewrite (nth_indep _ [] (x ++ [])) by lia. apply (map_nth (fun y => x ++ y)).
  - rewrite app_nth2 by lia. rewrite L, <- IH by lia. f_equal. lia.
Qed.

Lemma pairup_nth (a : list assignment) : forall b i,
  i < List.length a -> i < List.length b -> nth i (pairup a b) [] = nth i a [] ++ nth i b [].
Proof.
  induction a as [|x a IH]; intros [|y b] i Ha Hb; cbn [List.length] in *; try lia.
  destruct i as [|i]; cbn [pairup nth]; [reflexivity| apply IH; lia].
Qed.

Lemma expand_zero [e s a sh] : expand e s = Some (a, sh) -> (nprod sh = 0 <-> Exists (fun f => nprod (e f) = 0) (leaves s)).
Proof.
  revert a sh. apply (expand_preserves e (fun lv _ sh => nprod sh = 0 <-> Exists (fun f => nprod (e f) = 0) lv)).
  - intros f. rewrite Exists_cons, Exists_nil. tauto.
  - intros la a1 s1 lb b1 s2 H1 H2. rewrite nprod_app, Nat.eq_mul_0, Exists_app, H1, H2. reflexivity.
  - intros la a1 s1 lb b1 H1 H2. rewrite Exists_app, <- H1, <- H2. clear. tauto.
Qed.

Lemma expand_empty e s f : In f (leaves s) -> nprod (e f) = 0 -> forall a sh, expand e s = Some (a, sh) -> a = [].
Proof.
  intros Hin Hz a sh E. pose proof (expand_count E) as C.
  rewrite (proj2 (expand_zero E)) in C by (apply Exists_exists; eauto). destruct a; [reflexivity|discriminate].
Qed.

Lemma expand_nonempty e s : (forall f, In f (leaves s) -> nprod (e f) >= 1) ->
  forall a sh, expand e s = Some (a, sh) -> a <> [].
Proof.
  intros Hpos a sh E ->. pose proof (expand_count E) as C. symmetry in C.
  apply (expand_zero E), Exists_exists in C as (f & Hf & Z). specialize (Hpos f Hf). lia.
Qed.
