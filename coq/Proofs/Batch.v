(* Proofs/Batch.v — batch-scheduler workers (C28).  SLURM: verify answers each accounting report as the statement
   classifies it, so the polling loop's verdict is the statement's decision over the stream of reports; the sacct
   regex reads back a printed accounting line; the look-behind searches for user options agree, token by token, with
   the option grammar on the handled forms.  SGE: qacct's records split back into key and value. *)
From Pydra Require Import Base.Prelude Model.Batch Spec.Batch.
Local Open Scope string_scope.
Local Open Scope list_scope.

(* the code's three status lists say the same as the statement's two classes *)
Definition lists_agree (sl : state_lists) (st : states) : Prop :=
  (forall s, mem s (sl_requeue_verify sl) = mem s (st_interrupted st)) /\
  (forall s, mem s (sl_requeue_run sl) = mem s (st_interrupted st)) /\
  (forall s, mem s (sl_active sl) = mem s (st_active st)).

(* what the driver evaluates on the lists read from the live source *)
Definition lists_agreeb (sl : state_lists) (st : states) : bool :=
  let all := sl_requeue_verify sl ++ sl_requeue_run sl ++ sl_active sl ++ st_interrupted st ++ st_active st in
  forallb (fun s => Bool.eqb (mem s (sl_requeue_verify sl)) (mem s (st_interrupted st)) &&
                    Bool.eqb (mem s (sl_requeue_run sl)) (mem s (st_interrupted st)) &&
                    Bool.eqb (mem s (sl_active sl)) (mem s (st_active st))) all.

Lemma error_message_failed errfile : outcome_of (error_message errfile) = OFailed.
Proof.
  unfold error_message. destruct errfile as [ls|]; [|reflexivity].
  destruct (rev ls) as [|x [|y r]]; try reflexivity.
  destruct (contains "Exception" y); [reflexivity|]. destruct (contains "Error" y); reflexivity.
Qed.

Lemma verify_classify sl st errfile a : lists_agree sl st ->
  match classify st a with
  | Succeeded => verify sl errfile a = VTrue
  | Active => verify sl errfile a = VFalse
  | Interrupted => exists s, verify sl errfile a = VStatus s /\ mem s (sl_requeue_run sl) = true
  | Broke => exists v, verify sl errfile a = VRaise v /\ outcome_of v = OFailed
  | NoAccounting => verify sl errfile a = VRaise InfoMissing
  | Gibberish => verify sl errfile a = VRaise Unparsable
  end.
Proof.
  intros (H1 & H2 & H3). destruct a as [|s code|]; cbn [classify verify]; try reflexivity.
  rewrite H1, H3, <- negb_andb, (andb_comm (Nat.eqb code 0)).
  destruct (String.eqb s "COMPLETED" && Nat.eqb code 0); cbn [negb]; [reflexivity|].
  destruct (mem s (st_interrupted st)) eqn:I; [exists s; now rewrite H2|].
  destruct (mem s (st_active st)); [reflexivity|].
  eexists. split; [reflexivity|apply error_message_failed].
Qed.

(* with --no-requeue an interrupted job is reported complete; otherwise the verdict is the statement's *)
Theorem poll_verdict : forall sl st, lists_agree sl st ->
  forall norequeue errfile sq sa,
    let '(v, t) := poll_loop sl norequeue errfile sq sa in
    (outcome_of v, count_requeues t) = decide (negb norequeue) (reports st sq sa) \/
    (norequeue = true /\ decide false (reports st sq sa) = (OInterruptedNoRequeue, 0) /\ v = Complete /\ count_requeues t = 0).
Proof.
  intros sl st HL nr errfile sq. induction sq as [|q sq IH]; intros sa; [now left|].
  cbn [poll_loop reports]. fold (in_queue q). destruct (in_queue q).
  { specialize (IH sa). destruct (poll_loop sl nr errfile sq sa) as [v t]. exact IH. }
  destruct sa as [|a sa]; [now left|].
  pose proof (verify_classify sl st errfile a HL) as VC. specialize (IH sa).
  destruct (classify st a); cbn [decide]; try (rewrite VC; now left).
  - rewrite VC. destruct (poll_loop sl nr errfile sq sa) as [v t]. exact IH.
  - destruct VC as (s & -> & ->). destruct nr; cbn [andb negb]; [right; auto|].
    destruct (poll_loop sl false errfile sq sa) as [v t]. destruct IH as [IH|[X _]]; [|discriminate X].
    left. cbn [negb] in IH. rewrite <- IH. reflexivity.
  - destruct VC as (v & -> & Hv). left. now rewrite Hv.
Qed.

Lemma decide_waiting rs : Forall (fun r => r = Some Active \/ r = Some Interrupted) rs ->
  decide true rs = (OWaiting, List.length (filter (fun r => match r with Some Interrupted => true | _ => false end) rs)).
Proof.
  induction 1 as [|r rs [-> | ->] _ IH]; cbn [decide filter]; [reflexivity|exact IH|]. now rewrite IH.
Qed.

Definition word (l : chars) : bool := forallb (fun c => negb (is_space c)) l.

Lemma word_cons c l : word (c :: l) = true -> is_space c = false /\ word l = true.
Proof. intros H. apply andb_prop in H. destruct H as [Hc Hl]. apply negb_true_iff in Hc. now split. Qed.

Lemma py_split_word w : forall cur sp rest, word w = true -> is_space sp = true -> cur <> [] \/ w <> [] ->
  py_split (w ++ sp :: rest) cur = str_of (rev cur ++ w) :: py_split rest [].
Proof.
  induction w as [|c w IH]; intros cur sp rest Hw Hs Hne; cbn.
  - rewrite Hs, app_nil_r. destruct cur; [destruct Hne; congruence|reflexivity].
  - apply word_cons in Hw. destruct Hw as [-> Hw]. rewrite IH by (auto; left; discriminate).
    cbn. now rewrite <- app_assoc.
Qed.

Lemma py_split_last w : forall cur, word w = true -> cur <> [] \/ w <> [] ->
  py_split w cur = [str_of (rev cur ++ w)].
Proof.
  induction w as [|c w IH]; intros cur Hw Hne; cbn.
  - rewrite app_nil_r. destruct cur; [destruct Hne; congruence|reflexivity].
  - apply word_cons in Hw. destruct Hw as [-> Hw]. rewrite IH by (auto; left; discriminate).
    cbn. now rewrite <- app_assoc.
Qed.

Lemma py_split_spaces n rest : py_split (repeat " "%char n ++ rest) [] = py_split rest [].
Proof. induction n; cbn; auto. Qed.

(* one accounting record as qacct prints it: field name, padding, value *)
Record qrecord := { q_key : string; q_pad : nat; q_val : string }.
(* non-empty and without white space: a key or value of a record here, a user token in the option search below *)
Definition clean (s : string) : bool := word (la_of s) && negb (String.eqb s "").
Definition clean_record (r : qrecord) : bool := clean (q_key r) && clean (q_val r).
Definition render_record (r : qrecord) : string :=
  str_of (la_of (q_key r) ++ repeat " "%char (S (q_pad r)) ++ la_of (q_val r)).
Definition answer_of (notfound : bool) (rs : list qrecord) : qacct_ans :=
  {| qa_lines := map render_record rs; qa_notfound := notfound |}.
Definition kv (r : qrecord) : string * string := (q_key r, q_val r).

Lemma clean_ne s : clean s = true -> la_of s <> [] /\ word (la_of s) = true.
Proof.
  intros H. apply andb_prop in H. destruct H as [H1 H2]. split; [|exact H1].
  intros X. destruct s; [discriminate H2| discriminate X].
Qed.

Lemma split_record r : clean_record r = true -> split_ws (render_record r) = [q_key r; q_val r].
Proof.
  intros H. apply andb_prop in H. destruct H as [Hk Hv].
  destruct (clean_ne _ Hk) as [Hk1 Hk2]. destruct (clean_ne _ Hv) as [Hv1 Hv2].
  unfold split_ws, render_record. rewrite la_of_str_of. cbn [repeat app].
  rewrite py_split_word by auto. cbn [rev app]. rewrite str_of_la_of.
  rewrite py_split_spaces. rewrite py_split_last by auto. cbn [rev app]. now rewrite str_of_la_of.
Qed.

Lemma failed_line_records rs : forallb clean_record rs = true ->
  failed_line (map render_record rs) = existsb record_failed (map kv rs).
Proof.
  induction rs as [|r rs IH]; intros H; [reflexivity|]. cbn in H. apply andb_true_iff in H. destruct H as [Hr Hrs].
  cbn [map failed_line existsb]. rewrite split_record by exact Hr.
  unfold record_failed at 1. change (fst (kv r)) with (q_key r). change (snd (kv r)) with (q_val r).
  destruct (String.eqb (q_key r) "failed").
  - destruct (all_digits (q_val r)), (is_zero (q_val r)); cbn [negb andb orb]; try reflexivity; now apply IH.
  - cbn [andb orb]. now apply IH.
Qed.

Lemma answer_verdict nf rs : forallb clean_record rs = true ->
  (if qa_notfound (answer_of nf rs) then SgePending
   else match qa_lines (answer_of nf rs) with
        | [] => SgeErrored
        | ls => if failed_line ls then SgeErrored else SgeDone
        end) = sge_spec (negb nf) (map kv rs).
Proof.
  intros H. unfold sge_spec. cbn [answer_of qa_notfound qa_lines]. destruct nf; [reflexivity|]. cbn [negb].
  destruct rs as [|r rs]; [reflexivity|]. cbn [map].
  change (render_record r :: map render_record rs) with (map render_record (r :: rs)).
  rewrite failed_line_records by exact H. reflexivity.
Qed.

Lemma span_app p a b : forallb p a = true -> match b with [] => True | c :: _ => p c = false end ->
  span p (a ++ b) = (a, b).
Proof.
  induction a as [|x a IH]; intros Ha Hb; cbn.
  - destruct b as [|c b]; [reflexivity|]. cbn. now rewrite Hb.
  - cbn in Ha. apply andb_true_iff in Ha. destruct Ha as [Hx Ha]. rewrite Hx. now rewrite IH.
Qed.

Lemma forallb_repeat_sp n : forallb is_sp (repeat " "%char n) = true.
Proof. induction n; cbn; auto. Qed.

Lemma sacct_search_head l r : match_at l = Some r -> sacct_search l = Some r.
Proof. intros H. destruct l; cbn [sacct_search]; now rewrite H. Qed.

Lemma not_sp (p : ascii -> bool) c : p " "%char = false -> p c = true -> is_sp c = false.
Proof.
  unfold is_sp. intros Hp H. destruct (Ascii.eqb c " ") eqn:E; [|reflexivity].
  apply Ascii.eqb_eq in E. congruence.
Qed.

Lemma match_at_line j p1 w0 w (plus : bool) p2 c0 c s0 s rest :
  forallb is_digit j = true -> forallb is_word (w0 :: w) = true ->
  forallb is_digit (c0 :: c) = true -> forallb is_digit (s0 :: s) = true ->
  match_at (j ++ repeat " "%char (S p1) ++ (w0 :: w) ++ (if plus then ["+"%char] else []) ++
            repeat " "%char (S p2) ++ (c0 :: c) ++ ":"%char :: (s0 :: s) ++ rest) = Some (w0 :: w, c0 :: c).
Proof.
  intros Hj Hw Hc Hs.
  assert (Sw : is_sp w0 = false) by (apply andb_prop in Hw; now apply (not_sp is_word)).
  assert (Sc : is_sp c0 = false) by (apply andb_prop in Hc; now apply (not_sp is_digit)).
  apply andb_prop in Hs. destruct Hs as [Hs0 _].
  assert (HA : after_status (repeat " "%char (S p2) ++ (c0 :: c) ++ ":"%char :: (s0 :: s) ++ rest) = Some (c0 :: c)).
  { unfold after_status. rewrite (span_app is_sp (repeat " "%char (S p2))) by (auto using forallb_repeat_sp; exact Sc).
    unfold exit_code_at. rewrite (span_app is_digit (c0 :: c)) by (auto; reflexivity).
    cbn. now rewrite Hs0. }
  unfold match_at. rewrite (span_app is_digit j) by (auto; reflexivity).
  rewrite (span_app is_sp (repeat " "%char (S p1))) by (auto using forallb_repeat_sp; exact Sw).
  rewrite (span_app is_word (w0 :: w)) by (auto; destruct plus; reflexivity).
  cbn [repeat]. destruct plus; cbn [app]; [rewrite Ascii.eqb_refl|change (Ascii.eqb " " "+") with false; cbn iota];
    cbn [repeat app] in HA; now rewrite HA.
Qed.

Lemma match_rendered l : wf_line l = true ->
  match_at (la_of (render_line l)) = Some (al_state l, al_code l).
Proof.
  unfold wf_line, render_line. rewrite la_of_str_of. intros H.
  repeat (apply andb_prop in H; destruct H as [H ?]).
  destruct (al_state l) as [|w0 w]; [discriminate|]. destruct (al_code l) as [|c0 c]; [discriminate|].
  destruct (al_sig l) as [|s0 s]; [discriminate|]. now apply match_at_line.
Qed.

Lemma parse_rendered l : wf_line l = true -> parse_sacct (render_line l) = ans_of (Some l).
Proof.
  intros H. unfold parse_sacct.
  assert (String.eqb (render_line l) "" = false) as ->.
  { unfold render_line. destruct (al_jobid l); cbn; reflexivity. }
  rewrite (sacct_search_head _ _ (match_rendered l H)). reflexivity.
Qed.

Lemma parse_answers answers : forallb (fun a => match a with None => true | Some l => wf_line l end) answers = true ->
  map parse_sacct (map render_ans answers) = map ans_of answers.
Proof.
  intros H. rewrite map_map. apply map_ext_in. intros [l|] Hin; [|reflexivity].
  rewrite forallb_forall in H. specialize (H _ Hin). cbn [render_ans]. now apply parse_rendered.
Qed.

Example parse_examples :
  parse_sacct "123          CANCELLED+      0:0 " = SaLine "CANCELLED" 0 /\
  parse_sacct "123  COMPLETED  0:0  extra 1:2" = SaLine "COMPLETED" 0 /\
  parse_sacct "123  OUT_OF_ME+  125:0" = SaLine "OUT_OF_ME" 125 /\
  parse_sacct "" = SaNone /\ parse_sacct "sacct: error" = SaGarbage.
Proof. vm_compute. auto. Qed.

(* the lists as SlurmWorker writes them (slurm.py: run, _verify_exit_code); the driver reads them from the live source *)
Definition sl0 : state_lists :=
  {| sl_requeue_verify := ["CANCELLED"; "TIMEOUT"; "PREEMPTED"]; sl_active := ["RUNNING"; "PENDING"];
     sl_requeue_run := ["CANCELLED"; "TIMEOUT"; "PREEMPTED"] |}.
Definition st0 : states := {| st_interrupted := ["CANCELLED"; "TIMEOUT"; "PREEMPTED"]; st_active := ["RUNNING"; "PENDING"] |}.
Lemma lists0 : lists_agree sl0 st0.
Proof. repeat split; intros s; reflexivity. Qed.

(* the pinned tree: a user error option crashed run() after submission; the current model polls *)
Definition ctx_e : submit_ctx :=
  {| sc_args := "-e /tmp/my-%j.err"; sc_default_name := "add.uid"; sc_script_dir := "/c/slurm_scripts/uid";
     sc_batch_script := "/c/slurm_scripts/uid/batchscript_uid.sh" |}.
Definition sched_ok : scheduler :=
  {| sb_rc := 0; sb_stdout := "Submitted batch job 123"; s_squeue := [{| sq_stdout := ""; sq_stderr := "" |}];
     s_sacct := ["123    COMPLETED    0:0"]; s_errfile := None |}.

(* a user argument list by items: an option in its handled short ("-J v") or long ("--job-name=v") form, or another token *)
Inductive item := IOpt (k : okind) (long : bool) (v : string) | IOther (t : string).
Definition item_tokens (i : item) : list string :=
  match i with
  | IOpt k false v => [short_of k; v]
  | IOpt k true v => [String.append (long_of k) v]
  | IOther t => [t]
  end.
Definition tokens_of (is : list item) : list string := flat_map item_tokens is.
Fixpoint join_sp (l : list string) : string :=
  match l with [] => "" | [x] => x | x :: r => String.append x (String.append " " (join_sp r)) end.
Definition ctx_of (args : string) : submit_ctx :=
  {| sc_args := args; sc_default_name := "add.uid"; sc_script_dir := "/c/slurm_scripts/uid";
     sc_batch_script := "/c/slurm_scripts/uid/batchscript_uid.sh" |}.

Lemma in_default {A B} (o : option A) (x d : B) :
  In d (match o with Some _ => [] | None => [x] end) -> d = x /\ o = None.
Proof. destruct o; [intros []|intros [<-|[]]; now split]. Qed.

Lemma defaults_shape {A} (user : list string) (oJ oO oE : option A) (xJ xO xE script : string) :
  exists defaults,
    user ++ (match oJ with Some _ => [] | None => [xJ] end) ++ (match oO with Some _ => [] | None => [xO] end) ++
            (match oE with Some _ => [] | None => [xE] end) ++ [script] = user ++ defaults ++ [script] /\
    forall d, In d defaults -> (d = xJ /\ oJ = None) \/ (d = xO /\ oO = None) \/ (d = xE /\ oE = None).
Proof.
  eexists. split; [do 2 rewrite (app_assoc _ _ [script]); reflexivity|].
  intros d. rewrite !in_app_iff. intros [H|[H|H]]; apply in_default in H; auto.
Qed.

(* the option statement for every user token list is false: forms the regexes do not recognise *)
Definition options_statement : Prop :=
  forall toks : list string,
    forallb clean toks = true ->
    forallb (fun k => Nat.leb (occurrences k toks) 1) [KName; KOut; KErr] = true ->
    options_ok toks (sbatch_argv (ctx_of (join_sp toks))) (sc_batch_script (ctx_of "")) = true.

Lemma la_join_cons t toks :
  la_of (join_sp (t :: toks)) = la_of t ++ match toks with [] => [] | _ => " "%char :: la_of (join_sp toks) end.
Proof. destruct toks; [cbn; now rewrite app_nil_r|]. cbn [join_sp]. now rewrite !la_of_append. Qed.

Definition boundary (B : chars) : Prop := B = [] \/ exists B', B = " "%char :: B'.

Lemma nonspace_neq_sp c : is_space c = false -> Ascii.eqb c " " = false.
Proof. intros H. destruct (Ascii.eqb c " ") eqn:E; [|reflexivity]. apply Ascii.eqb_eq in E. subst c. discriminate H. Qed.

Lemma prefix_word_boundary p : forall acc B, word p = true -> boundary B ->
  is_prefix Ascii.eqb p (acc ++ B) = is_prefix Ascii.eqb p acc.
Proof.
  induction p as [|x p IH]; intros acc B Hp HB; [reflexivity|].
  apply word_cons in Hp. destruct Hp as [Hx Hp].
  destruct acc as [|a acc]; cbn.
  - destruct HB as [-> | [B' ->]]; [reflexivity|]. now rewrite (nonspace_neq_sp _ Hx).
  - now rewrite IH.
Qed.

Section OptSearch.
(* rsh, rl: the short name "-X" and the long prefix "--long=" reversed, as the look-behind reads them;
   rs: "-X " reversed *)
Variables rsh rl : chars.
Hypothesis Hrsh : word rsh = true.
Hypothesis Hrl : word rl = true.
Let rs : chars := " "%char :: rsh.

Definition hitb (l B : chars) : bool := match opt_search rs rl l B with Some _ => true | None => false end.

Lemma hitb_space rest B : hitb (" "%char :: rest) B = hitb rest (" "%char :: B).
Proof. reflexivity. Qed.

(* searching through a word that stands after the word acc (reversed) and a boundary: the short form can only match at
   the word's first character, the long form only inside the word *)
Lemma hitb_word t : forall acc B rest, word t = true -> word acc = true -> boundary B ->
  hitb (t ++ rest) (acc ++ B) =
  (match acc with [] => nonempty t && is_prefix Ascii.eqb rs B | _ => false end) || inside_l rl t acc
  || hitb rest (rev t ++ acc ++ B).
Proof.
  induction t as [|c t IH]; intros acc B rest Ht Hacc HB.
  - destruct acc; reflexivity.
  - apply word_cons in Ht. destruct Ht as [Hc Ht].
    assert (Hca : word (c :: acc) = true) by (unfold word in *; cbn; now rewrite Hc, Hacc).
    specialize (IH (c :: acc) B rest Ht Hca HB). unfold hitb in *. cbn [app opt_search]. rewrite Hc. cbn [negb andb].
    rewrite (prefix_word_boundary rl acc B Hrl HB). cbn [inside_l nonempty rev]. rewrite <- (app_assoc (rev t)).
    destruct acc as [|a acc].
    + cbn [app andb]. destruct (is_prefix Ascii.eqb rs B), (is_prefix Ascii.eqb rl []); try reflexivity. exact IH.
    + apply word_cons in Hacc. destruct Hacc as [Ha _].
      unfold rs at 1. cbn [app is_prefix]. rewrite Ascii.eqb_sym, (nonspace_neq_sp _ Ha). cbn [andb orb].
      destruct (is_prefix Ascii.eqb rl (a :: acc)); [reflexivity|exact IH].
Qed.

Fixpoint hit_tokens (toks : list string) : bool :=
  match toks with
  | [] => false
  | t :: r => (is_prefix Ascii.eqb rsh (rev (la_of t)) && has_next r) || inside_l rl (la_of t) [] || hit_tokens r
  end.

Lemma hit_join toks : forall B, forallb clean toks = true -> boundary B ->
  hitb (la_of (join_sp toks)) B = (has_next toks && is_prefix Ascii.eqb rs B) || hit_tokens toks.
Proof.
  induction toks as [|t toks IH]; intros B Hc HB; [reflexivity|].
  cbn in Hc. apply andb_prop in Hc. destruct Hc as [Ht Hc]. destruct (clean_ne _ Ht) as [Htne Htw].
  assert (Hnt : nonempty (la_of t) = true) by (destruct (la_of t); [congruence|reflexivity]).
  rewrite la_join_cons, (hitb_word (la_of t) [] B _ Htw eq_refl HB), Hnt. cbn [app].
  destruct toks as [|t2 toks].
  - unfold hitb. cbn. rewrite andb_false_r, !orb_false_r. reflexivity.
  - rewrite hitb_space, IH; [| exact Hc | right; eexists; reflexivity].
    cbn [has_next hit_tokens andb]. unfold rs at 2. cbn [is_prefix]. rewrite Ascii.eqb_refl. cbn [andb].
    rewrite (prefix_word_boundary rsh (rev (la_of t)) B Hrsh HB), andb_true_r.
    destruct (is_prefix Ascii.eqb rs B), (inside_l rl (la_of t) []), (is_prefix Ascii.eqb rsh (rev (la_of t))), (hit_tokens (t2 :: toks)); reflexivity.
Qed.

Lemma hit_join_start toks : forallb clean toks = true ->
  hitb (la_of (join_sp toks)) [] = hit_tokens toks.
Proof.
  intros H. rewrite hit_join by (auto; now left). unfold rs. cbn. now rewrite andb_false_r.
Qed.
End OptSearch.

Lemma split_join_sp toks : forallb clean toks = true -> split_ws (join_sp toks) = toks.
Proof.
  unfold split_ws. induction toks as [|t toks IH]; intros H; [reflexivity|].
  cbn in H. apply andb_prop in H. destruct H as [Ht Hc]. destruct (clean_ne _ Ht) as [Htne Htw].
  rewrite la_join_cons. destruct toks as [|t2 toks].
  - rewrite app_nil_r, py_split_last by auto. cbn. now rewrite str_of_la_of.
  - rewrite py_split_word by auto. cbn [rev app]. rewrite str_of_la_of. f_equal. now apply IH.
Qed.

Lemma inside_split rl x : forall c v acc, is_prefix Ascii.eqb rl (rev x ++ acc) = true ->
  inside_l rl (x ++ c :: v) acc = true.
Proof.
  induction x as [|a x IH]; intros c v acc H; cbn.
  - cbn in H. now rewrite H.
  - rewrite (IH c v (a :: acc)); [now rewrite orb_true_r|]. cbn [rev] in H. now rewrite <- app_assoc in H.
Qed.

Lemma starts_inside p t : starts_with p t = true -> t <> p -> inside p t = true.
Proof.
  intros S Hne. apply is_prefix_spec in S; [|intros; apply Ascii.eqb_eq]. destruct S as [[|c v] S].
  - rewrite app_nil_r in S. now apply la_of_inj in S.
  - unfold inside. rewrite S. apply inside_split. apply is_prefix_spec; [intros; apply Ascii.eqb_eq|now exists []].
Qed.

(* per token: what the regexes see is what the option grammar says, for tokens in the handled forms *)
Lemma token_detect k t r : form_ok k t = true ->
  (is_prefix Ascii.eqb (rev (la_of (short_of k))) (rev (la_of t)) && has_next r)
  || inside_l (rev (la_of (long_of k))) (la_of t) [] = gives k t r.
Proof.
  intros H. apply andb_prop in H. destruct H as [H Hi]. apply andb_prop in H. destruct H as [H He].
  apply andb_prop in H. destruct H as [Ha Hb]. apply negb_true_iff in Ha, Hb.
  unfold attached in Ha. unfold gives. rewrite Ha, Hb. cbn [orb andb]. rewrite orb_false_r.
  fold (ends_with (short_of k) t) in *. fold (inside (long_of k) t) in *.
  (* t is the short name, the long name without a value, or neither; in the first two both sides are decided by
     evaluation for each k *)
  destruct (String.eqb t (short_of k)) eqn:Es.
  - apply String.eqb_eq in Es. subst t. destruct k, (has_next r); reflexivity.
  - destruct (ends_with (short_of k) t); [discriminate He|]. cbn [andb orb].
    destruct (String.eqb t (long_of k)) eqn:El.
    + apply String.eqb_eq in El. subst t. destruct k; reflexivity.
    + rewrite andb_true_r. destruct (inside (long_of k) t) eqn:I; [symmetry; exact Hi|].
      destruct (starts_with (long_of k) t) eqn:S; [|reflexivity].
      rewrite starts_inside in I; [discriminate I|exact S|intros ->; now rewrite String.eqb_refl in El].
Qed.

Lemma hit_tokens_occurrences k toks : forallb (form_ok k) toks = true ->
  hit_tokens (rev (la_of (short_of k))) (rev (la_of (long_of k))) toks = Nat.ltb 0 (occurrences k toks).
Proof.
  induction toks as [|t r IH]; intros H; [reflexivity|].
  cbn in H. apply andb_true_iff in H. destruct H as [Ht Hr].
  cbn [hit_tokens occurrences]. rewrite token_detect by exact Ht. rewrite IH by exact Hr.
  now destruct (gives k t r).
Qed.

Lemma default_added k toks (x : string) : forallb clean toks = true -> forallb (form_ok k) toks = true ->
  match find_opt (short_of k) (long_of k) (join_sp toks) with Some _ => [] | None => [x] end =
  if Nat.eqb (occurrences k toks) 0 then [x] else [].
Proof.
  intros Hc Hf. unfold find_opt.
  assert (R : rev (la_of (String.append (short_of k) " ")) = " "%char :: rev (la_of (short_of k))) by (destruct k; reflexivity).
  rewrite R.
  assert (Hs : word (rev (la_of (short_of k))) = true) by (destruct k; reflexivity).
  assert (Hl : word (rev (la_of (long_of k))) = true) by (destruct k; reflexivity).
  pose proof (hit_join_start _ _ Hs Hl toks Hc) as H. unfold hitb in H.
  rewrite hit_tokens_occurrences in H by exact Hf.
  destruct (opt_search (" "%char :: rev (la_of (short_of k))) (rev (la_of (long_of k))) (la_of (join_sp toks)) []);
    cbn [option_map]; destruct (occurrences k toks); cbn in *; congruence.
Qed.

Example options_general_nonvacuous :
  let toks := ["--time=10"; "-J"; "my.job"; "--error=/tmp/e-%j.err"; "--no-requeue"] in
  forallb clean toks = true /\ forms_ok toks = true /\ forms_ok ["--job-name"; "x"] = false /\ forms_ok ["-Jx"] = false /\
  forms_ok ["a-e"; "x"] = false /\
  sbatch_argv (ctx_of (join_sp toks)) = toks ++ ["--output=/c/slurm_scripts/uid/slurm-%j.out"; "/c/slurm_scripts/uid/batchscript_uid.sh"].
Proof. vm_compute. repeat split. Qed.
