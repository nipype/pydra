(* Proofs/Shlex.v — facts about the shlex state machine of Base/Shlex.v.
   1. renderings of arguments that shlex reads back, separated by blanks, split into the arguments ([rendered_split]);
      hence split (join args) = args for CPython's shlex.quote/shlex.join, for every list of byte strings.
   2. on text without quotes and backslashes, shlex.split is plain whitespace splitting ([words]).        *)
From Pydra Require Import Base.Prelude Base.Shlex.
Local Open Scope char_scope.
Local Open Scope list_scope.

Lemma sq_neq_dq : Ascii.eqb sq dq = false. Proof. reflexivity. Qed.
Lemma sq_neq_bsl : Ascii.eqb sq bsl = false. Proof. reflexivity. Qed.

Lemma forallb_impl {T} {p q : T -> bool} {l} : (forall x, p x = true -> q x = true) -> forallb p l = true -> forallb q l = true.
Proof. intros I H. rewrite forallb_forall in *. auto. Qed.

(* An inclusion between two character classes is a finite fact: it is checked by one evaluation over the eight bits. *)
Definition both (f : bool -> bool) : bool := f true && f false.
Definition all_ascii (P : ascii -> bool) : bool :=
  both (fun a => both (fun b => both (fun c => both (fun d => both (fun e => both (fun f => both (fun g => both (fun h =>
    P (Ascii a b c d e f g h))))))))).

Lemma both_spec f : both f = true -> forall b, f b = true.
Proof. unfold both. intros H. apply andb_true_iff in H as [H1 H2]. intros []; assumption. Qed.

Lemma all_ascii_spec P : all_ascii P = true -> forall c, P c = true.
Proof.
  intros H [a b c d e f g h].
  exact (both_spec _ (both_spec _ (both_spec _ (both_spec _ (both_spec _ (both_spec _ (both_spec _ (both_spec _ H a) b) c) d) e) f) g) h).
Qed.

Lemma ascii_incl (p q : ascii -> bool) :
  all_ascii (fun c => implb (p c) (q c)) = true -> forall c, p c = true -> q c = true.
Proof. intros H c Hp. pose proof (all_ascii_spec _ H c) as I. cbv beta in I. now rewrite Hp in I. Qed.

(* the contrapositive evaluates [p] only on the characters outside [q] *)
Lemma ascii_incl_contra (p q : ascii -> bool) :
  all_ascii (fun c => implb (negb (q c)) (negb (p c))) = true -> forall c, p c = true -> q c = true.
Proof. intros H c Hp. pose proof (all_ascii_spec _ H c) as I. cbv beta in I. rewrite Hp in I. now destruct (q c). Qed.

(* shlex.quote's rendering of a single quote: close, a double-quoted single quote, reopen *)
Lemma lex_quoted_sq r tok qd acc :
  lex (sq :: dq :: sq :: dq :: sq :: r) (SQuote sq) tok qd acc = lex r (SQuote sq) (sq :: tok) true acc.
Proof. reflexivity. Qed.

Lemma lex_esc a : forall r tok qd acc,
  lex (esc a ++ sq :: r) (SQuote sq) tok qd acc = lex r SWord (rev a ++ tok) true acc.
Proof.
  induction a as [|c a IH]; intros r tok qd acc; [reflexivity|].
  cbn [esc flat_map rev]. fold (esc a). rewrite <- !app_assoc. unfold esc1.
  destruct (Ascii.eqb c sq) eqn:E; cbn [app].
  - apply Ascii.eqb_eq in E. subst c. rewrite lex_quoted_sq. apply IH.
  - cbn [lex]. rewrite E, sq_neq_dq, andb_false_r. apply IH.
Qed.

Lemma esc_no_sq a : forallb (fun c => negb (Ascii.eqb c sq)) a = true -> esc a = a.
Proof.
  induction a as [|c a IH]; cbn; [reflexivity|].
  intros H. apply andb_true_iff in H as [H1 H2]. unfold esc1.
  apply negb_true_iff in H1. rewrite H1. cbn. f_equal. apply IH, H2.
Qed.

Lemma plain_char_inv c : plain_char c = true ->
  is_ws c = false /\ Ascii.eqb c sq = false /\ Ascii.eqb c dq = false /\ Ascii.eqb c bsl = false.
Proof.
  unfold plain_char. intros H. apply negb_true_iff in H.
  repeat (apply orb_false_iff in H as [H ?]). auto.
Qed.

Lemma lex_plain_word w : forallb plain_char w = true -> forall r tok qd acc,
  lex (w ++ r) SWord tok qd acc = lex r SWord (rev w ++ tok) qd acc.
Proof.
  induction w as [|c w IH]; intros H r tok qd acc; [reflexivity|].
  cbn [forallb] in H. apply andb_true_iff in H as [Hc Hw].
  destruct (plain_char_inv c Hc) as (H1 & H2 & H3 & H4).
  cbn [app lex]. rewrite H1, H2, H3, H4. cbn [orb].
  rewrite IH by assumption. cbn [rev]. rewrite <- app_assoc. reflexivity.
Qed.

Lemma safe_plain c : safe_char c = true -> plain_char c = true.
Proof. apply (ascii_incl_contra safe_char plain_char). vm_compute. reflexivity. Qed.

(* shlex's [if self.token or (self.posix and quoted)]: at the end of a word an empty token counts only if it was quoted *)
Definition emits (tok : la) (qd : bool) : bool := negb (match tok with [] => true | _ => false end) || qd.

(* [r] renders the argument [a]: from the start of a word shlex reads [r] as the token [a], ready to be emitted *)
Definition renders (r a : la) : Prop := forall rest acc, exists qd,
  lex (r ++ rest) SWs [] false acc = lex rest SWord (rev a) qd acc /\ emits (rev a) qd = true.

Lemma plain_renders c w : forallb plain_char (c :: w) = true -> renders (c :: w) (c :: w).
Proof.
  intros H rest acc. cbn [forallb] in H. apply andb_true_iff in H as [Hc Hw]. exists false. destruct (plain_char_inv c Hc) as (H1 & H2 & H3 & H4). split.
  { cbn [app lex]. rewrite H1, H2, H3, H4. cbn [orb]. now rewrite lex_plain_word. }
  unfold emits. cbn [rev]. destruct (rev w ++ [c]) eqn:E; [|reflexivity]. now apply app_eq_nil in E as [_ E].
Qed.

Lemma always_quote_renders a : renders (always_quote a) a.
Proof.
  intros rest acc. exists true. split; [|apply orb_true_r].
  rewrite <- (app_nil_r (rev a)), <- (lex_esc a rest [] false acc). unfold always_quote. cbn [app]. now rewrite <- app_assoc.
Qed.

Lemma quote_renders a : renders (quote a) a.
Proof.
  destruct a as [|c a]; [apply (always_quote_renders [])|]. unfold quote.
  destruct (forallb safe_char (c :: a)) eqn:S; [|apply always_quote_renders].
  exact (plain_renders c a (forallb_impl safe_plain S)).
Qed.

Lemma lex_blank r tok qd acc :
  lex (" " :: r) SWord tok qd acc = lex r SWs [] false (if emits tok qd then rev tok :: acc else acc).
Proof. reflexivity. Qed.
Lemma lex_end tok qd acc : lex [] SWord tok qd acc = Ok (rev (if emits tok qd then rev tok :: acc else acc)).
Proof. reflexivity. Qed.

Lemma lex_rendered (r : la -> la) : forall rest, (forall a, In a rest -> renders (r a) a) ->
  forall tok qd acc, emits tok qd = true ->
  lex (flat_map (fun a => " " :: r a) rest) SWord tok qd acc = Ok (rev acc ++ rev tok :: rest).
Proof.
  induction rest as [|a rest IH]; intros H tok qd acc He; cbn [flat_map].
  - now rewrite lex_end, He.
  - rewrite <- app_comm_cons, lex_blank, He.
    destruct (H a (or_introl eq_refl) (flat_map (fun a => " " :: r a) rest) (rev tok :: acc)) as (qd' & -> & He').
    rewrite IH by (auto using in_cons). rewrite rev_involutive. cbn [rev]. now rewrite <- app_assoc.
Qed.

Theorem rendered_split (r : la -> la) r0 a0 rest :
  renders r0 a0 -> (forall a, In a rest -> renders (r a) a) ->
  forall acc, lex (r0 ++ flat_map (fun a => " " :: r a) rest) SWs [] false acc = Ok (rev acc ++ a0 :: rest).
Proof.
  intros H0 H acc. destruct (H0 (flat_map (fun a => " " :: r a) rest) acc) as (qd & -> & He).
  rewrite lex_rendered by assumption. now rewrite rev_involutive.
Qed.

Lemma join_with_flat q : forall rest a, join_with q (a :: rest) = q a ++ flat_map (fun b => " " :: q b) rest.
Proof.
  induction rest as [|b rest IH]; intros a; [cbn; now rewrite app_nil_r|].
  change (join_with q (a :: b :: rest)) with (q a ++ " " :: join_with q (b :: rest)). now rewrite IH.
Qed.

Theorem split_join : forall args acc,
  lex (join args) SWs [] false acc = Ok (rev acc ++ args).
Proof.
  intros [|a rest] acc; [cbn; now rewrite app_nil_r|]. unfold join. rewrite join_with_flat.
  apply rendered_split; auto using quote_renders.
Qed.

Theorem split_join_roundtrip : forall args, split_la (join args) = Ok args.
Proof. intros. unfold split_la. rewrite split_join. reflexivity. Qed.

Theorem split_join_roundtrip_s : forall l, split (join_s l) = SOk l.
Proof.
  intros l. unfold split, join_s. rewrite la_of_str_of, split_join_roundtrip.
  f_equal. rewrite map_map. induction l as [|x l IH]; cbn; [reflexivity|].
  now rewrite str_of_la_of, IH.
Qed.

(* without quotes shlex is inside a word exactly while the token is non-empty *)
Lemma lex_noquote s : forallb noq_char s = true -> forall tok acc,
  lex s (match tok with [] => SWs | _ => SWord end) tok false acc = Ok (rev acc ++ words_aux s tok).
Proof.
  induction s as [|c s IH]; intros H tok acc.
  - destruct tok; cbn; [rewrite app_nil_r; reflexivity|]. reflexivity.
  - cbn [forallb] in H. apply andb_true_iff in H as [Hc Hs].
    unfold noq_char in Hc. apply negb_true_iff in Hc.
    apply orb_false_iff in Hc as [Hc H3]. apply orb_false_iff in Hc as [H1 H2].
    destruct tok as [|t tok].
    + cbn [lex words_aux]. destruct (is_ws c) eqn:W.
      * apply (IH Hs [] acc).
      * rewrite H3, H1, H2. cbn [orb]. apply (IH Hs [c] acc).
    + cbn [lex words_aux]. destruct (is_ws c) eqn:W.
      * cbn [negb orb]. rewrite (IH Hs [] (rev (t :: tok) :: acc)).
        cbn [rev]. rewrite <- app_assoc. reflexivity.
      * rewrite H1, H2, H3. cbn [orb]. apply (IH Hs (c :: t :: tok) acc).
Qed.

Theorem split_noquote : forall s, forallb noq_char s = true -> split_la s = Ok (words s).
Proof. intros s H. unfold split_la, words. apply (lex_noquote s H [] []). Qed.

Lemma words_aux_space : forall a b cur,
  words_aux (a ++ " " :: b) cur = words_aux a cur ++ words b.
Proof.
  induction a as [|c a IH]; intros b cur.
  - cbn [app words_aux is_ws]. destruct cur; reflexivity.
  - cbn [app words_aux]. destruct (is_ws c).
    + destruct cur; [apply IH|]. cbn [app]. f_equal. apply IH.
    + apply IH.
Qed.
Lemma words_space a b : words (a ++ " " :: b) = words a ++ words b.
Proof. apply words_aux_space. Qed.

Lemma words_aux_solid : forall w cur, forallb (fun c => negb (is_ws c)) w = true ->
  words_aux w cur = match rev w ++ cur with [] => [] | t => [rev t] end.
Proof.
  induction w as [|c w IH]; intros cur H.
  - cbn. destruct cur; reflexivity.
  - cbn [forallb] in H. apply andb_true_iff in H as [H1 H2]. apply negb_true_iff in H1.
    cbn [words_aux]. rewrite H1, IH by exact H2. cbn [rev]. rewrite <- app_assoc. reflexivity.
Qed.
Lemma words_solid w : w <> [] -> forallb (fun c => negb (is_ws c)) w = true -> words w = [w].
Proof.
  intros Hn H. unfold words. rewrite words_aux_solid by exact H. rewrite app_nil_r.
  destruct (rev w) eqn:E; [|rewrite <- E, rev_involutive; reflexivity].
  exfalso. apply Hn. rewrite <- (rev_involutive w), E. reflexivity.
Qed.
