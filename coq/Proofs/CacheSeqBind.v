(* Proofs/CacheSeqBind.v — C13, the bodies of leaf tasks: PythonTask._run return-value binding
   provides every mandatory declared output or fails; a shell body fails on every non-zero return
   code and on a missing mandatory output file, and the failure is what the cache then holds. *)
From Pydra Require Import Base.Prelude Model.CacheSeq Spec.CacheSeq Proofs.CacheSeq.
Local Open Scope bool_scope.
Local Open Scope string_scope.

Local Notation okfield := (fun (d : decl) (o : string * oval) => fst o = fst d /\ (snd d = true -> provided (snd o) = true)).

Lemma okfield_map (f : decl -> string * oval) ds :
  (forall d, In d ds -> okfield d (f d)) -> Forall2 okfield ds (map f ds).
Proof.
  induction ds as [|d ds IH]; intros H; cbn; constructor.
  - apply H. now left.
  - apply IH. intros d' Hd. apply H. now right.
Qed.

Lemma okfield_tuple ds : forall vs, List.length vs = List.length ds ->
  Forall2 okfield ds (map (fun p : decl * value => (fst (fst p), Val (snd p))) (combine ds vs)).
Proof.
  induction ds as [|d ds IH]; intros [|v vs] H; cbn in *; try discriminate; constructor.
  - cbn. auto.
  - apply IH. now injection H.
Qed.

Lemma dict_get_none k kvs :
  dict_get k kvs = None <-> existsb (fun kv => String.eqb k (fst kv)) kvs = false.
Proof.
  induction kvs as [|[k' v] kvs IH]; cbn; [tauto|].
  destruct (dict_get k kvs) eqn:E.
  - split; [discriminate|]. intros H. apply orb_false_iff in H. destruct H as [_ H].
    apply IH in H. discriminate.
  - destruct (String.eqb k k'); cbn; [split; discriminate|]. tauto.
Qed.

(* after "fix: ... returned dict lacks a mandatory output": the binding succeeds only on a return
   value that provides every mandatory output, and then every mandatory output is bound *)
Lemma bind_cases ds r :
  match bind_outputs true ds r with
  | Some outs => outputs_complete ds outs /\ provides ds r = true
  | None => True
  end.
Proof.
  unfold bind_outputs, outputs_complete, provides. destruct r as [|vs|kvs|v].
  1: { split; [|reflexivity]. apply okfield_map. intros d _. cbn. auto. }
  (* any other value: no declared output is an error, a single one takes the whole value *)
  all: destruct ds as [|d [|d' ds]]; [exact I|split; [repeat constructor|reflexivity]|].
  - destruct (Nat.eqb_spec (List.length vs) (List.length (d :: d' :: ds))) as [E|]; [|exact I].
    split; [exact (okfield_tuple (d :: d' :: ds) vs E)|apply orb_true_r].
  - cbn [andb].
    match goal with |- context [if ?b then _ else _] => destruct b eqn:Ex end; [exact I|].
    assert (N : forall d0, In d0 (d :: d' :: ds) -> snd d0 = true -> dict_get (fst d0) kvs <> None).
    { intros d0 Hd0 Hm G. rewrite (proj2 (existsb_exists _ _)) in Ex; [discriminate|].
      exists d0. split; [exact Hd0|]. now rewrite Hm, G. }
    split.
    + apply (okfield_map (fun d0 : decl => (fst d0, match dict_get (fst d0) kvs with Some v => Val v | None => unset d0 end))
                              (d :: d' :: ds)).
      intros d0 Hd0. cbn. split; [reflexivity|]. intros Hm.
      destruct (dict_get (fst d0) kvs) eqn:G; [reflexivity|now destruct (N d0 Hd0 Hm)].
    + apply forallb_forall. intros d0 Hd0. destruct (snd d0) eqn:Hm; [|reflexivity]. cbn.
      destruct (existsb (fun kv => String.eqb (fst d0) (fst kv)) kvs) eqn:Ek; [reflexivity|].
      apply dict_get_none in Ek. now destruct (N d0 Hd0 Hm).
  - exact I.
Qed.

Theorem bind_complete ds r outs :
  bind_outputs true ds r = Some outs -> outputs_complete ds outs.
Proof. intros E. pose proof (bind_cases ds r) as H. rewrite E in H. apply H. Qed.

Theorem bind_fails_when_not_provided ds r :
  provides ds r = false -> bind_outputs true ds r = None.
Proof.
  intros Hp. pose proof (bind_cases ds r) as H.
  destruct (bind_outputs true ds r); [destruct H; congruence|reflexivity].
Qed.

Definition outputs_complete_or_error (strict : bool) : Prop :=
  forall ds r outs, bind_outputs strict ds r = Some outs -> outputs_complete ds outs.

Lemma dict_missing_witness :
  bind_outputs false [("a", true); ("b", true)] (RDict [("a", 1)]) = Some [("a", Val 1); ("b", Nothing)].
Proof. reflexivity. Qed.

Theorem lenient_binding_refuted : ~ outputs_complete_or_error false.
Proof.
  intros H. specialize (H _ _ _ dict_missing_witness).
  inversion H as [|? ? ? ? _ H2]; subst. inversion H2 as [|? ? ? ? [_ Hb] _]; subst.
  specialize (Hb eq_refl). discriminate.
Qed.

Example bind_examples :
  bind_outputs true [("a", true); ("b", true)] (RDict [("a", 1)]) = None /\
  bind_outputs true [("a", true); ("b", false)] (RDict [("a", 1)]) = Some [("a", Val 1); ("b", Default)] /\
  bind_outputs true [("a", true); ("b", true)] (RTuple [1; 2]) = Some [("a", Val 1); ("b", Val 2)] /\
  bind_outputs true [("a", true); ("b", true)] (RTuple [1; 2; 3]) = None /\
  bind_outputs true [("a", true)] (RTuple [1; 2; 3]) = Some [("a", Val 1003)] /\
  bind_outputs true [("a", true); ("b", true)] RNone = Some [("a", PyNone); ("b", PyNone)] /\
  bind_outputs true [] (ROther 4) = None.
Proof. repeat split; reflexivity. Qed.

Lemma shell_outcome_nonzero rc files v : rc <> 0%Z -> shell_outcome rc files v = Err.
Proof. intros H. unfold shell_outcome. destruct (Z.eqb_spec rc 0); [contradiction|reflexivity]. Qed.

Lemma shell_outcome_zero files v : files_present files = true -> shell_outcome 0 files v = Ok v.
Proof. intros H. unfold shell_outcome. cbn. now rewrite H. Qed.

Lemma shell_nonzero_never_cached_as_success w cfg c s rr rc files v :
  body w c (clock s) (execs s c) = shell_outcome rc files v ->
  early_exit cfg rr (st s) c = None ->
  let '(s1, evs, r) := submit w cfg rr (Leaf c) s in
  (rc <> 0%Z ->
     r = Err /\ st s1 (root cfg) c = Complete Err /\ last_run c evs = Some Err /\
     forall w2 cfg2 s2 rr2, root cfg2 = root cfg -> st s2 (root cfg) c = Complete Err ->
       let '(s3, evs3, r3) := run_job w2 cfg2 rr2 (Leaf c) s2 in last_run c evs3 = Some r3) /\
  (rc = 0%Z -> files_present files = true -> r = Ok v /\ st s1 (root cfg) c = Complete (Ok v)).
Proof.
  intros Hb He. rewrite submit_reports_outcome.
  pose proof (run_job_exec w cfg rr (Leaf c) s He) as X.
  assert (R : snd (run_job w cfg rr (Leaf c) s) = shell_outcome rc files v)
    by (cbn [run_job tid]; rewrite He; exact Hb).
  destruct (run_job w cfg rr (Leaf c) s) as [[s1 evs] r]. cbn [snd] in R. subst r. destruct X as (X1 & _ & X2).
  split.
  - intros Hrc. rewrite (shell_outcome_nonzero rc files v Hrc) in *. repeat split; auto.
    exact (stored_failure_reexecuted (Leaf c) (root cfg)).
  - intros -> Hf. rewrite (shell_outcome_zero files v Hf) in *. auto.
Qed.

Example shell_outcome_examples :
  shell_outcome (-9) [] 5 = Err /\ shell_outcome (-15) [] 5 = Err /\ shell_outcome 255 [] 5 = Err /\
  shell_outcome 127 [] 5 = Err /\ shell_outcome 126 [] 5 = Err /\ shell_outcome 3 [] 5 = Err /\
  shell_outcome 0 [] 5 = Ok 5 /\ shell_outcome 0 [(true, false)] 5 = Err /\
  shell_outcome 0 [(false, false); (true, true)] 5 = Ok 5.
Proof. repeat split; reflexivity. Qed.

(* the hypotheses of shell_nonzero_never_cached_as_success are met: a world whose body for identity 3 is a command killed by SIGKILL
   at step 0 and exiting 0 afterwards, run twice from the empty store *)
Example shell_nonvacuous :
  let w := {| body := fun c k _ => shell_outcome (if Nat.eqb k 0 then (-9) else 0) [] 7; wfout := fun _ _ _ => Ok 0 |} in
  let cfg := {| root := 0; ro := []; prop := true |} in
  early_exit cfg false (st init_state) 3 = None /\
  (let '(s1, evs, r) := submit w cfg false (Leaf 3) init_state in
   r = Err /\ st s1 0 3 = Complete Err /\
   let '(s2, evs2, r2) := submit w cfg false (Leaf 3) (tick s1) in
   r2 = Ok 7 /\ st s2 0 3 = Complete (Ok 7) /\ last_run 3 evs2 = Some (Ok 7)).
Proof. vm_compute. repeat split; reflexivity. Qed.
