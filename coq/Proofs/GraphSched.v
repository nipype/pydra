(* Proofs/GraphSched.v — termination of the two submitter loops of Model/Graph.v.  Both descend on one measure,
   [mu] = 2·#not-started + #queued: a not-started node is still to be queued and then to finish, a queued one
   still to finish.  [le_st] is what a poll may change; it never raises [mu]. *)
From Pydra Require Import Base.Prelude Model.Graph Proofs.GraphBase Proofs.ListFacts.
Local Open Scope nat_scope.
Local Open Scope list_scope.

Definition weight (s : nstat) : nat := match s with NotStarted => 2 | Queued => 1 | _ => 0 end.
Fixpoint mu (m : smap) (order : list node) : nat :=
  match order with [] => 0 | n :: r => weight (m n) + mu m r end.

(* statuses only move forward, and a poll only moves not-started nodes *)
Definition le_st (m m' : smap) : Prop :=
  forall n, m' n = m n \/ (m n = NotStarted /\ (m' n = Queued \/ m' n = Unrunnable)).

Lemma le_st_refl m : le_st m m.
Proof. intros n. now left. Qed.
Lemma le_st_trans m1 m2 m3 : le_st m1 m2 -> le_st m2 m3 -> le_st m1 m3.
Proof.
  intros H1 H2 n. destruct (H1 n) as [E1|[E1 E1']], (H2 n) as [E2|[E2 E2']].
  - left. congruence.
  - right. split; [congruence|exact E2'].
  - right. split; [exact E1|]. rewrite E2. exact E1'.
  - exfalso. destruct E1' as [E|E]; congruence.
Qed.

Lemma le_st_mu m m' order : le_st m m' -> mu m' order <= mu m order.
Proof.
  intros H. induction order as [|n r IH]; cbn [mu]; [lia|].
  destruct (H n) as [E|[E [E'|E']]]; rewrite E, ?E'; cbn [weight]; lia.
Qed.

Lemma le_st_done m m' n : le_st m m' -> done_st (m n) = true -> m' n = m n.
Proof. intros H Hd. destruct (H n) as [E|[E _]]; [exact E|]. rewrite E in Hd. discriminate. Qed.

Lemma le_st_queued m m' n : le_st m m' -> m n = Queued -> m' n = Queued.
Proof. intros H Hq. destruct (H n) as [E|[E _]]; congruence. Qed.

Lemma sset_same m n s : sset m n s n = s.
Proof. unfold sset. now rewrite Nat.eqb_refl. Qed.
Lemma sset_other m n s x : x <> n -> sset m n s x = m x.
Proof. unfold sset. intros H. apply Nat.eqb_neq in H. now rewrite H. Qed.

Lemma mu_sset_le m n s order : weight s <= weight (m n) -> mu (sset m n s) order <= mu m order.
Proof.
  intros H. induction order as [|x r IH]; cbn [mu]; [lia|].
  destruct (Nat.eq_dec x n) as [->|Hne]; [rewrite sset_same|rewrite sset_other by exact Hne]; lia.
Qed.

Lemma mu_sset_lt m n s order : In n order -> weight s < weight (m n) -> mu (sset m n s) order < mu m order.
Proof.
  intros Hin H. induction order as [|x r IH]; cbn [mu]; [contradiction|].
  pose proof (mu_sset_le m n s r (Nat.lt_le_incl _ _ H)).
  destruct (Nat.eq_dec x n) as [->|Hne]; [rewrite sset_same; lia|]. rewrite sset_other by exact Hne.
  destruct Hin as [->|Hin]; [congruence|]. specialize (IH Hin). lia.
Qed.

Lemma mu_zero_done m order : mu m order = 0 -> all_done order m = true.
Proof.
  unfold all_done. induction order as [|x r IH]; cbn [mu forallb]; intros H; [reflexivity|].
  destruct (m x) eqn:E; cbn [weight] in H; try lia; cbn [done_st andb]; apply IH; lia.
Qed.

Lemma mu_init order : mu (fun _ => NotStarted) order = 2 * List.length order.
Proof. induction order as [|x r IH]; cbn [mu List.length weight]; lia. Qed.

Lemma node_poll_other pd m n x : x <> n -> node_poll pd m n x = m x.
Proof.
  intros H. unfold node_poll. destruct (existsb _ _); [|destruct (forallb _ _); [|reflexivity]];
    destruct (m n); try reflexivity; apply sset_other, H.
Qed.

Lemma node_poll_le pd m n : le_st m (node_poll pd m n).
Proof.
  intros x. destruct (Nat.eq_dec x n) as [->|Hne]; [|left; apply node_poll_other, Hne].
  unfold node_poll. destruct (existsb _ _); [|destruct (forallb _ _); [|now left]];
    destruct (m n) eqn:E; try (left; exact E); right; cbv iota; rewrite sset_same; auto.
Qed.

(* a scan polls some of the nodes of the list one after the other and collects those it finds queued *)
Lemma poll_scan_ind pd (P : smap -> list node -> Prop) order :
  (forall m tasks n, In n order -> P m tasks ->
     P (node_poll pd m n) (match node_poll pd m n n with Queued => tasks ++ [n] | _ => tasks end)) ->
  forall m ns tasks m' tasks', P m tasks -> poll_scan pd order m ns tasks = (m', tasks') -> P m' tasks'.
Proof.
  induction order as [|n r IH]; intros Hstep m ns tasks m' tasks' H E; cbn [poll_scan] in E.
  - inversion E; subst. exact H.
  - pose proof (IH (fun m t x Hx => Hstep m t x (or_intror Hx))) as IH'.
    destruct (done_st (m n)); [exact (IH' _ _ _ _ _ H E)|].
    destruct (existsb _ (plist pd n)); [inversion E; subst; exact H|].
    refine (IH' _ _ _ _ _ _ E). apply Hstep; [now left|exact H].
Qed.

Lemma poll_scan_le pd order m ns tasks : le_st m (fst (poll_scan pd order m ns tasks)).
Proof.
  destruct (poll_scan pd order m ns tasks) as [m' tasks'] eqn:E.
  apply (poll_scan_ind pd (fun m1 _ => le_st m m1) order) with (3 := E); [|apply le_st_refl].
  intros m1 _ n _ L. exact (le_st_trans _ _ _ L (node_poll_le pd m1 n)).
Qed.

(* what both loops keep of their task list: its jobs are queued nodes of the scanned list *)
Definition queued_in (order : list node) (m : smap) (tasks : list node) : Prop :=
  forall j, In j tasks -> m j = Queued /\ In j order.

Lemma poll_spec pd order m m' tasks :
  poll pd order m = (m', tasks) ->
  le_st m m' /\ queued_in order m' tasks /\
  (forall j, m' j = Queued -> m j = Queued \/ In j tasks).
Proof.
  apply (poll_scan_ind pd (fun m1 t => le_st m m1 /\ queued_in order m1 t /\
                                      (forall j, m1 j = Queued -> m j = Queued \/ In j t)) order).
  - intros m1 t n Hn [L [T Q]]. set (m2 := node_poll pd m1 n).
    assert (T1 : forall j, In j (match m2 n with Queued => t ++ [n] | _ => t end) <-> In j t \/ (j = n /\ m2 n = Queued)).
    { intros j. destruct (m2 n); try (split; [auto|intros [Hj|[_ E]]; [exact Hj|discriminate]]).
      rewrite in_app_iff. cbn. intuition. }
    split; [exact (le_st_trans _ _ _ L (node_poll_le pd m1 n))|]. split.
    + intros j Hj. apply T1 in Hj. destruct Hj as [Hj|[-> E]]; [|auto].
      destruct (T j Hj) as [Qj Oj]. split; [|exact Oj]. exact (le_st_queued _ _ _ (node_poll_le pd m1 n) Qj).
    + intros j Hj. destruct (Nat.eq_dec j n) as [->|Hne]; [right; apply T1; auto|].
      unfold m2 in Hj. rewrite node_poll_other in Hj by exact Hne. destruct (Q j Hj); [auto|right; apply T1; auto].
  - split; [apply le_st_refl|]. split; [intros j []|auto].
Qed.

Lemma poll_scan_skip pd l1 r m ns tasks :
  all_done l1 m = true -> poll_scan pd (l1 ++ r) m ns tasks = poll_scan pd r m ns tasks.
Proof.
  unfold all_done. induction l1 as [|n l1 IH]; cbn [forallb app poll_scan]; intros H; [reflexivity|].
  apply andb_true_iff in H. destruct H as [H1 H2]. rewrite H1. apply IH, H2.
Qed.

Lemma all_done_poll pd order m ns tasks : all_done order m = true -> poll_scan pd order m ns tasks = (m, tasks).
Proof. intros H. rewrite <- (app_nil_r order), poll_scan_skip by exact H. reflexivity. Qed.

Lemma first_not_done order m : all_done order m = false ->
  exists l1 n l2, order = l1 ++ n :: l2 /\ all_done l1 m = true /\ done_st (m n) = false.
Proof.
  unfold all_done. induction order as [|x r IH]; cbn [forallb]; intros H; [discriminate|].
  destruct (done_st (m x)) eqn:D.
  - destruct (IH H) as [l1 [n [l2 [-> [D1 Dn]]]]]. exists (x :: l1), n, l2. cbn [forallb]. rewrite D. auto.
  - exists [], x, r. auto.
Qed.

Section Async.
  Variables (pd : dict) (order : list node) (k : nat) (oracle : nat -> nat * bool).
  Hypothesis Kpos : 1 <= k.

  (* futures: the launched jobs that are still queued; futured: every job launched so far *)
  Definition async_inv (m : smap) (futures futured : list node) : Prop :=
    NoDup futures /\
    (forall j, In j futures -> m j = Queued /\ In j futured /\ In j order) /\
    (forall x, m x = Queued -> In x futured -> In x futures) /\
    (forall x, In x futured -> m x <> NotStarted).

  Lemma async_inv_le m m' futures futured : le_st m m' -> async_inv m futures futured -> async_inv m' futures futured.
  Proof.
    intros L [N [A [B E]]]. split; [exact N|]. split; [|split].
    - intros j Hj. destruct (A j Hj) as [Q R]. split; [eapply le_st_queued; eauto|exact R].
    - intros x Hq Hf. apply B; [|exact Hf]. destruct (L x) as [Ex|[Ex _]]; [congruence|]. exfalso. exact (E x Hf Ex).
    - intros x Hf Hn. destruct (L x) as [Ex|[Ex [Ey|Ey]]]; try congruence. apply (E x Hf). congruence.
  Qed.

  Lemma async_inv_complete m futures futured j s f2 :
    async_inv m futures futured -> remove_one Nat.eqb j futures = Some f2 -> done_st s = true ->
    async_inv (sset m j s) f2 futured.
  Proof.
    intros [N [A [B E]]] Hr Hs. destruct (remove_one_nodup Nat.eqb_eq _ _ _ Hr N) as [N2 Nj].
    split; [exact N2|]. split; [|split].
    - intros x Hx. assert (Hx1 : In x futures) by (eapply (remove_one_incl Nat.eqb_eq); eauto).
      destruct (A x Hx1) as [Qx R]. split; [|exact R]. rewrite sset_other; [exact Qx|]. intros ->. contradiction.
    - intros x Hq Hf. destruct (Nat.eq_dec x j) as [->|Hne].
      + rewrite sset_same in Hq. subst s. discriminate.
      + rewrite sset_other in Hq by assumption. eapply (remove_one_other Nat.eqb_eq); eauto.
    - intros x Hf. destruct (Nat.eq_dec x j) as [->|Hne].
      + rewrite sset_same. intros ->. discriminate.
      + rewrite sset_other by assumption. auto.
  Qed.

  Lemma launch_async_inv m tasks : forall futures futured f1 fd1,
    async_inv m futures futured -> queued_in order m tasks ->
    launch k tasks futures futured = (f1, fd1) -> async_inv m f1 fd1.
  Proof.
    induction tasks as [|t r IH]; intros futures futured f1 fd1 Hai Ht H; cbn [launch] in H.
    - inversion H; subst. exact Hai.
    - destruct (negb (memb t futured) && Nat.ltb (List.length futures) k) eqn:C.
      + eapply IH; [| |exact H]; [|intros j Hj; apply Ht; now right].
        apply andb_true_iff in C. destruct C as [C _]. apply negb_true_iff, memb_false in C.
        destruct Hai as [N [A [B E]]]. destruct (Ht t (or_introl eq_refl)) as [Qt Ot].
        split; [|split; [|split]].
        * apply NoDup_snoc; [exact N|]. intros Hin. apply C. exact (proj1 (proj2 (A t Hin))).
        * intros j Hj. apply in_app_or in Hj. destruct Hj as [Hj|[<-|[]]].
          -- destruct (A j Hj) as [Q [F O]]. repeat split; auto. apply in_or_app. auto.
          -- repeat split; auto. apply in_or_app. right. now left.
        * intros x Hq Hf. apply in_or_app. apply in_app_or in Hf. destruct Hf as [Hf|[<-|[]]]; [left; auto|right; now left].
        * intros x Hf. apply in_app_or in Hf. destruct Hf as [Hf|[<-|[]]]; [auto|congruence].
      + eapply IH; [exact Hai| |exact H]. intros j Hj. apply Ht. now right.
  Qed.

  Lemma launch_none tasks : forall futures futured fd1,
    launch k tasks futures futured = ([], fd1) -> futures = [] /\ forall t, In t tasks -> In t futured.
  Proof.
    induction tasks as [|t r IH]; intros futures futured fd1 H; cbn [launch] in H.
    - inversion H. split; [reflexivity|intros t []].
    - destruct (memb t futured) eqn:M; cbn [negb andb] in H.
      + destruct (IH _ _ _ H) as [E A]. split; [exact E|]. intros x [<-|Hx]; [apply memb_In, M|auto].
      + destruct (Nat.ltb (List.length futures) k) eqn:L; destruct (IH _ _ _ H) as [E _].
        * apply app_eq_nil in E. destruct E. discriminate.
        * subst futures. apply Nat.ltb_ge in L. cbn in L. lia.
  Qed.

  Lemma stall_spec p : forall m tasks m1 tasks1,
    stall p pd order m tasks = Some (m1, tasks1) ->
    queued_in order m tasks ->
    le_st m m1 /\ queued_in order m1 tasks1 /\ (tasks1 = [] -> all_done order m1 = true).
  Proof.
    induction p as [|p IH]; intros m tasks m1 tasks1 H Ht; cbn in H;
      destruct (nonempty tasks || all_done order m) eqn:C; try discriminate.
    1, 2: inversion H; subst; split; [apply le_st_refl|]; split; [exact Ht|]; intros ->; exact C.
    destruct (poll pd order m) as [m' tasks'] eqn:P. destruct (poll_spec _ _ _ _ _ P) as [L [Q _]].
    destruct (IH _ _ _ _ H Q) as [L2 TD]. split; [eapply le_st_trans; eauto|exact TD].
  Qed.

  (* the state in which jobs are launched: the stall detector only runs when nothing is pending *)
  Lemma launch_state_spec m tasks (futures : list node) m1 tasks1 :
    (if nonempty tasks || nonempty futures then Some (m, tasks) else stall 11 pd order m tasks) = Some (m1, tasks1) ->
    queued_in order m tasks ->
    le_st m m1 /\ queued_in order m1 tasks1 /\
    (tasks1 = [] -> futures = [] -> all_done order m1 = true).
  Proof.
    intros H Ht. destruct (nonempty tasks || nonempty futures) eqn:C.
    - inversion H; subst. split; [apply le_st_refl|]. split; [exact Ht|]. intros -> ->. discriminate C.
    - destruct (stall_spec _ _ _ _ _ H Ht) as [L [T D]]. auto.
  Qed.

  Lemma async_done fuel i m futured ran :
    all_done order m = true ->
    async_loop fuel pd order k oracle i m [] [] futured ran = Finished ran (snapshot_of order m).
  Proof. intros H. destruct fuel; cbn; rewrite H; reflexivity. Qed.

  Lemma async_no_fuel_out : forall fuel i m tasks futures futured ran,
    async_inv m futures futured -> queued_in order m tasks ->
    mu m order + 2 <= fuel ->
    async_loop fuel pd order k oracle i m tasks futures futured ran <> OutOfFuel.
  Proof.
    induction fuel as [|fuel IH]; intros i m tasks futures futured ran Hai Ht Hmu; [lia|].
    cbn [async_loop].
    destruct (nonempty tasks || nonempty futures || negb (all_done order m)); [|discriminate].
    destruct (if nonempty tasks || nonempty futures then _ else _) as [[m1 tasks1]|] eqn:St; [|discriminate].
    destruct (launch_state_spec _ _ _ _ _ St Ht) as [L [T1 Dn]].
    pose proof (async_inv_le _ _ _ _ L Hai) as Hai1. pose proof (le_st_mu _ _ order L) as Lm.
    destruct (launch k tasks1 futures futured) as [f1 fd1] eqn:La.
    pose proof (launch_async_inv m1 tasks1 _ _ _ _ Hai1 T1 La) as Hai2.
    destruct f1 as [|x0 fr].
    - (* nothing is pending: every task is a queued job launched before, of which there is none; so all
         is done and the loop condition is false at the next test *)
      destruct (launch_none _ _ _ _ La) as [-> Hfd].
      assert (tasks1 = []) as ->.
      { destruct tasks1 as [|t r]; [reflexivity|]. destruct Hai1 as [_ [_ [B _]]].
        destruct (B t (proj1 (T1 t (or_introl eq_refl))) (Hfd t (or_introl eq_refl))). }
      specialize (Dn eq_refl eq_refl). unfold poll. rewrite (all_done_poll pd order m1 [] [] Dn).
      rewrite (async_done fuel i m1 fd1 ran Dn). discriminate.
    - (* one future completes *)
      set (f1 := x0 :: fr) in *. cbv zeta. set (c := oracle i). set (j := nth (fst c mod List.length f1) f1 0).
      assert (Hj : In j f1) by (apply nth_In, Nat.mod_upper_bound; discriminate).
      destruct (proj1 (proj2 Hai2) j Hj) as [Qj [_ Oj]].
      destruct (remove_one_some Nat.eqb_eq j f1 Hj) as [f2 Hr]. rewrite Hr.
      set (s := if snd c then Errored else Succ).
      assert (Ds : done_st s = true) by (unfold s; destruct (snd c); reflexivity).
      destruct (poll pd order (sset m1 j s)) as [m2 tasks2] eqn:P.
      destruct (poll_spec _ _ _ _ _ P) as [L2 [Q2 _]].
      apply IH; [exact (async_inv_le _ _ _ _ L2 (async_inv_complete _ _ _ _ _ _ Hai2 Hr Ds))|exact Q2|].
      pose proof (le_st_mu _ _ order L2).
      assert (mu (sset m1 j s) order < mu m1 order); [|lia].
      apply mu_sset_lt; [exact Oj|]. rewrite Qj. unfold s. destruct (snd c); cbn; lia.
  Qed.

  (* both for every oracle and every max_concurrent >= 1, and for ANY predecessor dictionary and
     node list (cyclic or not, with repeated nodes or not): 2|nodes|+2 iterations always suffice; a
     stuck state ends in StallError *)
  Theorem run_async_ends : run_async (2 * List.length order + 2) pd order k oracle <> OutOfFuel.
  Proof.
    unfold run_async. destruct (poll pd order (fun _ => NotStarted)) as [m1 tasks] eqn:P.
    destruct (poll_spec _ _ _ _ _ P) as [L [Q _]]. apply async_no_fuel_out.
    - split; [constructor|]. split; [intros j []|]. split; [intros x _ []|intros x []].
    - exact Q.
    - pose proof (le_st_mu _ _ order L).
      rewrite mu_init in *. lia.
  Qed.
End Async.

(* every predecessor of a node stands before it in the list the scheduler scans *)
Definition order_valid (pd : dict) (order : list node) : Prop :=
  forall l1 n l2, order = l1 ++ n :: l2 -> forall p, In p (plist pd n) -> In p l1.

Section Sync.
  Variables (pd : dict) (order : list node) (fails : node -> bool).
  Hypothesis OV : order_valid pd order.

  (* with a valid order and nothing queued, a poll always finds something to do: the first node that
     is not done has not started and all its predecessors are done, so it is queued or marked unrunnable *)
  Lemma poll_progress m :
    (forall x, m x <> Queued) -> all_done order m = false -> mu (fst (poll pd order m)) order < mu m order.
  Proof.
    intros Hq Hd. destruct (first_not_done _ _ Hd) as [l1 [n [l2 [E [D1 Dn]]]]].
    assert (Hb : existsb (fun p => memb p []) (plist pd n) = false) by (induction (plist pd n); cbn; auto).
    assert (Hn : m n = NotStarted) by (specialize (Hq n); destruct (m n); cbn in Dn; congruence).
    assert (Hin : In n order) by (rewrite E; apply in_or_app; right; now left).
    assert (Hpreds : forallb (fun p => done_st (m p)) (plist pd n) = true).
    { apply forallb_forall. intros p Hp. exact (proj1 (forallb_forall _ _) D1 p (OV _ _ _ E p Hp)). }
    unfold poll. replace (poll_scan pd order m [] []) with (poll_scan pd (n :: l2) m [] [])
      by (rewrite E; symmetry; apply poll_scan_skip, D1).
    cbn [poll_scan]. rewrite Dn, Hb. cbv zeta.
    eapply Nat.le_lt_trans; [apply le_st_mu, poll_scan_le|].
    unfold node_poll. rewrite Hpreds, Hn.
    destruct (existsb (fun p => failed_st (m p)) (plist pd n)); apply mu_sset_lt; auto; rewrite Hn; cbn; lia.
  Qed.

  Lemma run_tasks_mu tasks : forall m ran m1 ran1,
    run_tasks fails tasks m ran = (m1, ran1, false) -> mu m1 order <= mu m order.
  Proof.
    induction tasks as [|j r IH]; intros m ran m1 ran1 H; cbn in H; [inversion H; subst; apply Nat.le_refl|].
    destruct (fails j); [discriminate|]. specialize (IH _ _ _ _ H).
    pose proof (mu_sset_le m j Succ order (Nat.le_0_l _)). lia.
  Qed.

  Lemma run_tasks_strict j r m ran m1 ran1 :
    run_tasks fails (j :: r) m ran = (m1, ran1, false) -> m j = Queued -> In j order ->
    mu m1 order < mu m order.
  Proof.
    intros H Hq Hin. cbn in H. destruct (fails j); [discriminate|]. apply run_tasks_mu in H.
    assert (mu (sset m j Succ) order < mu m order) by (apply mu_sset_lt; [exact Hin|rewrite Hq; cbn; lia]). lia.
  Qed.

  Lemma run_tasks_unqueued tasks : forall m ran m1 ran1,
    run_tasks fails tasks m ran = (m1, ran1, false) -> (forall x, m x = Queued -> In x tasks) ->
    forall x, m1 x <> Queued.
  Proof.
    induction tasks as [|j r IH]; intros m ran m1 ran1 H Q; cbn in H; [inversion H; subst; exact Q|].
    destruct (fails j); [discriminate|]. apply (IH _ _ _ _ H).
    intros x Hx. destruct (Nat.eq_dec x j) as [->|Hne]; [rewrite sset_same in Hx; discriminate|].
    rewrite sset_other in Hx by exact Hne. destruct (Q x Hx); [congruence|assumption].
  Qed.

  Definition sync_inv (m : smap) (tasks : list node) : Prop :=
    (forall x, m x = Queued -> In x tasks) /\ queued_in order m tasks.

  Lemma sync_no_fuel_out : forall fuel m tasks ran,
    sync_inv m tasks -> mu m order + 1 <= fuel -> sync_loop fuel pd order fails m tasks ran <> OutOfFuel.
  Proof.
    induction fuel as [|fuel IH]; intros m tasks ran [Q T] Hmu; [lia|].
    cbn [sync_loop]. destruct (nonempty tasks || negb (all_done order m)) eqn:Cond; [|discriminate].
    destruct (run_tasks fails tasks m ran) as [[m1 ran1] raised] eqn:R.
    destruct raised; [discriminate|].
    pose proof (run_tasks_unqueued _ _ _ _ _ R Q) as Hnq.
    destruct (poll pd order m1) as [m2 tasks2] eqn:P.
    destruct (poll_spec _ _ _ _ _ P) as [L [Q2 C2]].
    apply IH.
    - split; [|exact Q2]. intros x Hx. destruct (C2 x Hx) as [H1|H1]; [exfalso; exact (Hnq x H1)|exact H1].
    - assert (mu m2 order < mu m order); [|lia].
      pose proof (le_st_mu _ _ order L) as Lm.
      destruct tasks as [|j r].
      + (* nothing was runnable: the poll itself must progress *)
        cbn in R. inversion R; subst m1 ran1. cbn in Cond. apply negb_true_iff in Cond.
        pose proof (poll_progress m Hnq Cond) as Pp. rewrite P in Pp. exact Pp.
      + destruct (T j (or_introl eq_refl)) as [Qj Oj].
        pose proof (run_tasks_strict _ _ _ _ _ _ R Qj Oj). lia.
  Qed.

  (* with a valid topological order the synchronous loop needs at most 2|nodes|+1 iterations:
     it ends with every node done, or with the exception of the first failing job *)
  Theorem run_sync_ends : run_sync (2 * List.length order + 1) pd order fails <> OutOfFuel.
  Proof.
    unfold run_sync. destruct (poll pd order (fun _ => NotStarted)) as [m1 tasks] eqn:P.
    destruct (poll_spec _ _ _ _ _ P) as [L [Q C]]. apply sync_no_fuel_out.
    - split; [|exact Q]. intros x Hx. destruct (C x Hx) as [H|H]; [discriminate|exact H].
    - pose proof (le_st_mu _ _ order L).
      rewrite mu_init in *. lia.
  Qed.
End Sync.
