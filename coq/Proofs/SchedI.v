(* Proofs/SchedI.v — the sequential loop (Submitter.expand_workflow, debug worker): its invariant and what it
   gives about the event log; when no job fails, the loop ends by itself. *)
From Pydra Require Import Base.Prelude Base.SchedBase Model.Sched Spec.Sched Proofs.SchedA Proofs.SchedC Proofs.SchedD Proofs.SchedJ Proofs.SchedE Proofs.SchedF Proofs.SchedH Proofs.SchedK Proofs.SchedTermA Proofs.SchedO.
Local Open Scope nat_scope.

Section Sync.
Variable V : Type.
Variable body : nat -> nat -> list (list (option V)) -> V.
Variable fails : job -> bool.
Variable vr : variant.
Hypothesis F14 : fix14 vr = true.
Variable g : graph.
Hypothesis WF : wf_graph g.
Variable kmax : option nat.

Notation world := (world V).
Notation lstate := (lstate V).
Notation TInv1 := (TInv V fails vr g (Some 1)).
Notation LInv1 := (LInv V body fails vr g (Some 1)).
Notation with_poll := (with_poll V).

Definition fut_done (w : world) (fut : list job) : Prop := forall j, In j fut -> is_none w j = false.

Record SyInv (ls : lstate) : Prop := {
  sy_l : LInv1 ls;
  sy_done : fut_done (ls_w ls) (ls_futured ls);
  sy_pend : ls_pending ls = [];
  sy_conc : conc_rev 1 (ls_trace ls)
}.

(* worker.run(job) of the debug worker: the job is started and has finished when the call returns *)
Lemma SyInv_job ss (w : world) T fut tr its j :
  SyInv (mkLS ss w T fut [] [] tr its) -> In j T -> is_ok w j = false ->
  let v := job_result body fails ss j in
  SyInv (mkLS ss (mkW (results w ++ [(j, v)]) []) T (fut ++ [j]) [] (match v with None => [j] | Some _ => [] end)
              (EFinish j (match v with None => false | Some _ => true end) :: ELaunch j :: tr) its).
Proof.
  intros [[G W Vi Tk Tt _] FD _ P] Hj Ok. cbn in G, W, Vi, Tk, Tt, FD, P. destruct (Tk j Hj) as [Tj Rj].
  (* a futured job has a result; this one is not ok, and an errored one would have ended the loop (no error so far) *)
  assert (Hnf : ~ In j fut).
  { intros M. pose proof (FD j M) as X. destruct (is_err w j) eqn:Y.
    - apply (ti_err_res Tt) in Y. destruct Y.
    - unfold is_none, is_err, is_ok in *. destruct (probe_job w j); congruence. }
  assert (T1 : TInv1 w (fut ++ [j]) [j] [] (ELaunch j :: tr)).
  { apply (TInv_launch V fails vr g (Some 1) w fut [] [] tr j Tt Tj Hnf). intros k _ E1. inversion E1. cbn. lia. }
  pose proof (finish_spec V body fails vr g WF (Some 1) ss w [] (fut ++ [j]) [j] [] [] (ELaunch j :: tr) j
                G W Vi T1 Rj (or_introl eq_refl) (fun q (H : In q []) => match H with end) eq_refl) as FS.
  cbv zeta in *. destruct FS as [L1 [W1 [V1 T2]]].
  constructor; [constructor; cbn|cbn|reflexivity|cbn [ls_trace conc_rev]].
  - exact (GInv_mono V fails g _ _ ss L1 G).
  - exact W1.
  - exact V1.
  - exact (tasks_mono V fails g _ _ _ _ L1 Tk).
  - exact T2.
  - intros q [].
  - intros q Hq. apply in_app_or in Hq. destruct Hq as [Hq|[<-|[]]].
    + apply (is_none_false_mono V w); [exact L1|apply FD; exact Hq].
    + apply is_none_new.
  - pose proof (ti_count Tt) as C.
    rewrite count_launch_cons_f, count_finish_cons_f, count_launch_cons_l, count_finish_cons_l, C.
    cbn [List.length]. repeat split; [lia|lia|exact P].
Qed.

Lemma run_tasks_spec ss T : forall tasks (w : world) tr fut acc its w' errs' tr' acc' failed,
  SyInv (mkLS ss w T fut [] [] tr its) -> (forall j, In j tasks -> In j T) ->
  run_tasks body fails tasks ss w [] tr acc = (w', errs', tr', acc', failed) ->
  exists new, acc' = acc ++ new /\ SyInv (mkLS ss w' T (fut ++ new) [] errs' tr' its) /\ (failed = false -> errs' = []).
Proof.
  induction tasks as [|j tasks IH]; intros w tr fut acc its w' errs' tr' acc' failed S Ht E; cbn [run_tasks] in E.
  - injection E as <- <- <- <- <-. exists []. rewrite !app_nil_r. auto.
  - destruct (is_ok w j) eqn:Ok; [apply (IH _ _ _ _ _ _ _ _ _ _ S (fun q Hq => Ht q (or_intror Hq)) E)|].
    pose proof (SyInv_job ss w T fut tr its j S (Ht j (or_introl eq_refl)) Ok) as S1. cbv zeta in S1.
    destruct (job_result body fails ss j) as [x|].
    + destruct (IH _ _ _ _ _ _ _ _ _ _ S1 (fun q Hq => Ht q (or_intror Hq)) E) as [new [Ea [S2 NE2]]].
      exists (j :: new). rewrite <- !app_assoc in *. auto.
    + (* the job fails: its exception leaves the loop *)
      injection E as <- <- <- <- <-. exists [j]. split; [reflexivity|split; [exact S1|discriminate]].
Qed.

Definition after_tasks (ls : lstate) (w1 : world) (errs1 : list job) (tr1 : list event) (launched : list job) : lstate :=
  mkLS (ls_ss ls) w1 (ls_tasks ls) (ls_futured ls ++ launched) [] errs1 tr1 ((ls_tasks ls, launched) :: ls_iters ls).

Lemma SyInv_run_tasks (ls : lstate) w1 errs1 tr1 launched failed :
  SyInv ls -> ls_errors ls = [] ->
  run_tasks body fails (ls_tasks ls) (ls_ss ls) (ls_w ls) (ls_errors ls) (ls_trace ls) [] = (w1, errs1, tr1, launched, failed) ->
  SyInv (after_tasks ls w1 errs1 tr1 launched) /\ (failed = false -> errs1 = []).
Proof.
  intros S NE ER. destruct ls as [ss w T fut pend errs tr its]. pose proof (sy_pend _ S) as PE. cbn in NE, PE, ER. subst pend errs.
  destruct (run_tasks_spec ss T T w tr fut [] ((T, launched) :: its) w1 errs1 tr1 launched failed) as [new [Ea [S1 NE1]]];
    [destruct S as [[G W Vi Tk Tt P] FD _ PA]; constructor; [constructor| |reflexivity|]; assumption|auto|exact ER|].
  cbn in Ea. subst new. auto.
Qed.

Lemma SyInv_poll (ls : lstate) ss' tasks :
  SyInv ls -> poll vr g kmax (ls_w ls) (ls_ss ls) = (ss', tasks) -> SyInv (with_poll ls ss' tasks).
Proof.
  intros [Il FD PE PA] EP. constructor; auto.
  exact (LInv_poll V body fails vr F14 g WF (Some 1) kmax ls ss' tasks Il EP).
Qed.

Inductive sync_case (ls : lstate) : step_result V -> Prop :=
| SC_raised : raised (ls_ss ls) = true -> sync_case ls (Stop Raised ls)
| SC_finished : raised (ls_ss ls) = false -> ls_tasks ls = [] -> any_not_done vr g (ls_w ls) (ls_ss ls) = false ->
    sync_case ls (Stop Finished ls)
| SC_failed w1 errs1 tr1 launched :
    raised (ls_ss ls) = false ->
    run_tasks body fails (ls_tasks ls) (ls_ss ls) (ls_w ls) (ls_errors ls) (ls_trace ls) [] = (w1, errs1, tr1, launched, true) ->
    sync_case ls (Stop Raised (after_tasks ls w1 errs1 tr1 launched))
| SC_continue w1 errs1 tr1 launched ss2 tasks2 :
    raised (ls_ss ls) = false ->
    run_tasks body fails (ls_tasks ls) (ls_ss ls) (ls_w ls) (ls_errors ls) (ls_trace ls) [] = (w1, errs1, tr1, launched, false) ->
    poll vr g kmax w1 (ls_ss ls) = (ss2, tasks2) ->
    sync_case ls (Continue (with_poll (after_tasks ls w1 errs1 tr1 launched) ss2 tasks2)).

Lemma sync_step_case (ls : lstate) : sync_case ls (sync_step body fails vr g kmax ls).
Proof.
  unfold sync_step. destruct (raised (ls_ss ls)) eqn:R; [apply SC_raised; exact R|].
  destruct (negb (negb (is_nil (ls_tasks ls)) || any_not_done vr g (ls_w ls) (ls_ss ls))) eqn:C.
  - apply negb_true_iff, orb_false_iff in C. destruct C as [C1 C2].
    apply negb_false_iff, is_nil_true in C1. apply SC_finished; assumption.
  - destruct (run_tasks body fails (ls_tasks ls) (ls_ss ls) (ls_w ls) (ls_errors ls) (ls_trace ls) [])
      as [[[[w1 errs1] tr1] launched] failed] eqn:ER.
    destruct failed; [exact (SC_failed ls w1 errs1 tr1 launched R ER)|].
    destruct (poll vr g kmax w1 (ls_ss ls)) as [ss2 tasks2] eqn:EP.
    exact (SC_continue ls w1 errs1 tr1 launched ss2 tasks2 R ER EP).
Qed.

Lemma sync_idle_stops (ls : lstate) :
  raised (ls_ss ls) = false -> ls_tasks ls = [] -> any_not_done vr g (ls_w ls) (ls_ss ls) = false ->
  sync_step body fails vr g kmax ls = Stop Finished ls.
Proof. intros R T A. unfold sync_step. rewrite R, T, A. reflexivity. Qed.

Lemma sync_step_spec (ls : lstate) :
  SyInv ls -> ls_errors ls = [] ->
  match sync_step body fails vr g kmax ls with
  | Continue ls' => SyInv ls' /\ ls_errors ls' = []
  | Stop st ls' => SyInv ls' /\ (st = Finished -> loop_cond vr g ls' = false)
  end.
Proof.
  intros S NE. destruct (sync_step_case ls) as [R|R T A|w1 errs1 tr1 launched R ER|w1 errs1 tr1 launched ss2 tasks2 R ER EP].
  - split; [exact S|discriminate].
  - split; [exact S|]. intros _. apply loop_cond_false. auto using sy_pend.
  - split; [apply (SyInv_run_tasks ls _ _ _ _ _ S NE ER)|discriminate].
  - destruct (SyInv_run_tasks ls _ _ _ _ _ S NE ER) as [S1 NE1].
    split; [exact (SyInv_poll _ ss2 tasks2 S1 EP)|exact (NE1 eq_refl)].
Qed.

Lemma SyInv_init : SyInv (ls_init V vr g kmax) /\ ls_errors (ls_init V vr g kmax) = [].
Proof.
  pose proof (LInv_init V body fails vr F14 g WF (Some 1) kmax) as Il. unfold ls_init in *.
  destruct (poll vr g kmax (w_init V) (ss_init V)) as [ss tasks].
  split; [constructor; [exact Il|intros j []|reflexivity|exact Logic.I]|reflexivity].
Qed.

Notation run := (run_sync V body fails vr g kmax).

Lemma run_sync_loop_inv : forall fuel ls,
  SyInv ls -> ls_errors ls = [] ->
  SyInv (o_final (run_sync_loop body fails vr g kmax fuel ls))
  /\ (o_status (run_sync_loop body fails vr g kmax fuel ls) = Finished ->
      loop_cond vr g (o_final (run_sync_loop body fails vr g kmax fuel ls)) = false).
Proof.
  induction fuel as [|f IH]; intros ls S NE; cbn [run_sync_loop]; [split; [exact S|discriminate]|].
  pose proof (sync_step_spec ls S NE) as X.
  destruct (sync_step body fails vr g kmax ls) as [ls'|st ls']; [apply IH; apply X|exact X].
Qed.

Lemma sync_inv fuel :
  SyInv (o_final (run fuel))
  /\ (o_status (run fuel) = Finished -> loop_cond vr g (o_final (run fuel)) = false).
Proof. apply run_sync_loop_inv; apply SyInv_init. Qed.

Theorem sync_safety fuel : starts_after_upstream g (event_log (run fuel)).
Proof. apply (LInv_safety V body fails vr g (Some 1)), (sy_l _ (proj1 (sync_inv fuel))). Qed.

Theorem sync_at_most_once fuel : at_most_once (event_log (run fuel)).
Proof. apply (LInv_at_most_once V body fails vr g (Some 1)), (sy_l _ (proj1 (sync_inv fuel))). Qed.

Theorem sync_one_at_a_time fuel : concurrency_bounded 1 (event_log (run fuel)).
Proof. apply conc_rev_spec, (sy_conc _ (proj1 (sync_inv fuel))). Qed.

Theorem sync_all_run fuel :
  (forall j, fails j = false) -> o_status (run fuel) = Finished ->
  every_job_once g (event_log (run fuel)).
Proof.
  intros NF St. destruct (sync_inv fuel) as [S C].
  exact (end_every_job_once V body fails vr F14 g WF (Some 1) _ (sy_l _ S) (C St) NF).
Qed.

Theorem sync_outputs fuel :
  (forall j, fails j = false) -> o_status (run fuel) = Finished ->
  node_outputs g (run fuel) = reference_outputs V body g.
Proof.
  intros NF St. destruct (sync_inv fuel) as [S C].
  exact (end_outputs V body fails vr F14 g WF (Some 1) _ (sy_l _ S) (C St) NF).
Qed.

(* Termination when no job fails.  Nodes with zero jobs (split over an empty list) may sit anywhere in the graph: each of
   them costs one pass of the loop that runs nothing. *)
Hypothesis NF : forall j, fails j = false.
Hypothesis KP : forall k, kmax = Some k -> 1 <= k.

Notation PrePoll := (PrePoll V fails g).
Notation Polled := (Polled V fails vr g kmax).

Lemma run_tasks_struct ss : forall tasks (w : world) errs tr acc w' errs' tr' acc' failed,
  visible w = [] ->
  run_tasks body fails tasks ss w errs tr acc = (w', errs', tr', acc', failed) ->
  failed = false /\ visible w' = [] /\ count_finish tr <= count_finish tr'
  /\ (exists new, acc' = acc ++ new /\ forall j, In j new -> In j tasks)
  /\ (forall j r, tasks = j :: r -> is_ok w j = false -> S (count_finish tr) <= count_finish tr').
Proof.
  induction tasks as [|j tasks IH]; intros w errs tr acc w' errs' tr' acc' failed Hv E; cbn [run_tasks] in E.
  - injection E as <- <- <- <- <-. split; [reflexivity|split; [exact Hv|split; [lia|split]]].
    + exists []. rewrite app_nil_r. split; [reflexivity|intros j []].
    + intros j r X; discriminate.
  - destruct (is_ok w j) eqn:Ok.
    + destruct (IH _ _ _ _ _ _ _ _ _ Hv E) as [A [B [C [[new [D1 D2]] _]]]].
      split; [exact A|split; [exact B|split; [exact C|split]]].
      * exists new. split; [exact D1|intros q Hq; right; apply D2; exact Hq].
      * intros j0 r X Y. inversion X; subst j0 r. congruence.
    + unfold job_result in E. rewrite NF in E.
      destruct (IH (mkW _ []) _ _ _ _ _ _ _ _ eq_refl E) as [A [B [C [[new [D1 D2]] _]]]].
      rewrite count_finish_cons_f, count_finish_cons_l in C.
      split; [exact A|split; [exact B|split; [lia|split]]].
      * exists (j :: new). rewrite D1, <- app_assoc. split; [reflexivity|].
        intros q [<-|Hq]; [left; reflexivity|right; apply D2; exact Hq].
      * intros _ _ _ _. lia.
Qed.

(* as SchedTermA.async_step_polled, with what the poll has achieved (PrePoll_progress) and flag_mono passed on for the
   potential *)
Lemma sync_step_prog (ls : lstate) :
  SyInv ls -> ls_errors ls = [] -> Polled ls ->
  match sync_step body fails vr g kmax ls with
  | Stop Finished _ => True
  | Stop _ _ => False
  | Continue ls' =>
      SyInv ls' /\ ls_errors ls' = [] /\ Polled ls' /\ count_finish (ls_trace ls) <= count_finish (ls_trace ls')
      /\ (ls_tasks ls <> [] -> S (count_finish (ls_trace ls)) <= count_finish (ls_trace ls'))
      /\ flag_mono V (nst (ls_ss ls)) (nst (ls_ss ls'))
      /\ (ls_tasks ls' <> [] \/ any_not_done vr g (ls_w ls') (ls_ss ls') = false
          \/ newly_started_zero V g (nst (ls_ss ls)) (nst (ls_ss ls')))
  end.
Proof.
  intros S NE P. destruct (Polled_PInv2 V fails vr F14 g WF kmax ls P) as [VP FP RU FS NO].
  assert (SV : visible (ls_w ls) = []).
  { apply nil_of_no_mem. intros j Hj. apply VP in Hj. rewrite (sy_pend _ S) in Hj. destruct Hj. }
  destruct (sync_step_case ls) as [R|R T A|w1 errs1 tr1 launched R ER|w1 errs1 tr1 launched ss2 tasks2 R ER EP].
  - rewrite (gi_raised (li_g (sy_l _ S))) in R. discriminate.
  - exact Logic.I.
  - destruct (run_tasks_struct _ _ _ _ _ _ _ _ _ _ _ SV ER) as [Ff _]. discriminate.
  - destruct (run_tasks_struct _ _ _ _ _ _ _ _ _ _ _ SV ER) as [_ [Hv1 [Cm [[new [Ea Hn]] Cs]]]]. cbn in Ea. subst new.
    destruct (SyInv_run_tasks ls _ _ _ _ _ S NE ER) as [S1 NE1].
    pose proof S1 as [[G1 W1 _ _ T1 _] FD1 _ _]. cbn in G1, W1, T1, FD1.
    assert (P1 : PrePoll (ls_w (after_tasks ls w1 errs1 tr1 launched)) (ls_ss ls) (ls_futured ls ++ launched) []).
    { constructor; cbn; [exact G1|exact W1| | |intros j []|apply T1| |].
      - intros j Hj. rewrite Hv1 in Hj. exact Hj.
      - intros j Hj N. rewrite (FD1 j Hj) in N. discriminate.
      - intros n i Hi. apply in_or_app. left. apply RU, Hi.
      - intros j Hj. apply in_app_or in Hj.
        destruct Hj as [Hj|Hj]; [apply FS; exact Hj|apply (li_tasks (sy_l _ S)), Hn, Hj]. }
    pose proof (proj1 (poll_mono V fails vr F14 g WF kmax w1 (ls_ss ls) ss2 tasks2 G1 W1 EP)) as FM.
    split; [exact (SyInv_poll _ ss2 tasks2 S1 EP)|split; [exact (NE1 eq_refl)|]].
    split; [exists (ls_ss ls); split; [exact P1|exact EP]|split; [exact Cm|split; [|split; [exact FM|]]]].
    + destruct (ls_tasks ls) as [|j r] eqn:Et; [congruence|]. intros _. apply (Cs j r eq_refl).
      pose proof (NO j (or_introl eq_refl)) as X. unfold is_none, is_ok in *. destruct (probe_job (ls_w ls) j); congruence.
    + exact (PrePoll_progress V fails vr F14 g WF kmax KP NF _ _ _ _ _ P1 EP).
Qed.

Lemma sync_finish_bound (ls : lstate) : SyInv ls -> count_finish (ls_trace ls) <= List.length (all_jobs g).
Proof. intros S. apply (finish_bound V body fails vr g (Some 1)), (sy_l _ S). Qed.

(* the potential: 2*(finished jobs) + 2*(started empty nodes) + [a task is waiting] *)
Definition phi (ls : lstate) : nat :=
  2 * count_finish (ls_trace ls) + 2 * (nempty g - zpend V g (nst (ls_ss ls))) + (if is_nil (ls_tasks ls) then 0 else 1).

Lemma phi_bound (ls : lstate) : SyInv ls -> phi ls <= 2 * List.length (all_jobs g) + 2 * List.length g + 1.
Proof.
  intros S. unfold phi, nempty. pose proof (sync_finish_bound ls S). pose proof (filter_len_le (fun nd => njobs nd =? 0) g).
  destruct (is_nil (ls_tasks ls)); lia.
Qed.

Lemma run_sync_loop_terminates_any : forall fuel ls,
  SyInv ls -> ls_errors ls = [] -> Polled ls ->
  2 * (List.length (all_jobs g) + List.length g) + 3 <= fuel + phi ls ->
  o_status (run_sync_loop body fails vr g kmax fuel ls) = Finished.
Proof.
  induction fuel as [|f IH]; intros ls Sy NE P B.
  - pose proof (phi_bound ls Sy). lia.
  - cbn [run_sync_loop].
    pose proof (sync_step_prog ls Sy NE P) as S2.
    destruct (sync_step body fails vr g kmax ls) as [ls'|st ls']; [|destruct st; try contradiction; reflexivity].
    destruct S2 as [S' [NE' [P' [Cm [Cs [FM PP]]]]]].
    assert (Ph : phi ls < phi ls' \/ (ls_tasks ls' = [] /\ any_not_done vr g (ls_w ls') (ls_ss ls') = false)).
    { unfold phi. pose proof (zpend_mono V g _ _ FM) as NM. pose proof (zpend_le V g (nst (ls_ss ls))) as ZL.
      destruct (ls_tasks ls) as [|j r]; cbn [is_nil].
      - destruct PP as [X|[X|X]].
        + left. destruct (ls_tasks ls'); [congruence|]. cbn [is_nil]. lia.
        + destruct (ls_tasks ls'); [right; auto|left; cbn [is_nil]; lia].
        + left. pose proof (zpend_strict V g _ _ FM X). destruct (is_nil (ls_tasks ls')); lia.
      - left. assert (S (count_finish (ls_trace ls)) <= count_finish (ls_trace ls')) by (apply Cs; discriminate).
        destruct (is_nil (ls_tasks ls')); lia. }
    destruct Ph as [C|[C1 C2]]; [apply IH; auto; lia|].
    (* everything is done: the next test of the loop condition ends the loop *)
    pose proof (phi_bound ls Sy). destruct f as [|f']; [lia|]. cbn [run_sync_loop].
    rewrite (sync_idle_stops ls' (gi_raised (li_g (sy_l _ S'))) C1 C2).
    reflexivity.
Qed.

Theorem sync_terminates_any fuel :
  2 * (List.length (all_jobs g) + List.length g) + 3 <= fuel ->
  o_status (run_sync V body fails vr g kmax fuel) = Finished.
Proof.
  intros B. unfold run_sync. destruct SyInv_init as [S NE].
  apply run_sync_loop_terminates_any; auto; [apply Polled_init; assumption|lia].
Qed.

(* every node has at least one job: every pass runs a job, |jobs| + 1 passes suffice *)
Hypothesis NJ : forall nd, In nd g -> 1 <= njobs nd.

Lemma run_sync_loop_terminates : forall fuel ls,
  SyInv ls -> ls_errors ls = [] -> Polled ls ->
  List.length (all_jobs g) + 1 <= fuel + count_finish (ls_trace ls) ->
  o_status (run_sync_loop body fails vr g kmax fuel ls) = Finished.
Proof.
  induction fuel as [|f IH]; intros ls Sy NE P B.
  - pose proof (sync_finish_bound ls Sy). lia.
  - cbn [run_sync_loop].
    destruct (ls_tasks ls) as [|j r] eqn:Et.
    { rewrite (sync_idle_stops ls (gi_raised (li_g (sy_l _ Sy))) Et
                 (polled_idle V fails vr F14 g WF kmax KP NF NJ ls P (sy_pend _ Sy) Et)).
      reflexivity. }
    pose proof (sync_step_prog ls Sy NE P) as S2.
    destruct (sync_step body fails vr g kmax ls) as [ls'|st ls']; [|destruct st; try contradiction; reflexivity].
    destruct S2 as [S' [NE' [P' [_ [Cs _]]]]]. rewrite Et in Cs.
    assert (S (count_finish (ls_trace ls)) <= count_finish (ls_trace ls')) by (apply Cs; discriminate).
    apply IH; auto. lia.
Qed.

Theorem sync_terminates fuel :
  List.length (all_jobs g) + 1 <= fuel -> o_status (run_sync V body fails vr g kmax fuel) = Finished.
Proof.
  intros B. unfold run_sync. destruct SyInv_init as [S NE].
  apply run_sync_loop_terminates; auto; [apply Polled_init; assumption|lia].
Qed.

End Sync.
