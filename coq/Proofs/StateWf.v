(* Proofs/StateWf.v — C03 at full strength and the diamond workflow that refutes it (finding F03). *)
From Pydra Require Import Base.Prelude Model.StateWf Spec.StateWf.
Local Open Scope nat_scope.

(* the proposition Props/C03.v states again as C03_full_statement: C03_refuted there is `refuted` below, by
   conversion of the two *)
Definition full_statement : Prop :=
  forall wf : workflow, wf_ok wf = true -> model_run wf = Some (spec_run wf).

(* diamond N0 -> N1, N0 -> N2, (N1, N2) -> N3 with N0 split over [1;2;3] *)
Definition diamond : workflow :=
  [ {| n_fields := [BSplit [1; 2; 3]%Z]; n_split := [0]; n_zip := []; n_osel := []; n_comb := [] |};
    {| n_fields := [BUp 0]; n_split := []; n_zip := []; n_osel := []; n_comb := [] |};
    {| n_fields := [BUp 0]; n_split := []; n_zip := []; n_osel := []; n_comb := [] |};
    {| n_fields := [BUp 1; BUp 2]; n_split := []; n_zip := []; n_osel := []; n_comb := [] |} ].

Lemma diamond_wf : wf_ok diamond = true.
Proof. vm_compute. reflexivity. Qed.

Lemma diamond_counts :
  option_map (map (fun v => match v with VList l => List.length l | _ => 0 end)) (model_run diamond) = Some [3; 3; 3; 9]
  /\ spec_njobs diamond = [3; 3; 3; 3].
Proof. split; vm_compute; reflexivity. Qed.

Lemma refuted : ~ full_statement.
Proof.
  intros H. specialize (H diamond diamond_wf). vm_compute in H. discriminate H.
Qed.
