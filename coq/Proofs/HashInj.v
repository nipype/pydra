(* Proofs/HashInj.v — C08_ser_injective: on the fragment [inj_dom], two values with the same digest are the
   same value (Spec.Hash.veqb: sets as sets, dicts as maps) or two different byte strings that were hashed
   while computing the two digests have the same blake2b digest (an explicit collision).  Merkle argument:
   equal digests + no collision => equal byte strings => (per-format parsing: repr_inj) same kind, same scalars,
   same number of children with pairwise equal digests => induction (dig_inj).
   Last, for concrete values: `no_collb`, the test that none of the byte strings hashed for two given values
   (`hashed_list`) collide, with its soundness; the PathLike-key witness of HashExamples is evaluated through it. *)
From Coq Require Import Sorting.Permutation.
From Pydra Require Import Base.Prelude Model.Hash Spec.Hash Proofs.HashSort Proofs.HashCtx Proofs.HashInjStr.
Local Open Scope list_scope.
Local Open Scope string_scope.

Local Arguments pack_q : simpl never.

(* dict keys whose bytes are self-delimiting *)
Definition keyatom (v : pyval) : Prop :=
  match v with
  | VNone | VBool _ | VInt _ | VStr _ | VBytes _ => True
  | VFloat b => String.length b = 8
  | _ => False
  end.
Definition path_cls (c : string) : bool := nocolon c && has_dot c && starts "pathlib." c.
Definition obj_cls (c : string) : bool :=
  nocolon c && has_dot c && negb (starts "pathlib." c) && negb (starts "numpy" c).
(* module + class name of a numpy array / scalar, as bytes_repr_numpy writes it: "numpyndarray", "numpyfloat64" *)
Definition nd_cls (c : string) : bool := nocolon c && starts "numpy" c.

Definition local_ok (v : pyval) : Prop :=
  match v with
  | VNone | VBool _ | VInt _ | VStr _ | VBytes _ => True
  | VFloat b => String.length b = 8
  | VPath c _ => path_cls c = true
  | VList _ _ | VTuple _ _ | VSet _ _ | VFrozenset _ _ => True
  | VDict _ kvs => Forall keyatom (map fst kvs)
  | VObj _ c _ => obj_cls c = true
  | VNd _ c dt _ _ => nd_cls c = true /\ nocolon dt = true
  | _ => False          (* object arrays, functions, types, cyclic references: not covered by this theorem *)
  end.

Inductive inj_dom : pyval -> Prop :=
| id_intro v : local_ok v -> (forall x, In x (subs v) -> inj_dom x) -> inj_dom v.

Lemma subs_inj_dom : forall v x, inj_dom v -> In x (subs v) -> inj_dom x.
Proof. intros v x Hd Hx. inversion Hd; auto. Qed.

Lemma path_cls_inv : forall c, path_cls c = true -> nocolon c = true /\ has_dot c = true /\ starts "pathlib." c = true.
Proof. intros c E. destruct (andb_prop _ _ E) as [E1 Hp]. destruct (andb_prop _ _ E1). auto. Qed.
Lemma obj_cls_inv : forall c, obj_cls c = true ->
    nocolon c = true /\ has_dot c = true /\ starts "pathlib." c = false /\ starts "numpy" c = false.
Proof.
  intros c E. destruct (andb_prop _ _ E) as [E1 Hnp]. destruct (andb_prop _ _ E1) as [E2 Hp].
  destruct (andb_prop _ _ E2). apply negb_true_iff in Hp, Hnp. auto.
Qed.
Lemma nd_cls_inv : forall c, nd_cls c = true -> nocolon c = true /\ starts "numpy" c = true.
Proof. intros c E. exact (andb_prop _ _ E). Qed.

Lemma pathlib_not_numpy : forall c, starts "pathlib." c = true -> starts "numpy" c = false.
Proof.
  intros [|a c] Hp; [discriminate Hp|]. cbn [starts] in Hp |- *.
  destruct (Ascii.eqb_spec "p" a) as [<-|]; [reflexivity|discriminate Hp].
Qed.

Lemma scons_inj : forall c a b x y, String c a ++ x = String c b ++ y -> a ++ x = b ++ y.
Proof. intros c a b x y E. cbn in E. now injection E. Qed.

Lemma key_prefix_free : forall k1 k2 a1 a2 x y,
    keyatom k1 -> keyatom k2 -> atom_bytes k1 = Some a1 -> atom_bytes k2 = Some a2 ->
    a1 ++ x = a2 ++ y -> k1 = k2 /\ x = y.
Proof.
  intros k1 k2 a1 a2 x y K1 K2 A1 A2 E.
  destruct k1 as [ | b1 | z1 | f1 | s1 | s1 | | | | | | | | | | | ]; try contradiction;
  destruct k2 as [ | b2 | z2 | f2 | s2 | s2 | | | | | | | | | | | ]; try contradiction;
  cbn in A1, A2; injection A1 as <-; injection A2 as <-;
  try (destruct b1); try (destruct b2);
  try (destruct (fits_q z1) eqn:F1); try (destruct (fits_q z2) eqn:F2);
  try discriminate E; repeat (apply scons_inj in E); rewrite ?append_assoc in E; cbn [append] in E.
  - (* None; then True / True and False / False *) auto.
  - auto.
  - auto.
  - (* int / int *)
    apply sapp_len_inj in E; [|now rewrite !pack_q_len]. destruct E as [E ->].
    apply pack_q_inj in E; auto. now subst.
  - (* long / long *)
    apply lenpref_inj in E. destruct E as [E ->]. apply dec_Z_inj in E. now subst.
  - (* float *) cbn in K1, K2.
    apply sapp_len_inj in E; [|congruence]. destruct E as [-> ->]. auto.
  - (* str *)
    apply lenpref_inj in E. destruct E as [-> ->]. auto.
  - (* bytes *)
    apply lenpref_inj in E. destruct E as [-> ->]. auto.
Qed.

Lemma keyatom_inj : forall v1 v2 s, keyatom v1 -> keyatom v2 ->
    atom_bytes v1 = Some s -> atom_bytes v2 = Some s -> v1 = v2.
Proof.
  intros v1 v2 s K1 K2 A1 A2.
  now destruct (key_prefix_free v1 v2 s s "" "" K1 K2 A1 A2 eq_refl).
Qed.

Lemma veqb_refl_keyatom : forall f v, keyatom v -> f <> 0 -> veqb f v v = true.
Proof.
  intros [|f] v K Hf; [congruence|]. destruct v; cbn in K; try contradiction; cbn;
    auto using Bool.eqb_reflx, Z.eqb_refl, String.eqb_refl.
Qed.

Inductive kind : Set :=
| KOther | KNone | KBool | KInt | KFloat | KStr | KBytes | KPath
| KList | KTuple | KSet | KFrozenset | KDict | KObj | KNd.

Definition kind_of (v : pyval) : kind :=
  match v with
  | VNone => KNone | VBool _ => KBool | VInt _ => KInt | VFloat _ => KFloat | VStr _ => KStr | VBytes _ => KBytes
  | VPath _ _ => KPath | VList _ _ => KList | VTuple _ _ => KTuple | VSet _ _ => KSet | VFrozenset _ _ => KFrozenset
  | VDict _ _ => KDict | VObj _ _ _ => KObj | VNd _ _ _ _ _ => KNd
  | _ => KOther
  end.

(* the kind read off the bytes: from the text before the first ':'; without a ':' it is None or a bool *)
Definition classify (s : string) : kind :=
  match after s with
  | None => if String.eqb s "None" then KNone else KBool
  | Some _ =>
    let t := before s in
    if String.eqb t "int" then KInt else if String.eqb t "long" then KInt else if String.eqb t "float" then KFloat
    else if String.eqb t "str" then KStr else if String.eqb t "bytes" then KBytes else if String.eqb t "list" then KList
    else if String.eqb t "tuple" then KTuple else if String.eqb t "set" then KSet
    else if String.eqb t "frozenset" then KFrozenset else if String.eqb t "dict" then KDict
    else if starts "numpy" t then KNd
    else if starts "pathlib." t then KPath else KObj
  end.

Lemma eqb_false_by : forall (t : string -> bool) c lit, t c = true -> t lit = false -> String.eqb c lit = false.
Proof. intros t c lit Hc Hl. destruct (String.eqb_spec c lit) as [->|]; [congruence|reflexivity]. Qed.

Lemma classify_dotted : forall c r, nocolon c = true -> has_dot c = true -> starts "numpy" c = false ->
    classify (c ++ String ":" r) = if starts "pathlib." c then KPath else KObj.
Proof.
  intros c r Hn Hd Hnp. unfold classify. rewrite (after_app c r Hn), (before_app c r Hn).
  rewrite !(eqb_false_by has_dot c) by (exact Hd || reflexivity). now rewrite Hnp.
Qed.

Lemma classify_nd : forall c r, nocolon c = true -> starts "numpy" c = true ->
    classify (c ++ String ":" r) = KNd.
Proof.
  intros c r Hn Hp. unfold classify. rewrite (after_app c r Hn), (before_app c r Hn).
  rewrite !(eqb_false_by (starts "numpy") c) by (exact Hp || reflexivity). now rewrite Hp.
Qed.

Lemma list_eqb_F2 : forall {A} (R : A -> A -> Prop) (e : A -> A -> bool) l1 l2,
    (forall a b, R a b -> e a b = true) -> Forall2 R l1 l2 -> list_eqb e l1 l2 = true.
Proof. intros A R e l1 l2 He. induction 1 as [|a b l1 l2 Hr _ IH]; cbn; auto. now rewrite (He a b Hr), IH. Qed.

Lemma incl_by_paired : forall {A} (R : A -> A -> Prop) (e : A -> A -> bool) l1 l2 s1 s2,
    (forall a b, R a b -> e a b = true) ->
    Permutation l1 s1 -> Permutation l2 s2 -> Forall2 R s1 s2 -> incl_by e l1 l2 = true.
Proof.
  intros A R e l1 l2 s1 s2 He P1 P2 HF. apply forallb_forall. intros x Hx. apply existsb_exists. rewrite P1 in Hx.
  destruct (F2_in_l _ _ _ x HF Hx) as (y & Hy & Hr). exists y. rewrite P2. auto.
Qed.

Lemma same_set_paired : forall {A} (R : A -> A -> Prop) (e : A -> A -> bool) l1 l2 s1 s2,
    (forall a b, R a b -> e a b = true) ->
    Permutation l1 s1 -> Permutation l2 s2 -> Forall2 R s1 s2 -> same_set e l1 l2 = true.
Proof.
  intros A R e l1 l2 s1 s2 He P1 P2 HF. unfold same_set.
  rewrite (incl_by_paired R e l1 l2 s1 s2), (incl_by_paired (fun b a => R a b) (fun x y => e y x) l2 l1 s2 s1); auto.
  exact (F2_flip _ _ _ HF).
Qed.

Lemma incl_by_map_impl : forall {A B} (g : A -> B) (e : B -> B -> bool) (e' : A -> A -> bool) l1 l2,
    (forall x y, e (g x) (g y) = true -> e' x y = true) ->
    incl_by e (map g l1) (map g l2) = true -> incl_by e' l1 l2 = true.
Proof.
  intros A B g e e' l1 l2 He. unfold incl_by. rewrite !forallb_forall. intros Hi x Hx.
  specialize (Hi (g x) (in_map g _ _ Hx)). apply existsb_exists in Hi. destruct Hi as (y' & Hy' & E).
  apply in_map_iff in Hy'. destruct Hy' as (y & <- & Hy). apply existsb_exists. eauto.
Qed.

Lemma same_set_map_impl : forall {A B} (g : A -> B) (e : B -> B -> bool) (e' : A -> A -> bool) l1 l2,
    (forall x y, e (g x) (g y) = true -> e' x y = true) ->
    same_set e (map g l1) (map g l2) = true -> same_set e' l1 l2 = true.
Proof.
  intros A B g e e' l1 l2 He E. unfold same_set in *. apply andb_true_iff in E. destruct E as [E1 E2].
  rewrite (incl_by_map_impl g e e' l1 l2 He E1), (incl_by_map_impl g (fun x y => e y x) (fun x y => e' y x) l2 l1); auto.
Qed.

Lemma dict_val_sub : forall i kvs (kv : pyval * pyval), In kv kvs -> In (snd kv) (subs (VDict i kvs)).
Proof. intros i kvs kv Hkv. cbn [subs]. apply in_flat_map. exists kv. split; auto. apply in_or_app. right. now left. Qed.

Section Inj.
  Variable H : string -> string.

  Fixpoint hashed (f : nat) (v : pyval) (s : string) : Prop :=
    match f with
    | 0 => False
    | S f' => repr (dig H f') v tt = Ok (s, tt) \/ exists x, In x (subs v) /\ hashed f' x s
    end.

  (* two different byte strings, hashed while digesting v1 resp. v2, with the same digest *)
  Definition collision (f1 : nat) (v1 : pyval) (f2 : nat) (v2 : pyval) : Prop :=
    exists s1 s2, hashed f1 v1 s1 /\ hashed f2 v2 s2 /\ s1 <> s2 /\ D H s1 = D H s2.

  Lemma collision_lift : forall f1 v1 f2 v2 x y,
      In x (subs v1) -> In y (subs v2) -> collision f1 x f2 y -> collision (S f1) v1 (S f2) v2.
  Proof.
    intros f1 v1 f2 v2 x y Hx Hy (s1 & s2 & H1 & H2 & Hne & E).
    exists s1, s2. repeat split; auto; cbn [hashed]; right; eauto.
  Qed.

  Lemma dig_len : forall f v d, dig H f v tt = Ok (d, tt) -> String.length d = 16.
  Proof.
    intros [|f] v d E; [discriminate|]. destruct (dig_S_inv H f v d E) as (s & _ & ->). apply D_len.
  Qed.

  Lemma digest_len : forall v d, digest H v = Ok d -> String.length d = 16.
  Proof. intros v d E. apply digest_dig in E. exact (dig_len _ _ _ E). Qed.

  Definition same_dig (f1 f2 : nat) (x y : pyval) : Prop :=
    exists d, dig H f1 x tt = Ok (d, tt) /\ dig H f2 y tt = Ok (d, tt).

  Lemma seq_contents_cons : forall f x l b, seq_contents (dig H f) (x :: l) tt = Ok (b, tt) ->
      exists d s, dig H f x tt = Ok (d, tt) /\ seq_contents (dig H f) l tt = Ok (s, tt) /\ b = d ++ s.
  Proof.
    intros f x l b E. cbn in E. destruct (dig H f x tt) as [[d []]|]; [|discriminate].
    destruct (seq_contents (dig H f) l tt) as [[s []]|]; [|discriminate]. inversion E. eauto.
  Qed.

  Lemma seq_contents_inj : forall f1 f2 l1 l2 b,
      seq_contents (dig H f1) l1 tt = Ok (b, tt) -> seq_contents (dig H f2) l2 tt = Ok (b, tt) ->
      Forall2 (same_dig f1 f2) l1 l2.
  Proof.
    induction l1 as [|x l1 IH]; intros [|y l2] b E1 E2.
    - constructor.
    - apply seq_contents_cons in E2. destruct E2 as (d & s & D & _ & ->). apply dig_len in D.
      inversion E1. destruct d; discriminate.
    - apply seq_contents_cons in E1. destruct E1 as (d & s & D & _ & ->). apply dig_len in D.
      inversion E2. destruct d; discriminate.
    - apply seq_contents_cons in E1. apply seq_contents_cons in E2.
      destruct E1 as (d1 & s1 & D1 & Q1 & ->). destruct E2 as (d2 & s2 & D2 & Q2 & E).
      apply sapp_len_inj in E; [|rewrite (dig_len _ _ _ D1), (dig_len _ _ _ D2); reflexivity].
      destruct E as [-> ->]. constructor; [exists d2; auto|eauto].
  Qed.

  Lemma map_contents_cons : forall f k x kvs b, keyatom k ->
      map_contents (dig H f) ((k, x) :: kvs) tt = Ok (b, tt) ->
      exists a d s, atom_bytes k = Some a /\ dig H f x tt = Ok (d, tt) /\
                    map_contents (dig H f) kvs tt = Ok (s, tt) /\ b = a ++ "=" ++ d ++ "," ++ s.
  Proof.
    intros f k x kvs b Hk E. cbn in E. unfold repr_flat in E. destruct (atom_bytes k) as [a|] eqn:Ea.
    2:{ destruct k; cbn in Hk; try contradiction; discriminate Ea. }
    destruct (dig H f x tt) as [[d []]|]; [|discriminate].
    destruct (map_contents (dig H f) kvs tt) as [[s []]|]; [|discriminate]. inversion E. eauto 7.
  Qed.

  Lemma map_contents_inj : forall f1 f2 (kvs1 kvs2 : list (pyval * pyval)) b,
      Forall keyatom (map fst kvs1) -> Forall keyatom (map fst kvs2) ->
      map_contents (dig H f1) kvs1 tt = Ok (b, tt) -> map_contents (dig H f2) kvs2 tt = Ok (b, tt) ->
      Forall2 (fun a b : pyval * pyval => (keyatom (fst a) /\ fst a = fst b) /\ same_dig f1 f2 (snd a) (snd b))
              kvs1 kvs2.
  Proof.
    induction kvs1 as [|[k1 x1] kvs1 IH]; intros [|[k2 x2] kvs2] b K1 K2 E1 E2; cbn [map fst] in K1, K2.
    - constructor.
    - inversion K2; subst. apply map_contents_cons in E2; auto. destruct E2 as (a & d & s & _ & _ & _ & ->).
      inversion E1. destruct a; discriminate.
    - inversion K1; subst. apply map_contents_cons in E1; auto. destruct E1 as (a & d & s & _ & _ & _ & ->).
      inversion E2. destruct a; discriminate.
    - inversion K1 as [|? ? Hk1 K1']; subst. inversion K2 as [|? ? Hk2 K2']; subst.
      apply map_contents_cons in E1; auto. apply map_contents_cons in E2; auto.
      destruct E1 as (a1 & d1 & s1 & A1 & D1 & Q1 & ->). destruct E2 as (a2 & d2 & s2 & A2 & D2 & Q2 & E).
      destruct (key_prefix_free k1 k2 a1 a2 _ _ Hk1 Hk2 A1 A2 E) as [-> E'].
      apply scons_inj in E'. cbn [append] in E'.
      apply sapp_len_inj in E'; [|rewrite (dig_len _ _ _ D1), (dig_len _ _ _ D2); reflexivity].
      destruct E' as [-> E']. injection E' as ->.
      constructor; [split; [auto|exists d2; auto]|eauto].
  Qed.

  Lemma classify_repr : forall f v s u, local_ok v -> repr (dig H f) v tt = Ok (s, u) -> classify s = kind_of v.
  Proof.
    intros f v s u Hok E.
    destruct v as [ | b | z | bits | s0 | s0 | cls s0 | i l | i l | i l | i l | i kvs | i cls ats
                  | i cls dt sh data | i src hid | i pre | i ]; cbn in Hok; try contradiction; cbn in E.
    - inversion E. reflexivity.
    - inversion E. destruct b; reflexivity.
    - inversion E. destruct (fits_q z); reflexivity.
    - inversion E. reflexivity.
    - inversion E. reflexivity.
    - inversion E. reflexivity.
    - inversion E. destruct (path_cls_inv _ Hok) as (Hn & Hd & Hp).
      rewrite classify_dotted; auto; [now rewrite Hp|now apply pathlib_not_numpy].
    - destruct (seq_contents (dig H f) l tt) as [[b' ?]|]; [|discriminate]. inversion E. reflexivity.
    - destruct (seq_contents (dig H f) l tt) as [[b' ?]|]; [|discriminate]. inversion E. reflexivity.
    - destruct (sorted_res vlt l) as [sl|]; [|discriminate].
      destruct (seq_contents (dig H f) sl tt) as [[b' ?]|]; [|discriminate]. inversion E. reflexivity.
    - destruct (sorted_res vlt l) as [sl|]; [|discriminate].
      destruct (seq_contents (dig H f) sl tt) as [[b' ?]|]; [|discriminate]. inversion E. reflexivity.
    - destruct (mapping (dig H f) kvs tt) as [[b' ?]|]; [|discriminate]. inversion E. reflexivity.
    - destruct (mapping (dig H f) _ tt) as [[b' ?]|]; [|discriminate]. inversion E.
      destruct (obj_cls_inv _ Hok) as (Hn & Hd & Hp & Hnp). cbn. rewrite classify_dotted; auto. now rewrite Hp.
    - inversion E. destruct Hok as [Hc _]. destruct (nd_cls_inv _ Hc) as [Hn Hp]. now apply classify_nd.
  Qed.

  Lemma keyatom_repr : forall f v s, keyatom v -> repr (dig H f) v tt = Ok (s, tt) -> atom_bytes v = Some s.
  Proof.
    intros f v s K E. destruct v; cbn in K; try contradiction; cbn in E; inversion E; reflexivity.
  Qed.

  (* the bytes of the four sequence-like kinds: opening tag, the digests of the elements, closing bracket *)
  Definition wrap_seq (f : nat) (o c : string) (l : list pyval) : res (string * unit) :=
    match seq_contents (dig H f) l tt with Ok (s, m) => Ok (o ++ s ++ c, m) | Err e => Err e end.

  (* One step of the Merkle argument, at two values v1, v2 whose bytes are equal: sub-objects with equal digests
     are equal values or [C] holds (in dig_inj: the induction hypothesis, and C a collision below v1, v2). *)
  Section Step.
    Variables (f1 f2 : nat) (v1 v2 : pyval) (C : Prop).
    Hypothesis child : forall x y, In x (subs v1) -> In y (subs v2) -> same_dig f1 f2 x y -> veqb f1 x y = true \/ C.

    Lemma pairs_step : forall {A B} (pa : A -> pyval) (pb : B -> pyval) (R : A -> B -> Prop) l1 l2,
        (forall a b, R a b -> same_dig f1 f2 (pa a) (pb b)) -> Forall2 R l1 l2 ->
        (forall a, In a l1 -> In (pa a) (subs v1)) -> (forall b, In b l2 -> In (pb b) (subs v2)) ->
        Forall2 (fun a b => R a b /\ veqb f1 (pa a) (pb b) = true) l1 l2 \/ C.
    Proof.
      intros A B pa pb R l1 l2 HR HF. induction HF as [|a b l1 l2 Hr HF IHF]; intros H1 H2; [left; constructor|].
      destruct (child (pa a) (pb b) (H1 a (or_introl eq_refl)) (H2 b (or_introl eq_refl)) (HR a b Hr)) as [He|Hc]; [|now right].
      destruct IHF as [HF'|Hc]; [intros; apply H1; now right|intros; apply H2; now right| |]; [left|right]; auto.
    Qed.

    Lemma seq_step : forall l1 l2 (o c s : string),
        wrap_seq f1 o c l1 = Ok (s, tt) -> wrap_seq f2 o c l2 = Ok (s, tt) ->
        (forall a, In a l1 -> In a (subs v1)) -> (forall b, In b l2 -> In b (subs v2)) ->
        Forall2 (fun a b => same_dig f1 f2 a b /\ veqb f1 a b = true) l1 l2 \/ C.
    Proof.
      intros l1 l2 o c s E1 E2. unfold wrap_seq in E1, E2.
      destruct (seq_contents (dig H f1) l1 tt) as [[b1 []]|] eqn:Q1; [|discriminate].
      destruct (seq_contents (dig H f2) l2 tt) as [[b2 []]|] eqn:Q2; [|discriminate].
      inversion E1 as [E]. inversion E2 as [E']. rewrite <- E' in E. apply sapp_inv_head, sapp_inv_tail in E. subst b2.
      exact (pairs_step (fun x => x) (fun x => x) _ l1 l2 (fun a b r => r) (seq_contents_inj f1 f2 l1 l2 b1 Q1 Q2)).
    Qed.

    Lemma list_step : forall o c s : string,
        wrap_seq f1 o c (subs v1) = Ok (s, tt) -> wrap_seq f2 o c (subs v2) = Ok (s, tt) ->
        list_eqb (veqb f1) (subs v1) (subs v2) = true \/ C.
    Proof.
      intros o c s E1 E2. destruct (seq_step _ _ o c s E1 E2) as [HF|Hc]; auto.
      left. exact (list_eqb_F2 _ _ _ _ (fun a b => @proj2 _ _) HF).
    Qed.

    Lemma set_step : forall o c s : string,
        match sorted_res vlt (subs v1) with Err e => Err e | Ok sl => wrap_seq f1 o c sl end = Ok (s, tt) ->
        match sorted_res vlt (subs v2) with Err e => Err e | Ok sl => wrap_seq f2 o c sl end = Ok (s, tt) ->
        same_set (veqb f1) (subs v1) (subs v2) = true \/ C.
    Proof.
      intros o c s E1 E2.
      destruct (sorted_res vlt (subs v1)) as [sl1|] eqn:P1; [|discriminate].
      destruct (sorted_res vlt (subs v2)) as [sl2|] eqn:P2; [|discriminate].
      apply sorted_res_perm in P1. apply sorted_res_perm in P2.
      destruct (seq_step sl1 sl2 o c s E1 E2) as [HF|Hc]; [| |left|now right].
      - intros a Ha. now rewrite P1.
      - intros a Ha. now rewrite P2.
      - exact (same_set_paired _ _ _ _ sl1 sl2 (fun a b => @proj2 _ _) P1 P2 HF).
    Qed.

    Lemma dict_step : forall kvs1 kvs2 b,
        Forall keyatom (map fst kvs1) -> Forall keyatom (map fst kvs2) ->
        mapping (dig H f1) kvs1 tt = Ok (b, tt) -> mapping (dig H f2) kvs2 tt = Ok (b, tt) ->
        (forall kv, In kv kvs1 -> In (snd kv) (subs v1)) -> (forall kv, In kv kvs2 -> In (snd kv) (subs v2)) ->
        same_set (fun x y : pyval * pyval => veqb f1 (fst x) (fst y) && veqb f1 (snd x) (snd y)) kvs1 kvs2 = true \/ C.
    Proof.
      intros kvs1 kvs2 b K1 K2 E1 E2 H1 H2. unfold mapping in E1, E2.
      destruct (sorted_res kvlt kvs1) as [s1|] eqn:S1; [|discriminate].
      destruct (sorted_res kvlt kvs2) as [s2|] eqn:S2; [|discriminate].
      apply sorted_res_perm in S1. apply sorted_res_perm in S2. rewrite S1 in K1. rewrite S2 in K2.
      destruct (pairs_step (@snd pyval pyval) (@snd pyval pyval) _ s1 s2 (fun a b => @proj2 _ _)
                           (map_contents_inj f1 f2 s1 s2 b K1 K2 E1 E2)) as [HF|Hc]; [| |left|now right].
      - intros a Ha. apply H1. now rewrite S1.
      - intros a Ha. apply H2. now rewrite S2.
      - refine (same_set_paired _ _ kvs1 kvs2 s1 s2 _ S1 S2 HF). intros x y [[[K <-] _] Hv].
        (* f1 <> 0: veqb 0 is false, and Hv says true *)
        rewrite Hv, veqb_refl_keyatom; auto. intros E. rewrite E in Hv. discriminate Hv.
    Qed.
  End Step.
End Inj.

Section Injective.
  Variable H : string -> string.

  (* The serializer is injective up to the sub-objects: two values of the fragment with the same bytes are of the same
     kind, have the same scalars, and their sub-objects are paired with equal digests; [child] turns each pair into
     equal values (or [C]), as in Section Step. *)
  Lemma repr_inj : forall f1 f2 v1 v2 (C : Prop) s,
      (forall x y, In x (subs v1) -> In y (subs v2) -> same_dig H f1 f2 x y -> veqb f1 x y = true \/ C) ->
      local_ok v1 -> local_ok v2 -> repr (dig H f1) v1 tt = Ok (s, tt) -> repr (dig H f2) v2 tt = Ok (s, tt) ->
      veqb (S f1) v1 v2 = true \/ C.
  Proof.
    intros f1 f2 v1 v2 C s child L1 L2 R1 R2.
    assert (Hc : kind_of v1 = kind_of v2).
    { rewrite <- (classify_repr H f1 v1 s tt L1 R1), <- (classify_repr H f2 v2 s tt L2 R2). reflexivity. }
    assert (Hatom : keyatom v1 -> keyatom v2 -> veqb (S f1) v1 v2 = true \/ C).
    { intros K1 K2. left. rewrite (keyatom_inj v1 v2 s K1 K2 (keyatom_repr H f1 v1 s K1 R1) (keyatom_repr H f2 v2 s K2 R2)).
      now apply veqb_refl_keyatom. }
    destruct v1 as [ | b1 | z1 | bits1 | t1 | t1 | c1 p1 | i1 l1 | i1 l1 | i1 l1 | i1 l1 | i1 kvs1 | i1 c1 ats1
                   | i1 c1 dt1 sh1 data1 | i1 src1 hid1 | i1 pre1 | i1 ]; cbn in L1; try contradiction;
    destruct v2 as [ | b2 | z2 | bits2 | t2 | t2 | c2 p2 | i2 l2 | i2 l2 | i2 l2 | i2 l2 | i2 kvs2 | i2 c2 ats2
                   | i2 c2 dt2 sh2 data2 | i2 src2 hid2 | i2 pre2 | i2 ]; cbn in L2; try contradiction;
    cbn [kind_of] in Hc; try discriminate Hc; try (apply Hatom; cbn; auto; fail); clear Hatom.
    - (* VPath *)
      cbn in R1, R2. inversion R1 as [E1]. inversion R2 as [E2]. rewrite <- E2 in E1.
      destruct (path_cls_inv _ L1) as [N1 _]. destruct (path_cls_inv _ L2) as [N2 _].
      apply colon_split_inj in E1; auto. destruct E1 as [-> ->]. left. cbn. now rewrite !String.eqb_refl.
    - (* [repr] on a list is [wrap_seq "list:(" ")"] on its elements by computation; likewise the next three *)
      exact (list_step H f1 f2 _ _ _ child _ _ s R1 R2).
    - exact (list_step H f1 f2 _ _ _ child _ _ s R1 R2).
    - exact (set_step H f1 f2 _ _ _ child _ _ s R1 R2).
    - exact (set_step H f1 f2 _ _ _ child _ _ s R1 R2).
    - (* VDict *)
      cbn [repr] in R1, R2.
      destruct (mapping (dig H f1) kvs1 tt) as [[b1 []]|] eqn:Q1; [|discriminate].
      destruct (mapping (dig H f2) kvs2 tt) as [[b2 []]|] eqn:Q2; [|discriminate].
      inversion R1 as [E1]. inversion R2 as [E2]. rewrite <- E2 in E1.
      injection E1 as E1. apply sapp_inv_tail in E1. subst b2.
      exact (dict_step H f1 f2 _ _ _ child kvs1 kvs2 b1 L1 L2 Q1 Q2 (dict_val_sub i1 kvs1) (dict_val_sub i2 kvs2)).
    - (* VObj: the dict of (VStr name, value) under the class name *)
      cbn [repr] in R1, R2.
      set (g := fun a : string * pyval => (VStr (fst a), snd a)) in *.
      destruct (mapping (dig H f1) (map g ats1) tt) as [[b1 []]|] eqn:Q1; [|discriminate].
      destruct (mapping (dig H f2) (map g ats2) tt) as [[b2 []]|] eqn:Q2; [|discriminate].
      inversion R1 as [E1]. inversion R2 as [E2]. rewrite <- E2 in E1.
      destruct (obj_cls_inv _ L1) as [N1 _]. destruct (obj_cls_inv _ L2) as [N2 _].
      apply colon_split_inj in E1; auto. destruct E1 as [-> E1].
      injection E1 as E1. apply sapp_inv_tail in E1. subst b2.
      assert (Kg : forall ats, Forall keyatom (map fst (map g ats))).
      { induction ats; constructor; [exact Logic.I|assumption]. }
      assert (Hg : forall i ats kv, In kv (map g ats) -> In (snd kv) (subs (VObj i c2 ats))).
      { intros i ats kv Hkv. apply in_map_iff in Hkv. destruct Hkv as (a & <- & Ha). exact (in_map snd ats a Ha). }
      destruct (dict_step H f1 f2 _ _ _ child (map g ats1) (map g ats2) b1 (Kg ats1) (Kg ats2) Q1 Q2 (Hg i1 ats1) (Hg i2 ats2))
        as [Hs|Hc']; [left|now right].
      cbn. rewrite String.eqb_refl. cbn. revert Hs. apply same_set_map_impl. intros x y.
      (* veqb on the two VStr names is String.eqb when there is fuel; without fuel both sides are false *)
      destruct f1; [discriminate|exact (fun E => E)].
    - (* VNd *)
      cbn in R1, R2. inversion R1 as [E1]. inversion R2 as [E2]. rewrite <- E2 in E1.
      destruct L1 as [C1 T1], L2 as [C2 T2]. destruct (nd_cls_inv _ C1) as [N1 _]. destruct (nd_cls_inv _ C2) as [N2 _].
      apply colon_split_inj in E1; auto. destruct E1 as [-> E1].
      apply colon_split_inj in E1; auto. destruct E1 as [-> E1].
      apply shape_repr_prefix_free in E1. destruct E1 as [-> E1]. injection E1 as ->.
      left. cbn. rewrite !String.eqb_refl. cbn.
      rewrite (proj2 (list_eqb_spec Nat.eqb Nat.eqb_eq sh2 sh2) eq_refl). reflexivity.
  Qed.

  (* Merkle: equal digests come from equal bytes, or the two byte strings are a collision; under equal bytes the
     sub-objects have pairwise equal digests, to which the induction applies *)
  Theorem dig_inj : forall f1 f2 x y d,
      inj_dom x -> inj_dom y -> dig H f1 x tt = Ok (d, tt) -> dig H f2 y tt = Ok (d, tt) ->
      veqb f1 x y = true \/ collision H f1 x f2 y.
  Proof.
    induction f1 as [|f1 IH]; intros f2 v1 v2 d I1 I2 D1 D2; [discriminate|].
    destruct f2 as [|f2]; [discriminate|].
    destruct (dig_S_inv H f1 v1 d D1) as (s1 & R1 & Hd1). destruct (dig_S_inv H f2 v2 d D2) as (s2 & R2 & Hd2).
    destruct (string_dec s1 s2) as [->|Hne].
    2:{ right. exists s1, s2. cbn [hashed]. repeat split; auto. congruence. }
    inversion I1 as [? L1 S1]; subst. inversion I2 as [? L2 S2]; subst.
    apply (repr_inj f1 f2 v1 v2 _ s2); auto.
    intros x y Hx Hy (d & D1' & D2'). destruct (IH f2 x y d (S1 x Hx) (S2 y Hy) D1' D2') as [He|Hx']; [now left|].
    right. eapply collision_lift; eauto.
  Qed.

  (* the statement on whole values: digest = dig with fuel 1 + depth *)
  Theorem ser_injective : forall v1 v2 d,
      inj_dom v1 -> inj_dom v2 -> digest H v1 = Ok d -> digest H v2 = Ok d ->
      veq v1 v2 \/ collision H (S (vdepth v1)) v1 (S (vdepth v2)) v2.
  Proof.
    intros v1 v2 d I1 I2 D1 D2. apply digest_dig in D1. apply digest_dig in D2.
    exact (dig_inj (S (vdepth v1)) (S (vdepth v2)) v1 v2 d I1 I2 D1 D2).
  Qed.
End Injective.

Section NoColl.
  Variable H : string -> string.

  Fixpoint hashed_list (f : nat) (v : pyval) : list string :=
    match f with
    | 0 => []
    | S f' => (match repr (dig H f') v tt with Ok (s, _) => [s] | Err _ => [] end)
                ++ flat_map (hashed_list f') (subs v)
    end.

  Lemma hashed_in : forall f v s, hashed H f v s -> In s (hashed_list f v).
  Proof.
    induction f as [|f IH]; intros v s Hh; [contradiction|]. cbn [hashed] in Hh. cbn [hashed_list].
    apply in_or_app. destruct Hh as [E|(x & Hx & Hh)].
    - left. rewrite E. now left.
    - right. apply in_flat_map. exists x. split; auto.
  Qed.

  Definition no_collb (l1 l2 : list string) : bool :=
    forallb (fun s1 => forallb (fun s2 => String.eqb s1 s2 || negb (String.eqb (D H s1) (D H s2))) l2) l1.

  Lemma no_collb_sound : forall f1 v1 f2 v2,
      no_collb (hashed_list f1 v1) (hashed_list f2 v2) = true -> ~ collision H f1 v1 f2 v2.
  Proof.
    intros f1 v1 f2 v2 E (s1 & s2 & H1 & H2 & Hne & Hd).
    apply hashed_in in H1. apply hashed_in in H2. unfold no_collb in E.
    rewrite forallb_forall in E. specialize (E s1 H1). rewrite forallb_forall in E. specialize (E s2 H2).
    apply orb_true_iff in E. destruct E as [E|E].
    - apply String.eqb_eq in E. contradiction.
    - apply negb_true_iff in E. rewrite Hd, String.eqb_refl in E. discriminate.
  Qed.
End NoColl.
