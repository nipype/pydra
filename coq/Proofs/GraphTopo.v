(* Proofs/GraphTopo.v — the invariants of GraphInv / GraphEdges restated with the reference
   notion of a valid topological order (Spec/Graph.v). *)
From Pydra Require Import Base.Prelude Model.Graph Spec.Graph
  Proofs.GraphBase Proofs.GraphSort Proofs.GraphInv Proofs.GraphEdges Proofs.ListFacts.
From Coq Require Import Sorting.Permutation.
Local Open Scope nat_scope.
Local Open Scope list_scope.

Lemma pos_app_in a l1 l2 : In a l1 -> pos a (l1 ++ l2) = pos a l1 /\ pos a l1 < List.length l1.
Proof.
  induction l1 as [|x l1 IH]; cbn; intros H; [contradiction|].
  destruct (Nat.eqb a x) eqn:E; [split; [reflexivity|lia]|].
  apply Nat.eqb_neq in E. destruct H as [H|H]; [congruence|]. destruct (IH H). split; lia.
Qed.

Lemma pos_app_notin a l1 l2 : ~ In a l1 -> pos a (l1 ++ l2) = List.length l1 + pos a l2.
Proof.
  induction l1 as [|x l1 IH]; cbn; intros H; [reflexivity|].
  destruct (Nat.eqb a x) eqn:E; [apply Nat.eqb_eq in E; subst; exfalso; apply H; auto|].
  rewrite IH; auto.
Qed.

Lemma before_pos a b l : NoDup l -> before a b l -> pos a l < pos b l.
Proof.
  intros Hnd [l1 [l2 [-> [Ha Hb]]]].
  destruct (pos_app_in a l1 l2 Ha) as [E1 Hlt].
  assert (Hnb : ~ In b l1) by (intros Hb1; eapply NoDup_app_disj; eauto).
  pose proof (pos_app_notin b l1 l2 Hnb) as E2. unfold node, vertex in *. lia.
Qed.

Lemma pred_edges_In pd a b : In (a, b) (pred_edges pd) -> NoDup (dkeys pd) -> inW pd b a.
Proof.
  unfold pred_edges, inW. intros H Hnd. apply in_flat_map in H. destruct H as [[k pl] [Hk H]].
  cbn in H. apply in_map_iff in H. destruct H as [x [E Hx]]. inversion E; subst x k. clear E.
  exists pl. split; [|exact Hx].
  revert Hnd Hk. unfold dkeys. induction pd as [|[k' v'] pd IH]; cbn; intros Hnd Hk; [contradiction|].
  inversion Hnd; subst. destruct Hk as [Hk|Hk].
  - inversion Hk; subst. now rewrite Nat.eqb_refl.
  - destruct (Nat.eqb b k') eqn:E; [|auto]. apply Nat.eqb_eq in E. subst k'.
    exfalso. apply H1. apply in_map_iff. exists (b, pl). auto.
Qed.

Lemma pred_ok_topo ns pd es s :
  NoDup ns -> pred_ok ns pd s -> (forall a b, In (a, b) es -> In b ns -> inW pd b a) -> topo_valid ns es s.
Proof.
  intros Hnd [Hp Hb] Hw.
  assert (Hnds : NoDup s) by (eapply Permutation_NoDup; [symmetry; exact Hp|exact Hnd]).
  split; [exact Hnds|]. split; [exact Hp|].
  intros a b Hin Ha Hb'. apply before_pos; [exact Hnds|]. apply Hb; auto.
Qed.

Definition sorted_ok_preds (g : graph) : Prop :=
  forall s, g_sorted g = Some s -> topo_valid (g_nodes g) (pred_edges (g_preds g)) s.
Definition sorted_ok (g : graph) : Prop :=
  forall s, g_sorted g = Some s -> topo_valid (g_nodes g) (g_edges g) s.

Lemma sorted_valid_preds g : inv g -> sorted_ok_preds g.
Proof.
  intros [Hnd [Hk Hs]] s E. apply (pred_ok_topo _ (g_preds g)); [exact Hnd|exact (Hs s E)|].
  intros a b Hin _. apply pred_edges_In; assumption.
Qed.

Lemma sorted_valid_edges g : inv2 g -> sorted_ok g.
Proof.
  intros [[Hnd [Hk Hs]] [Hkeys [_ Hc]]] s E. apply (pred_ok_topo _ (g_preds g)); [exact Hnd|exact (Hs s E)|].
  intros a b Hin Hb. apply Hkeys in Hb. apply dget_In_keys in Hb. destruct Hb as [pl Hpl].
  exists pl. split; [exact Hpl|]. apply cnt_pos_In. rewrite (Hc b pl Hpl a). apply ecnt_pos_In. exact Hin.
Qed.

Theorem step_keeps_valid_order g o g' :
  inv2 g -> dom_ok g o = true -> step g o = Ok g' -> inv2 g' /\ sorted_ok g' /\ sorted_ok_preds g'.
Proof.
  intros H2 Hd H. assert (H2' : inv2 g') by (eapply step_inv2; eauto).
  split; [exact H2'|]. split; [apply sorted_valid_edges, H2'|apply sorted_valid_preds, H2'].
Qed.
