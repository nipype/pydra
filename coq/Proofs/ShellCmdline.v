(* Proofs/ShellCmdline.v — C24: pydra's cmdline rendering (quotes added only around arguments containing a blank)
   re-splits to the argument vector on the stated class of vectors, and does not in general. *)
From Pydra Require Import Base.Prelude Base.Shlex Model.Shell Spec.Shell Proofs.Shlex.
Local Open Scope char_scope.
Local Open Scope list_scope.

Lemma bare_renders a : bare_word a = true -> renders a a.
Proof.
  unfold bare_word. destruct a as [|c w]; [discriminate|]. apply plain_renders.
Qed.

Lemma cmdline_arg_renders a : c24_arg_ok a = true -> renders (cmdline_arg a) a.
Proof.
  unfold c24_arg_ok, cmdline_arg. destruct (has_space a); [|apply bare_renders].
  intros H. rewrite <- (esc_no_sq a H) at 1. apply always_quote_renders.
Qed.

Theorem cmdline_resplits : forall args, c24_in_domain args = true -> split_la (cmdline_render args) = Ok args.
Proof.
  intros [|a0 rest]; cbn [c24_in_domain]; [discriminate|].
  intros H. apply andb_true_iff in H as [H0 Hr]. rewrite forallb_forall in Hr.
  exact (rendered_split cmdline_arg a0 a0 rest (bare_renders a0 H0) (fun a Ha => cmdline_arg_renders a (Hr a Ha)) []).
Qed.

Lemma task_cmdline_is_render : forall fm e fields vals app argv,
  task_argv fm e fields vals app = Good argv ->
  task_cmdline fm e fields vals app = Good (cmdline_render argv).
Proof. intros. unfold task_cmdline. rewrite H. reflexivity. Qed.

Definition L := la_of.
Theorem cmdline_refuted : ~ C24_statement.
Proof.
  intros H.
  specialize (H Functional (EList [L "echo"; L "it's"]) [] [] (AppList [])
                [L "echo"; L "it's"] (L "echo it's") eq_refl eq_refl).
  vm_compute in H. discriminate H.
Qed.

(* a second witness of a different kind: no error, but a different vector (the double quotes around x are eaten) *)
Example cmdline_refuted_silent :
  split_la (cmdline_render [L "echo"; L "say ""hi"""; L """x"""]) = Ok [L "echo"; L "say ""hi"""; L "x"].
Proof. vm_compute. reflexivity. Qed.
