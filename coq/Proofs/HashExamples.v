(* Proofs/HashExamples.v — the hypotheses of the C08 theorems and of the C07 session theorem
   (HashOrderDeep.checksum_session_independent) are satisfiable on non-trivial values; the PathLike-key witness is a
   genuine failure of discrimination (same digest, different values, no collision); a checksum that depends on the
   hash seed (incomparable frozensets). *)
From Pydra Require Import Base.Prelude Model.Hash Spec.Hash Proofs.HashCtx Proofs.HashInj Proofs.HashOrder
     Proofs.HashDom Proofs.HashRefuted Proofs.HashTask.
Local Open Scope list_scope.
Local Open Scope string_scope.

(* {"k": [1, (2.5, b"x")], "s": {3, 4}} with an object inside *)
Definition ex_val : pyval :=
  VDict 1 [(VStr "k", VList 2 [VInt 1; VTuple 3 [VFloat (hx "0000000000000440"); VBytes "x"]]);
           (VStr "s", VSet 4 [VInt 3; VInt 4]);
           (VInt 7, VObj 5 "vmod.Pa" [("a", VNone); ("b", VPath "pathlib.PosixPath" "/x");
                                      ("arr", VNd 6 "numpyndarray" "float64" [2; 3] (hx "000000000000f03f0000000000000040"))])].

Example ex_inj_dom : inj_dom ex_val.
Proof. apply (inj_domb_sound 5). vm_compute. reflexivity. Qed.

Definition ex_val2 : pyval :=
  VDict 1 [(VStr "k", VList 2 [VInt 1; VTuple 3 [VFloat (hx "0000000000000440"); VBytes "x"]]);
           (VStr "s", VSet 4 [VInt 3; VInt 4]);
           (VStr "o", VObj 5 "vmod.Pa" [("a", VNone); ("b", VPath "pathlib.PosixPath" "/x")])].
Example ex_sortable : sortable ex_val2.
Proof. apply (sortableb_sound 5). vm_compute. reflexivity. Qed.

(* aliasing without a cycle: l = [1]; v = [l, l] *)
Definition ex_l : pyval := VList 1 [VInt 1].
Definition ex_v : pyval := VList 2 [ex_l; ex_l].
Definition ex_env (i : nat) : option pyval :=
  match i with 1 => Some ex_l | 2 => Some ex_v | _ => None end.

Example ex_wf : wf ex_env [] ex_v.
Proof.
  constructor; [discriminate| |].
  - intros i E. inversion E; subst. split; [reflexivity|intros []].
  - intros x [<-|[<-|[]]];
      (apply (wf_flat _ _ _ 1); [reflexivity|reflexivity|intros [E|[]]; discriminate E|discriminate|repeat constructor]).
Qed.

Example ex_hashable_acyclic : forall H, hashable_acyclic H ex_env ex_v.
Proof. intros H. split; [exact ex_wf|]. eexists. reflexivity. Qed.

(* the PathLike-key pair: different values, identical bytes, and no collision anywhere below them *)
Definition pk_a : pyval := pk_d1 (VInt 10115) (VStr "x").
Definition pk_b : pyval := pk_d2 toyH' (VInt 10115) (VStr "x").

Lemma pathkey_not_discriminated :
  ~ veq pk_a pk_b /\ (exists d, digest toyH' pk_a = Ok d /\ digest toyH' pk_b = Ok d) /\
  ~ collision toyH' (S (vdepth pk_a)) pk_a (S (vdepth pk_b)) pk_b.
Proof.
  split; [vm_compute; discriminate|]. split.
  - eexists. split; vm_compute; reflexivity.
  - apply no_collb_sound. vm_compute. reflexivity.
Qed.

(* the same set seen in two sessions: other iteration order, other identity *)
Definition ex_s1 : pyval := VSet 3 [VInt 2; VInt 1].
Definition ex_s2 : pyval := VSet 4 [VInt 1; VInt 2].
Definition ex_env1 (i : nat) : option pyval := match i with 3 => Some ex_s1 | _ => None end.
Definition ex_env2 (i : nat) : option pyval := match i with 4 => Some ex_s2 | _ => None end.

Example ex_session_hyps :
  forall H,
    Proofs.HashTask.session_variant [("x", ex_s1)] [("x", ex_s2)] /\
    (forall kv, In kv [("x", ex_s1)] -> sortable (snd kv) /\ hashable_acyclic H ex_env1 (snd kv)) /\
    (forall kv, In kv [("x", ex_s2)] -> hashable_acyclic H ex_env2 (snd kv)).
Proof.
  intros H. split; [|split].
  - constructor; [|constructor]. split; [reflexivity|]. apply ro_set. apply Permutation.perm_swap.
  - intros kv [<-|[]]. cbn [snd]. split; [apply (sortableb_sound 3); reflexivity|]. split; [|eexists; reflexivity].
    apply (wf_flat _ _ _ 3); [reflexivity|reflexivity|intros []|discriminate|repeat constructor].
  - intros kv [<-|[]]. cbn [snd]. split; [|eexists; reflexivity].
    apply (wf_flat _ _ _ 4); [reflexivity|reflexivity|intros []|discriminate|repeat constructor].
Qed.

(* a task input frozenset({frozenset({1,2}), frozenset({3,4})}) in the two iteration orders two hash seeds give *)
Lemma checksum_seed_dependent :
  session_variant [("x", po_s1)] [("x", po_s2)] /\
  checksum toyH' "python" [("x", po_s1)] <> checksum toyH' "python" [("x", po_s2)].
Proof.
  split.
  - constructor; [|constructor]. split; [reflexivity|]. apply ro_fset. apply Permutation.perm_swap.
  - vm_compute. intros E. discriminate E.
Qed.
