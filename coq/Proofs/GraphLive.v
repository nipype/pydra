(* Proofs/GraphLive.v — completeness of DiGraph.sorting: on a consistent state whose recorded
   connections among the nodes to sort are acyclic, sorting returns (it raises neither the
   "cannot be sorted" exception of repair F18 nor a KeyError / ValueError).  The constructor, add_nodes and
   add_edges keep [consistent], so every acyclic graph built like Workflow._create_graph builds it is sorted
   (built_acyclic_sorts); conversely, an order that respects the edges shows that they have no cycle (order_acyclic). *)
From Pydra Require Import Base.Prelude Model.Graph Spec.Graph
  Proofs.GraphBase Proofs.GraphSort Proofs.GraphInv Proofs.GraphEdges Proofs.ListFacts.
From Coq Require Import Sorting.Permutation.
Local Open Scope nat_scope.
Local Open Scope list_scope.

Definition lk (d : dict) (k : node) : list node := match dget d k with Some l => l | None => [] end.

Lemma cnt_lk_tab y w b : cnt y (lk w b) = tab w y b.
Proof. reflexivity. Qed.

Lemma path_sub ns ns' es es' a b :
  (forall x, In x ns' -> In x ns) -> (forall e, In e es' -> In e es) -> path ns' es' a b -> path ns es a b.
Proof.
  intros Hn He. induction 1 as [x y H1 H2 H3|x y z H1 H2 H3 _ IH]; [apply path_one; auto|eapply path_cons; eauto].
Qed.
Lemma acyclic_sub ns ns' es es' :
  (forall x, In x ns' -> In x ns) -> (forall e, In e es' -> In e es) -> acyclic ns es -> acyclic ns' es'.
Proof. intros Hn He A a P. apply (A a). eapply path_sub; eauto. Qed.

(* pigeonhole: in a finite set where every element has a predecessor, some element reaches itself *)
Section Cycle.
  Variables (ns : list node) (es : list edge).

  Lemma path_snoc a b c : path ns es a b -> In (b, c) es -> In c ns -> path ns es a c.
  Proof.
    intros P H1 H3. induction P as [a b E A B|a b d E A B _ IH]; (eapply path_cons; [exact E|exact A|exact B|]);
      [apply path_one; assumption|apply IH; assumption].
  Qed.

  (* every node has n distinct ancestors in L: those of one of its predecessors y, and y itself,
     which is new unless it reaches itself *)
  Lemma ancestors (L : list node) :
    (forall x, In x L -> exists y, In y L /\ In (y, x) es /\ In y ns /\ In x ns) ->
    forall n x, In x L ->
      ~ acyclic ns es \/
      exists c, NoDup c /\ List.length c = n /\ forall z, In z c -> In z L /\ path ns es z x.
  Proof.
    intros Hpred. induction n as [|n IH]; intros x Hx.
    - right. exists []. split; [constructor|]. split; [reflexivity|intros z []].
    - destruct (Hpred x Hx) as [y [Hy [E [Ay Bx]]]]. destruct (IH y Hy) as [C|[c [Nc [Lc Hc]]]]; [left; exact C|].
      destruct (in_dec Nat.eq_dec y c) as [Hi|Hi]; [left; intros A; apply (A y), Hc, Hi|].
      right. exists (y :: c). split; [constructor; assumption|]. split; [cbn; lia|].
      intros z [<-|Hz]; [split; [exact Hy|apply path_one; assumption]|].
      destruct (Hc z Hz) as [Hz1 Hz2]. split; [exact Hz1|apply (path_snoc z y x); assumption].
  Qed.

  Lemma no_source_cycle (L : list node) :
    L <> [] -> (forall x, In x L -> exists y, In y L /\ In (y, x) es /\ In y ns /\ In x ns) -> ~ acyclic ns es.
  Proof.
    intros Hne Hpred. destruct L as [|x0 L0] eqn:E; [congruence|]. rewrite <- E in *.
    destruct (ancestors L Hpred (S (List.length L)) x0) as [C|[c [Nc [Lc Hc]]]]; [subst L; now left|exact C|].
    assert (List.length c <= List.length L) by (apply NoDup_incl_length; [exact Nc|intros z Hz; apply Hc, Hz]). lia.
  Qed.
End Cycle.

Lemma sort_pass_ok w ns :
  (forall n, In n ns -> In n (dkeys w)) -> exists part rem, sort_pass w ns = Ok (part, rem).
Proof.
  induction ns as [|n ns IH]; intros Hk.
  - exists [], []. reflexivity.
  - cbn [sort_pass]. destruct (proj2 (dget_In_keys w n) (Hk n (or_introl eq_refl))) as [p Hg]. rewrite Hg.
    destruct IH as [pa [re Hr]]; [intros m Hm; apply Hk; right; exact Hm|].
    rewrite Hr. cbn [bind fst snd]. destruct p; eexists; eexists; reflexivity.
Qed.

Lemma nodup_app_l (l r : list node) : NoDup (l ++ r) -> NoDup l.
Proof. apply NoDup_app_l. Qed.

Section Complete.
  Variables (pd sd : dict) (es : list edge) (wip ns0 : list node).
  Hypothesis K_S : forall x, In x (wip ++ ns0) -> In x (dkeys sd).
  Hypothesis K_P : forall x, In x ns0 -> In x (dkeys pd).
  Hypothesis T_P : forall a b, tab pd a b = ecnt (a, b) es.
  Hypothesis T_S : forall a b, tab sd b a = ecnt (a, b) es.
  Hypothesis Closed : forall a b, In (a, b) es -> In b ns0 -> In a (wip ++ ns0).
  Hypothesis ND : NoDup (wip ++ ns0).
  Hypothesis Acyc : acyclic ns0 es.

  (* [X]: the nodes released, [R]: those that remain.  With the rows of both untouched in the table of [w] and the
     columns of [w] at the keys in [R] mentioning nodes of [X] and [R] only, the release returns, the rows of [R] are
     still untouched and the columns at [R] mention [R] only. *)
  Lemma release_rows X R w :
    NoDup (X ++ R) -> (forall a, In a X -> In a (dkeys sd)) -> dkeys w = dkeys pd ->
    (forall a b, In a (X ++ R) -> tab w a b = tab pd a b) ->
    (forall b y, In b R -> tab w y b > 0 -> In y (X ++ R)) ->
    exists w', release sd X w = Ok w' /\ dkeys w' = dkeys pd /\
      (forall a b, In a R -> tab w' a b = tab pd a b) /\ (forall b y, In b R -> tab w' y b > 0 -> In y R).
  Proof.
    intros N KX K I1 I2. pose proof (release_tab sd X w) as T.
    (* a node of X is released once, and its row in w is its column in successors; no other node is released *)
    assert (O : forall y b, (In y X /\ occ y X * tab sd b y = tab w y b) \/ (~ In y X /\ occ y X = 0)).
    { intros y b. destruct (in_dec Nat.eq_dec y X) as [H|H]; [left|right]; (split; [exact H|]).
      - unfold occ at 1. rewrite (proj1 (NoDup_count_occ' Nat.eq_dec X) (nodup_app_l _ _ N) y H).
        rewrite I1, T_P, T_S by (apply in_or_app; auto). lia.
      - apply count_occ_not_In, H. }
    destruct (release sd X w) as [w'|e].
    - destruct T as [K' E]. exists w'. split; [reflexivity|]. split; [congruence|]. split.
      + intros a b Ha. specialize (E a b). destruct (O a b) as [[Hx _]|[_ Ho]]; [exfalso; eapply NoDup_app_disj; eauto|].
        rewrite Ho in E. rewrite <- I1 by (apply in_or_app; auto). lia.
      + intros b y Hb Hy. specialize (E y b). destruct (O y b) as [[_ Ho]|[Hx Ho]]; [lia|]. rewrite Ho in E.
        assert (Hw : tab w y b > 0) by lia. destruct (in_app_or _ _ _ (I2 b y Hb Hw)); [contradiction|assumption].
    - exfalso. apply T. split; [exact KX|]. intros y b. destruct (O y b) as [[_ Ho]|[_ Ho]]; rewrite Ho; lia.
  Qed.

  (* [ns]: the nodes still to sort *)
  Lemma loop_complete : forall fuel acc ns w,
    List.length ns <= fuel -> NoDup ns -> (forall x, In x ns -> In x ns0) -> dkeys w = dkeys pd ->
    (forall a b, In a ns -> tab w a b = tab pd a b) ->
    (forall b y, In b ns -> tab w y b > 0 -> In y ns) ->
    exists l, sort_loop fuel sd acc ns w = Ok l.
  Proof.
    induction fuel as [|fuel IH]; intros acc ns w Hlen Hnd Hsub Hkeys I1 I2.
    - destruct ns; [exists acc; reflexivity|cbn in Hlen; lia].
    - destruct ns as [|n0 ns1]; [exists acc; reflexivity|].
      cbn [sort_loop]. set (ns := n0 :: ns1) in *.
      destruct (sort_pass_ok w ns) as [part [rem Hpass]].
      { intros n Hn. rewrite Hkeys. apply K_P, Hsub, Hn. }
      rewrite Hpass. cbn [bind fst snd].
      destruct (sort_pass_spec w ns part rem Hpass) as [Hperm [Hpa [Hre Hl]]].
      assert (Hin : forall x, In x ns <-> In x (part ++ rem)).
      { intros x. split; intros H; (eapply Permutation_in; [|exact H]); [symmetry|]; exact Hperm. }
      destruct part as [|p0 part0] eqn:Epart.
      { (* a pass that sorts nothing: every node waits for another one, so some node waits for itself *)
        exfalso. apply (no_source_cycle ns0 es ns); [subst ns; discriminate| |exact Acyc].
        intros x Hx. destruct (Hre x) as [y [p Hy]]; [apply Hin, Hx|].
        assert (Hyw : tab w y x > 0) by (apply tab_pos; exists (y :: p); split; [exact Hy|now left]).
        pose proof (I2 x y Hx Hyw) as Hyn. exists y. split; [exact Hyn|].
        split; [|split; [apply Hsub, Hyn|apply Hsub, Hx]]. apply ecnt_pos_In. rewrite <- T_P, <- (I1 y x Hyn). exact Hyw. }
      rewrite <- Epart in *.
      destruct (release_rows part rem w) as [w' [Hrel [Hk' [I1' I2']]]].
      { eapply Permutation_NoDup; [symmetry; exact Hperm|exact Hnd]. }
      { intros a Ha. apply K_S, in_or_app. right. apply Hsub, Hin, in_or_app. auto. }
      { exact Hkeys. }
      { intros a b Ha. apply I1, Hin, Ha. }
      { intros b y Hb Hy. apply Hin, (I2 b y); [apply Hin, in_or_app; auto|exact Hy]. }
      rewrite Hrel. cbn [bind]. apply (IH (acc ++ part) rem w'); [| | |exact Hk'|exact I1'|exact I2'].
      + subst part. cbn in Hl. subst ns. cbn in Hlen, Hl. lia.
      + eapply NoDup_app_r, Permutation_NoDup; [symmetry; exact Hperm|exact Hnd].
      + intros x Hx. apply Hsub, Hin, in_or_app. auto.
  Qed.

  (* the order in which the nodes are given (presorted or not) does not matter *)
  Lemma sort_complete ns : Permutation ns ns0 ->
    exists l, (w0 <- release sd wip pd ;; sort_loop (List.length ns) sd [] ns w0) = Ok l.
  Proof.
    intros P. destruct (release_rows wip ns0 pd) as [w0 [Hrel [Hk [I1 I2]]]]; [exact ND| |reflexivity|reflexivity| |].
    - intros a Ha. apply K_S, in_or_app. auto.
    - intros b y Hb Hy. rewrite T_P in Hy. apply ecnt_pos_In in Hy. exact (Closed y b Hy Hb).
    - rewrite Hrel. cbn [bind]. apply (loop_complete _ [] ns w0); auto.
      + eapply Permutation_NoDup; [symmetry; exact P|eapply NoDup_app_r; eauto].
      + intros x. apply Permutation_in, P.
      + intros a b Ha. apply I1. eapply Permutation_in; eauto.
      + intros b y Hb Hy. eapply Permutation_in; [symmetry; exact P|].
        apply (I2 b y); [eapply Permutation_in; eauto|exact Hy].
  Qed.
End Complete.

Definition scounts_ok (sd : dict) (es : list edge) : Prop :=
  forall a sl, dget sd a = Some sl -> forall b, cnt b sl = ecnt (a, b) es.

Definition consistent (g : graph) : Prop :=
  NoDup (g_wip g ++ g_nodes g) /\
  (forall x, In x (g_wip g ++ g_nodes g) -> In x (dkeys (g_succs g))) /\
  (forall x, In x (g_nodes g) -> In x (dkeys (g_preds g))) /\
  counts_ok (g_preds g) (g_edges g) /\ scounts_ok (g_succs g) (g_edges g) /\
  (forall a b, In (a, b) (g_edges g) -> In a (dkeys (g_succs g)) /\ In b (dkeys (g_preds g))) /\
  (forall a b, In (a, b) (g_edges g) -> In b (g_nodes g) -> In a (g_wip g ++ g_nodes g)).

(* with every endpoint of an edge among the keys, a missing entry counts like an empty one *)
Lemma consistent_tab g : consistent g ->
  forall a b, tab (g_preds g) a b = ecnt (a, b) (g_edges g) /\ tab (g_succs g) b a = ecnt (a, b) (g_edges g).
Proof.
  intros [_ [_ [_ [CP [CS [KE _]]]]]] a b. unfold tab, plist. split.
  - destruct (dget (g_preds g) b) as [pl|] eqn:E; [apply CP, E|]. symmetry. apply count_occ_not_In. intros Hin.
    apply dget_None_keys in E. apply E, (KE a b Hin).
  - destruct (dget (g_succs g) a) as [sl|] eqn:E; [apply CS, E|]. symmetry. apply count_occ_not_In. intros Hin.
    apply dget_None_keys in E. apply E, (KE a b Hin).
Qed.

Lemma scounts_ok_tab sd es : (forall a b, tab sd b a = ecnt (a, b) es) -> scounts_ok sd es.
Proof. intros H a sl Ha b. rewrite <- H. symmetry. apply tab_get, Ha. Qed.

Lemma consistent_rest_ok g : consistent g -> rest_ok g.
Proof.
  intros [ND [_ [KP [CP _]]]]. split; [exact KP|]. split; [|exact CP].
  intros x Hw Hn. eapply NoDup_app_disj; eauto.
Qed.

Theorem consistent_sorting_ok g pres :
  consistent g -> (pres = [] \/ Permutation pres (g_nodes g)) -> acyclic (g_nodes g) (g_edges g) ->
  exists g', sorting g pres = Ok g'.
Proof.
  intros Hc Hp Hac. unfold sorting.
  pose proof (consistent_tab g Hc) as L. destruct Hc as [ND [KS [KP [_ [_ [_ CL]]]]]].
  destruct (sort_complete (g_preds g) (g_succs g) (g_edges g) (g_wip g) (g_nodes g) KS KP
              (fun a b => proj1 (L a b)) (fun a b => proj2 (L a b)) CL ND Hac
              (if nonempty pres then pres else g_nodes g)) as [l Hl].
  - destruct Hp as [->|Hp]; [reflexivity|apply nonempty_perm, Hp].
  - apply bind_ok in Hl. destruct Hl as [w0 [H0 H1]]. rewrite H0. cbn [bind]. rewrite H1. cbn [bind]. eauto.
Qed.

(* the loop of connect_all over successors is its loop over predecessors on the swapped edges, so every fact
   about the predecessors side is one about the successors side *)
Definition swap (e : edge) : edge := (snd e, fst e).

Lemma ecnt_swap a b es : ecnt (b, a) (map swap es) = ecnt (a, b) es.
Proof. symmetry. apply (count_occ_map swap edge_dec edge_dec). intros [x y] [x' y'] E. inversion E; reflexivity. Qed.

Lemma scounts_swap sd es : scounts_ok sd es <-> counts_ok sd (map swap es).
Proof. split; intros H a sl Ha b; [rewrite ecnt_swap|rewrite <- ecnt_swap]; apply (H a sl Ha). Qed.

Lemma scounts_ok_connect_all new pd sd ps es :
  connect_all new pd sd = Ok ps -> scounts_ok sd es -> scounts_ok (snd ps) (es ++ new).
Proof.
  intros H Hc. apply scounts_swap. rewrite map_app. apply scounts_swap in Hc. revert Hc.
  apply counts_ok_append_all. rewrite <- (foldM_map (fun d e => dappend d (snd e) (fst e)) swap).
  exact (proj2 (connect_all_split _ _ _ _ H)).
Qed.

Lemma init_consistent ns es g : init ns es = Ok g -> consistent g.
Proof.
  intros H. destruct (init_frame _ _ _ H) as [Hd [Hin [ps [Hc ->]]]].
  destruct (connect_all_dkeys _ _ _ _ Hc) as [KP KS]. rewrite dkeys_empty in KP, KS.
  unfold consistent. cbn [g_nodes g_edges g_preds g_succs g_wip app]. rewrite KP, KS. repeat apply conj; auto.
  - apply (counts_ok_connect_all _ _ _ _ [] Hc), counts_ok_empty.
  - apply (scounts_ok_connect_all _ _ _ _ [] Hc), scounts_swap, counts_ok_empty.
  - intros a b Hab _. exact (proj1 (Hin a b Hab)).
Qed.

Lemma consistent_set_sorted g o : consistent g -> consistent (set_sorted g o).
Proof. exact (fun H => H). Qed.

Lemma add_nodes_consistent g new g' :
  consistent g -> new_keys_ok g new = true -> add_nodes g new = Ok g' -> consistent g'.
Proof.
  intros [ND [KS [KP [CP [CS [KE CL]]]]]] Hf H. destruct (add_nodes_frame _ _ _ H) as [Hd [o ->]].
  unfold new_keys_ok in Hf. rewrite forallb_forall in Hf.
  assert (Hnk : forall n, In n new -> ~ In n (dkeys (g_preds g)) /\ ~ In n (dkeys (g_succs g))).
  { intros n Hn. specialize (Hf n Hn). apply andb_true_iff in Hf. destruct Hf as [H1 H2].
    apply negb_true_iff in H1, H2. apply memb_false in H1, H2. auto. }
  unfold consistent; cbn. repeat apply conj.
  - rewrite app_assoc. apply NoDup_app_intro.
    + exact ND.
    + eapply NoDup_app_r; eauto.
    + intros x Hx Hn. apply (proj2 (Hnk x Hn)). apply KS, Hx.
  - intros x Hx. apply dkeys_fold_dset. rewrite app_assoc in Hx. apply in_app_or in Hx.
    destruct Hx as [Hx|Hx]; [right; apply KS, Hx|left; exact Hx].
  - intros x Hx. apply dkeys_fold_dset. apply in_app_or in Hx.
    destruct Hx as [Hx|Hx]; [right; apply KP, Hx|left; exact Hx].
  - apply counts_ok_fold_dset; [exact CP|]. intros a b Hb Hin. exact (proj1 (Hnk b Hb) (proj2 (KE a b Hin))).
  - apply scounts_swap, counts_ok_fold_dset; [apply scounts_swap, CS|]. intros b a Ha Hin.
    apply in_map_iff in Hin. destruct Hin as [[x y] [E Hin]]. inversion E; subst x y.
    exact (proj2 (Hnk a Ha) (proj1 (KE a b Hin))).
  - intros a b Hab. split; apply dkeys_fold_dset; right; apply (KE a b Hab).
  - intros a b Hin Hb. rewrite app_assoc. apply in_or_app. apply in_app_or in Hb.
    destruct Hb as [Hb|Hb]; [left; apply (CL a b Hin Hb)|].
    exfalso. apply (proj1 (Hnk b Hb)). exact (proj2 (KE a b Hin)).
Qed.

Lemma add_edges_consistent g new g' : consistent g -> add_edges g new = Ok g' -> consistent g'.
Proof.
  intros [ND [KS [KP [CP [CS [KE CL]]]]]] H. destruct (add_edges_frame _ _ _ H) as [Hin [ps [o [Hca ->]]]].
  destruct (connect_all_dkeys _ _ _ _ Hca) as [EP ES].
  unfold consistent. cbn [g_nodes g_edges g_preds g_succs g_wip]. rewrite EP, ES. repeat apply conj.
  - exact ND.
  - exact KS.
  - exact KP.
  - eapply counts_ok_connect_all; eauto.
  - eapply scounts_ok_connect_all; eauto.
  - intros a b Hab. split; [apply KS, in_or_app; right|apply KP]; apply (Hin a b Hab).
  - intros a b Hab _. apply in_or_app. right. exact (proj1 (Hin a b Hab)).
Qed.

Lemma step_build_consistent g o g' :
  consistent g -> build_ok g o = true -> step g o = Ok g' -> consistent g'.
Proof.
  intros Hc Hb H.
  destruct (order_op o) eqn:O; [destruct (order_only_step g o g' O H) as [s ->]; exact Hc|].
  destruct o; try discriminate Hb; try discriminate O.
  - eapply add_nodes_consistent; eauto.
  - eapply add_edges_consistent; eauto.
Qed.

Lemma run_build_consistent ops : forall g g',
  consistent g -> run_build g ops = true -> run g ops = Ok g' -> consistent g'.
Proof. revert ops. apply (run_guarded_inv run_build build_ok consistent); [reflexivity|apply step_build_consistent]. Qed.

(* A graph built like Workflow._create_graph builds it — constructor, then add_nodes / add_edges
   (and possibly sortings) — whose edges are acyclic is sorted by sorted_nodes / sorting():
   the exception of repair F18 is raised for cyclic graphs only. *)
Theorem built_acyclic_sorts ns es ops g0 g :
  init ns es = Ok g0 -> run_build g0 ops = true -> run g0 ops = Ok g ->
  acyclic (g_nodes g) (g_edges g) ->
  (exists g', sorting g [] = Ok g') /\ (exists g', step g GetSorted = Ok g').
Proof.
  intros Hi Hb Hr Hac.
  assert (Hc : consistent g) by (eapply run_build_consistent; [eapply init_consistent; eauto|exact Hb|exact Hr]).
  destruct (consistent_sorting_ok g [] Hc (or_introl eq_refl) Hac) as [g' Hs].
  split; [eauto|]. cbn. unfold sorted_nodes. destruct (g_sorted g); cbn; [eauto|]. rewrite Hs. cbn. eauto.
Qed.

Lemma order_acyclic ns es l :
  (forall a b, In (a, b) es -> In a ns -> In b ns -> pos a l < pos b l) -> acyclic ns es.
Proof.
  intros Hpos a Hp.
  assert (G : forall x y, path ns es x y -> pos x l < pos y l).
  { induction 1 as [x y H1 H2 H3|x y z H1 H2 H3 _ IH]; [auto|]. specialize (Hpos x y H1 H2 H3). lia. }
  specialize (G a a Hp). lia.
Qed.

Lemma order_acyclicb ns es l : forallb (fun e => pos (fst e) l <? pos (snd e) l) es = true -> acyclic ns es.
Proof.
  intros H. apply (order_acyclic _ _ l). intros a b Hin _ _. rewrite forallb_forall in H.
  apply Nat.ltb_lt, (H (a, b) Hin).
Qed.
