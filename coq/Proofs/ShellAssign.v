(* Proofs/ShellAssign.v — the positions define() hands out (remaining_positions): the walk on the spec-level records
   ([sassign]) is the model's [assign]; the free slots are enough, ascending, non-negative and unused, so the assigned
   positions are pairwise distinct ([assigned_NoDup]); the negative fields stay, the non-negative ones gain [implicit]. *)
From Pydra Require Import Base.Prelude Model.Shell Spec.Shell Proofs.ListFacts.
From Coq Require Import Sorting.Sorted Sorting.Permutation FinFun.
Local Open Scope list_scope.
Local Open Scope Z_scope.

Lemma NoDup_firstn {T} (n : nat) (l : list T) : NoDup l -> NoDup (firstn n l).
Proof. intros H. rewrite <- (firstn_skipn n l) in H. exact (NoDup_app_l _ _ H). Qed.

Lemma StronglySorted_firstn {T} (R : T -> T -> Prop) n l : StronglySorted R l -> StronglySorted R (firstn n l).
Proof. intros H. rewrite <- (firstn_skipn n l) in H. now apply SSorted_app in H. Qed.

Lemma filter_length_split {T} (p : T -> bool) l :
  List.length l = (List.length (filter p l) + List.length (filter (fun x => negb (p x)) l))%nat.
Proof. induction l as [|x l IH]; [reflexivity|]. cbn. destruct (p x); cbn; lia. Qed.

Lemma seq_sorted n : forall s, StronglySorted Z.le (map Z.of_nat (seq s n)).
Proof.
  induction n as [|n IH]; intros s; cbn; constructor; [apply IH|].
  rewrite Forall_forall. intros z Hz. apply in_map_iff in Hz as (k & <- & Hk). apply in_seq in Hk. lia.
Qed.

Lemma range_NoDup k : NoDup (map Z.of_nat (seq 0 k)).
Proof. apply Injective_map_NoDup; [intros a b; apply Nat2Z.inj|apply seq_NoDup]. Qed.

Definition set_spos (f : sfield) (p : Z) : sfield := mkS (sf_name f) (sf_ty f) (sf_argstr f) (Some p) (sf_sep f).
(* define()'s walk over the fields, on the spec-level records.  Where the free slots run out it leaves the remaining
   fields as they are, and [assign] fails: the two agree as long as there are enough slots ([assign_to_field]). *)
Fixpoint sassign (fs : list sfield) (free : list Z) : list sfield :=
  match fs with
  | [] => []
  | f :: r => match sf_pos f with
              | Some _ => f :: sassign r free
              | None => match free with p :: free' => set_spos f p :: sassign r free' | [] => f :: sassign r [] end
              end
  end.
Definition implicit (fs : list sfield) (free : list Z) : list sfield := sassign (filter pos_none fs) free.

Lemma to_field_set_spos f p : to_field (set_spos f p) = set_pos (to_field f) p.
Proof. reflexivity. Qed.

(* define() changes positions and nothing else *)
Lemma sassign_map {T} (h : sfield -> T) : (forall f p, h (set_spos f p) = h f) ->
  forall fs free, map h (sassign fs free) = map h fs.
Proof.
  intros Hh. induction fs as [|f fs IH]; intros free; [reflexivity|]. cbn [sassign].
  destruct (sf_pos f); [|destruct free]; cbn [map]; now rewrite ?Hh, IH.
Qed.

(* induction along define()'s walk when the free list does not run out *)
Lemma sassign_ind (P : list sfield -> list Z -> Prop) :
  (forall free, P [] free) ->
  (forall f p fs free, sf_pos f = Some p -> P fs free -> P (f :: fs) free) ->
  (forall f q fs free, sf_pos f = None -> P fs free -> P (f :: fs) (q :: free)) ->
  forall fs free, (List.length (filter pos_none fs) <= List.length free)%nat -> P fs free.
Proof.
  intros H0 H1 H2. induction fs as [|f fs IH]; intros free Hl; [apply H0|]. cbn [filter] in Hl. unfold pos_none at 1 in Hl.
  destruct (sf_pos f) as [p|] eqn:E; [exact (H1 f p fs free E (IH free Hl))|].
  destruct free as [|q free]; cbn [List.length] in Hl; [lia|]. apply (H2 f q fs free E), IH. lia.
Qed.

Lemma assign_to_field : forall fs free,
  (List.length (filter pos_none fs) <= List.length free)%nat ->
  assign (map to_field fs) free = Good (map to_field (sassign fs free)).
Proof.
  apply sassign_ind; [reflexivity| |]; intros f q fs free E IH; cbn [map assign sassign];
    cbn [to_field f_pos]; now rewrite E, IH.
Qed.

Lemma sassign_filter_neg : forall fs free, Forall (fun q => 0 <= q) free ->
  filter pos_neg (sassign fs free) = filter pos_neg fs.
Proof.
  induction fs as [|f fs IH]; intros free H; [reflexivity|].
  cbn [sassign]. destruct (sf_pos f) as [p|] eqn:E.
  - cbn [filter]. rewrite IH by exact H. reflexivity.
  - destruct free as [|q free].
    + cbn [filter]. rewrite IH by constructor. reflexivity.
    + inversion H; subst. assert (Hf : pos_neg f = false) by (unfold pos_neg; now rewrite E).
      cbn [filter pos_neg set_spos sf_pos]. rewrite Hf. replace (q <? 0) with false by lia. now apply IH.
Qed.

Lemma sassign_filter_nonneg : forall fs free,
  (List.length (filter pos_none fs) <= List.length free)%nat -> Forall (fun q => 0 <= q) free ->
  Permutation (filter pos_nonneg (sassign fs free)) (filter pos_nonneg fs ++ implicit fs free).
Proof.
  unfold implicit. intros fs free Hl. pattern fs, free. revert fs free Hl.
  apply sassign_ind; [reflexivity| |]; intros f q fs free E IH H; cbn [sassign filter]; unfold pos_none at 1; rewrite E; cbn [filter sassign].
  - destruct (pos_nonneg f); [apply perm_skip|]; now apply IH.
  - inversion H; subst. assert (Hf : pos_nonneg f = false) by (unfold pos_nonneg; now rewrite E).
    rewrite E. cbn [pos_nonneg set_spos sf_pos]. rewrite Hf. replace (0 <=? q) with true by lia.
    rewrite IH by assumption. apply Permutation_middle.
Qed.

Lemma implicit_keys : forall fs free, (List.length (filter pos_none fs) <= List.length free)%nat ->
  map posz (implicit fs free) = firstn (List.length (filter pos_none fs)) free.
Proof.
  unfold implicit. apply sassign_ind; [reflexivity| |]; intros f q fs free E IH; cbn [filter].
  - replace (pos_none f) with false by (unfold pos_none; now rewrite E). exact IH.
  - replace (pos_none f) with true by (unfold pos_none; now rewrite E). cbn [sassign]. rewrite E. cbn. now rewrite IH.
Qed.

Lemma zmem_In x l : zmem x l = true <-> In x l.
Proof. exact (existsb_eqb_In Z.eqb Z.eqb_eq x l). Qed.
Lemma has_dup_NoDup l : has_dup l = false -> NoDup l.
Proof. apply (has_dup_of_false Z.eqb Z.eqb_eq). Qed.

Lemma free_slots_nonneg fields : Forall (fun q => 0 <= q) (free_slots fields).
Proof.
  apply Forall_forall. intros q Hq. apply filter_In in Hq as [Hq _].
  apply in_map_iff in Hq as (k & <- & _). lia.
Qed.

Lemma free_slots_unused fields q : In q (free_slots fields) -> ~ In q (used_slots fields).
Proof.
  intros Hq Hu. apply filter_In in Hq as [_ Hq]. apply negb_true_iff in Hq.
  apply zmem_In in Hu. congruence.
Qed.

Lemma free_slots_sorted fields : StronglySorted Z.le (free_slots fields).
Proof. apply StronglySorted_filter, seq_sorted. Qed.

Lemma positioned_count fs :
  (List.length (used_slots (map to_field fs)) + List.length (filter pos_none fs) = S (List.length fs))%nat.
Proof.
  unfold used_slots. generalize (num_args (map to_field fs)) as n. intros n. cbn [List.length plus]. f_equal.
  induction fs as [|f fs IH]; [reflexivity|]. cbn [filter map flat_map List.length to_field f_pos]. unfold pos_none at 1.
  destruct (sf_pos f); cbn [List.length app]; lia.
Qed.

(* the slots of 0..n that are not free are among the used ones, and there are n + 1 slots for n fields *)
Lemma enough_free fs :
  (List.length (filter pos_none fs) <= List.length (free_slots (map to_field fs)))%nat.
Proof.
  unfold free_slots. set (used := used_slots (map to_field fs)). set (rng := map Z.of_nat (seq 0 _)).
  assert (Hu : (List.length (filter (fun i => zmem i used) rng) <= List.length used)%nat).
  { apply NoDup_incl_length.
    - apply NoDup_filter, range_NoDup.
    - intros i Hi. apply filter_In in Hi as [_ Hi]. now apply zmem_In. }
  pose proof (filter_length_split (fun i => zmem i used) rng) as Hs. unfold rng in Hs at 1.
  rewrite !map_length, seq_length in Hs. pose proof (positioned_count fs) as Hc. fold used in Hc. lia.
Qed.

Lemma define_sassign fs : has_dup (used_slots (map to_field fs)) = false ->
  define Functional (map to_field fs) = Good (map to_field (sassign fs (free_slots (map to_field fs)))).
Proof. intros Hd. unfold define. rewrite Hd. apply assign_to_field, enough_free. Qed.

(* the flat_map is [used_slots] without its leading 0, so that assigned_NoDup can fold it back *)
Lemma slots_perm n : forall fs free,
  (List.length (filter pos_none fs) <= List.length free)%nat -> Forall (fun q => 0 <= q) free ->
  Permutation (map (fun f => slot n (posz f)) (sassign fs free))
              (flat_map (fun f => match f_pos f with Some p => [slot n p] | None => [] end) (map to_field fs)
               ++ firstn (List.length (filter pos_none fs)) free).
Proof.
  intros fs free Hl. pattern fs, free. revert fs free Hl.
  apply sassign_ind; [reflexivity| |]; intros f q fs free E IH Hf; cbn [sassign map flat_map filter to_field f_pos]; unfold pos_none at 1; rewrite E.
  - cbn [map app]. unfold posz at 1. rewrite E. constructor. now apply IH.
  - inversion Hf; subst. cbn [map app firstn List.length]. rewrite IH by assumption.
    change (posz (set_spos f q)) with q. unfold slot at 1. replace (q <? 0) with false by lia. apply Permutation_middle.
Qed.

Theorem assigned_NoDup : forall fs,
  has_dup (used_slots (map to_field fs)) = false ->
  NoDup (0 :: map posz (sassign fs (free_slots (map to_field fs)))).
Proof.
  intros fs Hd. set (fields := map to_field fs). set (n := num_args fields).
  (* distinct slots give distinct positions; the slots are the used ones, which define() has checked, and a prefix of
     the free ones *)
  apply (NoDup_map_inv (slot n)). cbn [map]. change (slot n 0) with 0. rewrite map_map.
  rewrite (slots_perm n fs (free_slots fields) (enough_free fs) (free_slots_nonneg fields)), app_comm_cons.
  change (0 :: flat_map _ (map to_field fs)) with (used_slots fields).
  apply NoDup_app_intro; [apply has_dup_NoDup, Hd|apply NoDup_firstn, NoDup_filter, range_NoDup|].
  intros u Hu Hq. apply firstn_In in Hq. exact (free_slots_unused fields u Hq Hu).
Qed.
