(* Proofs/HashInjStr.v — string-level facts behind C08_ser_injective: what each bytes_repr format allows one
   to read back.  Length-prefixed str/bytes, decimal long, fixed-width int (pack_q), fixed-width (16 byte) child
   digests, the repr of a shape tuple; nocolon / has_dot / starts are the conditions on class names that
   HashInj.inj_dom asks for. *)
From Coq Require Import DecimalNat DecimalZ DecimalString.
From Pydra Require Import Base.Prelude Model.Hash.
Local Open Scope list_scope.
Local Open Scope string_scope.

Lemma sapp_nil_r : forall a : string, a ++ "" = a.
Proof. induction a as [|x a IH]; cbn; [reflexivity|now rewrite IH]. Qed.

Lemma sapp_len_inj : forall a a' b b', String.length a = String.length a' -> a ++ b = a' ++ b' -> a = a' /\ b = b'.
Proof.
  induction a as [|c a IH]; intros [|c' a'] b b' Hl E; cbn in *; try discriminate; [auto|].
  inversion E; subst. destruct (IH a' b b') as [-> ->]; auto.
Qed.

Lemma sapp_inv_head : forall a b b' : string, a ++ b = a ++ b' -> b = b'.
Proof. intros a b b' E. now destruct (sapp_len_inj a a b b' eq_refl E). Qed.

Lemma sapp_suffix_inj : forall a a' b b' : string,
    String.length b = String.length b' -> a ++ b = a' ++ b' -> a = a' /\ b = b'.
Proof.
  intros a a' b b' Hl E. apply sapp_len_inj; auto.
  apply (f_equal String.length) in E. rewrite !length_append in E. lia.
Qed.

Lemma sapp_inv_tail : forall a a' b : string, a ++ b = a' ++ b -> a = a'.
Proof. intros a a' b E. now destruct (sapp_suffix_inj a a' b b eq_refl E). Qed.

Fixpoint nocolon (s : string) : bool :=
  match s with EmptyString => true | String c r => negb (Ascii.eqb c ":") && nocolon r end.
Fixpoint has_dot (s : string) : bool :=
  match s with EmptyString => false | String c r => Ascii.eqb c "." || has_dot r end.
Fixpoint starts (p s : string) : bool :=
  match p with
  | EmptyString => true
  | String a p' => match s with EmptyString => false | String b s' => Ascii.eqb a b && starts p' s' end
  end.
Fixpoint before (s : string) : string :=
  match s with EmptyString => "" | String c r => if Ascii.eqb c ":" then "" else String c (before r) end.
Fixpoint after (s : string) : option string :=
  match s with EmptyString => None | String c r => if Ascii.eqb c ":" then Some r else after r end.

Lemma before_app : forall a b, nocolon a = true -> before (a ++ String ":" b) = a.
Proof.
  induction a as [|c a IH]; intros b Hn; cbn in *; [reflexivity|].
  apply andb_true_iff in Hn. destruct Hn as [Hc Hn]. apply negb_true_iff in Hc. rewrite Hc. now rewrite IH.
Qed.
Lemma after_app : forall a b, nocolon a = true -> after (a ++ String ":" b) = Some b.
Proof.
  induction a as [|c a IH]; intros b Hn; cbn in *; [reflexivity|].
  apply andb_true_iff in Hn. destruct Hn as [Hc Hn]. apply negb_true_iff in Hc. rewrite Hc. now rewrite IH.
Qed.
Lemma colon_split_inj : forall a a' b b', nocolon a = true -> nocolon a' = true ->
    a ++ String ":" b = a' ++ String ":" b' -> a = a' /\ b = b'.
Proof.
  intros a a' b b' Ha Ha' E. split.
  - rewrite <- (before_app a b Ha), <- (before_app a' b' Ha'). now rewrite E.
  - assert (Some b = Some b') by (rewrite <- (after_app a b Ha), <- (after_app a' b' Ha'); now rewrite E). congruence.
Qed.
Lemma after_nocolon : forall s, nocolon s = true -> after s = None.
Proof.
  induction s as [|c s IH]; cbn; intros Hn; [reflexivity|].
  apply andb_true_iff in Hn. destruct Hn as [Hc Hn]. apply negb_true_iff in Hc. rewrite Hc. auto.
Qed.

Lemma dec_nat_nocolon : forall n, nocolon (dec_nat n) = true.
Proof. intros n. unfold dec_nat. induction (Nat.to_uint n); cbn; auto. Qed.
Lemma dec_nat_inj : forall n m, dec_nat n = dec_nat m -> n = m.
Proof.
  intros n m E. unfold dec_nat in E.
  assert (E2 : Some (Nat.to_uint n) = Some (Nat.to_uint m)) by (rewrite <- !NilEmpty.usu; now rewrite E).
  inversion E2 as [E3]. rewrite <- (DecimalNat.Unsigned.of_to n), <- (DecimalNat.Unsigned.of_to m). now rewrite E3.
Qed.
Lemma dec_Z_inj : forall a b, dec_Z a = dec_Z b -> a = b.
Proof.
  intros a b E. unfold dec_Z in E.
  assert (E2 : Some (Z.to_int a) = Some (Z.to_int b)) by (rewrite <- !NilEmpty.isi; now rewrite E).
  inversion E2 as [E3]. rewrite <- (DecimalZ.of_to a), <- (DecimalZ.of_to b). now rewrite E3.
Qed.

(* "<n>:<n bytes>" is self-delimiting *)
Lemma lenpref_inj : forall s s' x y,
    dec_nat (String.length s) ++ String ":" (s ++ x) = dec_nat (String.length s') ++ String ":" (s' ++ y) ->
    s = s' /\ x = y.
Proof.
  intros s s' x y E. apply colon_split_inj in E; try apply dec_nat_nocolon.
  destruct E as [En E]. apply dec_nat_inj in En. now apply sapp_len_inj.
Qed.

Lemma le_bytes_len : forall n u, String.length (le_bytes n u) = n.
Proof. induction n; intros; cbn; auto. Qed.

Lemma le_val_le_bytes : forall n u, le_val (le_bytes n u) = (u mod 256 ^ Z.of_nat n)%Z.
Proof.
  induction n as [|n IH]; intros u.
  - cbn. now rewrite Z.mod_1_r.
  - assert (Hb : (0 <= u mod 256 < 256)%Z) by (apply Z.mod_pos_bound; lia).
    assert (Hp : (0 < 256 ^ Z.of_nat n)%Z) by (apply Z.pow_pos_nonneg; lia).
    cbn [le_bytes le_val]. unfold nat_of_ascii. rewrite IH, N_ascii_embedding, N_nat_Z, Z2N.id by lia.
    rewrite Nat2Z.inj_succ, Z.pow_succ_r, Z.rem_mul_r by lia. reflexivity.
Qed.

Lemma pack_q_len : forall z, String.length (pack_q z) = 8.
Proof. intros. apply le_bytes_len. Qed.

Lemma pack_q_inj : forall a b, fits_q a = true -> fits_q b = true -> pack_q a = pack_q b -> a = b.
Proof.
  intros a b Ha Hb E. unfold pack_q in E. apply (f_equal le_val) in E. rewrite !le_val_le_bytes in E.
  change (256 ^ Z.of_nat 8)%Z with 18446744073709551616%Z in E.
  rewrite !Z.mod_mod in E by lia.
  unfold fits_q in *. apply andb_true_iff in Ha, Hb. destruct Ha as [Ha1 Ha2], Hb as [Hb1 Hb2].
  apply Z.leb_le in Ha1, Hb1. apply Z.ltb_lt in Ha2, Hb2. Z.div_mod_to_equations. lia.
Qed.

Lemma take_len : forall n s, n <= String.length s -> String.length (take n s) = n.
Proof.
  induction n as [|n IH]; intros s Hl; [reflexivity|]. destruct s as [|c s]; cbn in *; [lia|]. rewrite IH; lia.
Qed.
Lemma zeros_len : forall n, String.length (zeros n) = n.
Proof. induction n; cbn; auto. Qed.
Lemma D_len : forall H s, String.length (D H s) = 16.
Proof. intros H s. unfold D, fix16. apply take_len. rewrite length_append, zeros_len. lia. Qed.

Definition isdigit (c : ascii) : bool := let n := nat_of_ascii c in Nat.leb 48 n && Nat.leb n 57.
Fixpoint alldigit (s : string) : bool :=
  match s with EmptyString => true | String c r => isdigit c && alldigit r end.
Definition starts_nondigit (s : string) : bool :=
  match s with EmptyString => false | String c _ => negb (isdigit c) end.

Lemma dec_nat_alldigit : forall n, alldigit (dec_nat n) = true.
Proof. intros n. unfold dec_nat. induction (Nat.to_uint n); cbn; auto. Qed.

Lemma digits_then_inj : forall a b x y,
    alldigit a = true -> alldigit b = true -> starts_nondigit x = true -> starts_nondigit y = true ->
    a ++ x = b ++ y -> a = b /\ x = y.
Proof.
  induction a as [|c a IH]; intros [|d b] x y Ha Hb Hx Hy E; cbn in *.
  - auto.
  - exfalso. subst x. cbn in Hx. apply andb_true_iff in Hb. destruct Hb as [Hd _]. rewrite Hd in Hx. discriminate.
  - exfalso. subst y. cbn in Hy. apply andb_true_iff in Ha. destruct Ha as [Hc _]. rewrite Hc in Hy. discriminate.
  - injection E as -> E. apply andb_true_iff in Ha, Hb. destruct Ha as [_ Ha], Hb as [_ Hb].
    destruct (IH b x y Ha Hb Hx Hy E) as [-> ->]. auto.
Qed.

Lemma dec_nat_then_inj : forall n m x y, starts_nondigit x = true -> starts_nondigit y = true ->
    dec_nat n ++ x = dec_nat m ++ y -> n = m /\ x = y.
Proof.
  intros n m x y Hx Hy E.
  destruct (digits_then_inj _ _ _ _ (dec_nat_alldigit n) (dec_nat_alldigit m) Hx Hy E) as [En ->].
  split; [now apply dec_nat_inj|reflexivity].
Qed.

Lemma shape_tail_nondigit : forall r x, starts_nondigit (shape_tail r ++ x) = true.
Proof. intros [|? ?] x; reflexivity. Qed.

Lemma shape_tail_prefix_free : forall l l' x y, shape_tail l ++ x = shape_tail l' ++ y -> l = l' /\ x = y.
Proof.
  induction l as [|n l IH]; intros [|m l'] x y E; cbn in E; try discriminate; injection E as E; [auto|].
  rewrite !append_assoc in E.
  apply dec_nat_then_inj in E; [|apply shape_tail_nondigit..]. destruct E as [-> E].
  destruct (IH _ _ _ E) as [-> ->]. auto.
Qed.

Lemma dec_nat_head : forall n, exists c r, dec_nat n = String c r /\ isdigit c = true.
Proof.
  intros n. pose proof (dec_nat_alldigit n) as Ha. destruct (dec_nat n) as [|c r] eqn:E.
  - exfalso. unfold dec_nat in E.
    assert (E2 : Some (Nat.to_uint n) = Some Decimal.Nil) by (rewrite <- NilEmpty.usu, E; reflexivity).
    inversion E2 as [E3]. pose proof (DecimalNat.Unsigned.of_to n) as E4. rewrite E3 in E4. cbn in E4. subst n. discriminate E3.
  - cbn in Ha. apply andb_true_iff in Ha. destruct Ha as [Hc _]. eauto.
Qed.

Lemma paren_not_dec_nat : forall n x y, String ")" x <> dec_nat n ++ y.
Proof.
  intros n x y E. destruct (dec_nat_head n) as (c & r & Ed & Hc). rewrite Ed in E. injection E as <- _.
  discriminate Hc.
Qed.

(* the repr of a shape is a prefix code: the closing parenthesis ends it *)
Lemma shape_repr_prefix_free : forall l l' x y, shape_repr l ++ x = shape_repr l' ++ y -> l = l' /\ x = y.
Proof.
  intros [|n [|m l]] [|n' [|m' l']] x y E; cbn in E; injection E as E; rewrite ?append_assoc in E;
    try (exfalso; exact (paren_not_dec_nat _ _ _ E)); try (exfalso; exact (paren_not_dec_nat _ _ _ (eq_sym E))).
  - now subst.
  - apply dec_nat_then_inj in E; [|reflexivity..]. destruct E as [-> E]. injection E as ->. auto.
  - apply dec_nat_then_inj in E; [|reflexivity..]. destruct E as [_ E]. discriminate E.
  - apply dec_nat_then_inj in E; [|reflexivity..]. destruct E as [_ E]. discriminate E.
  - apply dec_nat_then_inj in E; [|reflexivity..]. destruct E as [-> E].
    destruct (shape_tail_prefix_free (m :: l) (m' :: l') _ _ E) as [El' ->]. inversion El'; subst; auto.
Qed.
