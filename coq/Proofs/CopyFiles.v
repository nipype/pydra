(* Proofs/CopyFiles.v — C33 / C34.  Collecting or staging a value is a left-to-right run of FileSet.copy calls
   over its leaves; the invariant ginv over that sequence, for any copy_one meeting copy_contract, gives
   [collected] and [staged]; within one field the memo invariant minv gives one call per distinct file, and a later
   write by the engine to a reserved name disturbs nothing that was copied (dump_frame).  With ff_copy no call
   fails: the clash counter finds a free name within 1 + |avoid| probes.  Last, evaluated examples, among them the
   per-field clash set of the unrepaired Job.inputs (job_fields_unshared) failing where the shared one stages. *)
From Pydra Require Import Base.Prelude Model.Mount Model.CopyFiles Spec.CopyFiles Proofs.ListFacts.
From Coq Require Import DecimalString DecimalNat.
Local Open Scope string_scope.
Local Open Scope list_scope.

Lemma path_eqb_spec a b : path_eqb a b = true <-> a = b.
Proof. exact (pair_eqb_ok String.eqb_eq String.eqb_eq a b). Qed.
Lemma path_eqb_refl a : path_eqb a a = true.
Proof. now apply path_eqb_spec. Qed.
Lemma path_eqb_neq a b : path_eqb a b = false <-> a <> b.
Proof. exact (eqtest_neq path_eqb path_eqb_spec a b). Qed.
Lemma fileset_eqb_spec a b : fileset_eqb a b = true <-> a = b.
Proof. exact (pair_eqb_ok String.eqb_eq path_eqb_spec a b). Qed.
Lemma mem_spec p l : mem p l = true <-> In p l.
Proof.
  induction l as [|q l IH]; cbn; [split; [discriminate|tauto]|].
  rewrite orb_true_iff, path_eqb_spec, IH. tauto.
Qed.

Lemma assoc_in {A B} (eqb : A -> A -> bool) (H : forall x y, eqb x y = true <-> x = y) k (v : B) l :
  assoc eqb k l = Some v -> In (k, v) l.
Proof.
  induction l as [|[k' v'] l IH]; cbn; [discriminate|].
  destruct (eqb k' k) eqn:E; [apply H in E; subst; intros X; inversion X; auto|auto].
Qed.
Lemma assoc_none_notin {A B} (eqb : A -> A -> bool) (H : forall x y, eqb x y = true <-> x = y) k (l : list (A * B)) :
  assoc eqb k l = None -> ~ In k (map fst l).
Proof.
  induction l as [|[k' v'] l IH]; cbn; [auto|].
  destruct (eqb k' k) eqn:E; [discriminate|]. intros N [X|X]; [|now apply IH].
  apply H in X. congruence.
Qed.

Lemma fresh_ino_fresh fs p : ino_of fs p <> Some (fresh_ino fs).
Proof.
  unfold ino_of, fresh_ino. intros E. apply (assoc_in _ path_eqb_spec), (in_map snd) in E. cbn [snd] in E.
  pose proof (proj1 (list_max_le (map snd (f_ino fs)) _) (le_n _)) as F.
  rewrite Forall_forall in F. apply F in E. lia.
Qed.

Lemma read_write fs p c q i j : ino_of fs p = Some i -> ino_of fs q = Some j ->
  read (write fs p c) q = Some (if Nat.eqb i j then c else data_of fs j).
Proof.
  intros P Q. unfold read, write, data_of. rewrite P. change (ino_of (mkfs _ _) q) with (ino_of fs q).
  rewrite Q. cbn. now destruct (Nat.eqb i j).
Qed.

Definition extends (fs fs' : fsT) (d : path) : Prop :=
  (forall p, p <> d -> ino_of fs' p = ino_of fs p)
  /\ (forall i, (exists p, ino_of fs p = Some i) -> data_of fs' i = data_of fs i).

Lemma extends_ino fs fs' d p i : extends fs fs' d -> ino_of fs d = None -> ino_of fs p = Some i -> ino_of fs' p = Some i.
Proof. intros [F _] N E. rewrite F; [exact E|]. intros ->. congruence. Qed.

Lemma ino_add_link fs d i p : ino_of (add_link fs d i) p = if path_eqb d p then Some i else ino_of fs p.
Proof. reflexivity. Qed.
Lemma ino_add_copy fs d c p : ino_of (add_copy fs d c) p = if path_eqb d p then Some (fresh_ino fs) else ino_of fs p.
Proof. reflexivity. Qed.
Lemma data_add_copy fs d c i : data_of (add_copy fs d c) i = if Nat.eqb (fresh_ino fs) i then c else data_of fs i.
Proof. unfold data_of, add_copy. cbn [f_data assoc]. now destruct (Nat.eqb (fresh_ino fs) i). Qed.

Lemma add_link_extends fs d i : extends fs (add_link fs d i) d.
Proof.
  split; [|reflexivity]. intros p N. rewrite ino_add_link. apply not_eq_sym, path_eqb_neq in N. now rewrite N.
Qed.

Lemma add_copy_extends fs d c : extends fs (add_copy fs d c) d.
Proof.
  split.
  - intros p N. rewrite ino_add_copy. apply not_eq_sym, path_eqb_neq in N. now rewrite N.
  - intros i [p I]. rewrite data_add_copy. destruct (Nat.eqb (fresh_ino fs) i) eqn:E; [|reflexivity].
    apply Nat.eqb_eq in E. subst. now apply fresh_ino_fresh in I.
Qed.

Definition copy_fn := fsT -> string -> cmode -> cmode -> list path -> fileset -> res copy_result.

(* what a successful non-"leave" call did *)
Definition created (fs : fsT) (dest : string) (avoid : list path) (f f' : fileset)
           (fs' : fsT) (avoid' : list path) (w : way) : Prop :=
  fst f' = fst f /\ fst (snd f') = dest
  /\ ~ In (snd f') avoid                                   (* not a path it was told to avoid *)
  /\ ino_of fs (snd f') = None                             (* did not exist (no overwrite) *)
  /\ (forall p, In p avoid' <-> p = snd f' \/ In p avoid)  (* the set is updated *)
  /\ (forall p, p <> snd f' -> ino_of fs' p = ino_of fs p) (* nothing else is created or removed *)
  /\ (forall i, (exists p, ino_of fs p = Some i) -> data_of fs' i = data_of fs i)
  /\ exists i, ino_of fs (snd f) = Some i /\
       match w with
       | Copy => exists j, ino_of fs' (snd f') = Some j /\ (forall p, ino_of fs p <> Some j)
                           /\ data_of fs' j = data_of fs i
       | _ => ino_of fs' (snd f') = Some i
       end.

Definition copy_contract (copy_one : copy_fn) : Prop :=
  forall fs dest m sup avoid f f' fs' avoid' w,
    copy_one fs dest m sup avoid f = Ok (f', fs', avoid', w) ->
    allowed w (inter m sup) = true /\
    match w with
    | Leave => f' = f /\ fs' = fs /\ avoid' = avoid
    | _ => created fs dest avoid f f' fs' avoid' w
    end.

(* the last clause of [created], with the file system against which a copy's inode is new as a parameter:
   the one before the call in the contract, the initial one in the invariant *)
Definition placed (base fs' : fsT) (w : way) (d : path) (i : nat) : Prop :=
  match w with
  | Copy => exists j, ino_of fs' d = Some j /\ (forall p, ino_of base p <> Some j)
                      /\ data_of fs' j = data_of base i
  | _ => ino_of fs' d = Some i
  end.

Lemma placed_frame base fs fs' x w d i :
  extends fs fs' x -> ino_of fs x = None -> placed base fs w d i -> placed base fs' w d i.
Proof.
  intros E N. pose proof (fun p k => extends_ino fs fs' x p k E N) as K.
  destruct w; cbn; auto. intros (j & J1 & J2 & J3). exists j. rewrite (proj2 E) by eauto. auto.
Qed.

Lemma search_ok fuel fs avoid dest name k d :
  search fuel fs avoid dest name k = Ok d ->
  fst d = dest /\ ~ In d avoid /\ ino_of fs d = None.
Proof.
  revert k. induction fuel as [|fu IH]; cbn; intros k; [discriminate|].
  unfold dest_check. destruct (ino_of fs (cand dest name k)) eqn:E.
  - destruct (mem (cand dest name k) avoid) eqn:M; [apply IH|discriminate].
  - destruct (mem (cand dest name k) avoid) eqn:M; [apply IH|].
    intros X; inversion X; subst. repeat split; [|exact E].
    intros I. apply mem_spec in I. congruence.
Qed.

Lemma select_spec m : match select m with Some w => allowed w m = true | None => forall w, allowed w m = false end.
Proof. unfold select. destruct m as [[] [] [] []]; cbn; try reflexivity. now intros []. Qed.

Lemma ff_copy_nonleave fs dest m sup avoid f w :
  select (inter m sup) = Some w -> way_eqb w Leave = false ->
  ff_copy fs dest m sup avoid f =
  match ino_of fs (snd f) with
  | None => Err EMissing
  | Some i =>
      match search (S (List.length avoid)) fs avoid dest (snd (snd f)) 0 with
      | Err e => Err e
      | Ok d => Ok ((fst f, d), match w with Copy => add_copy fs d (data_of fs i) | _ => add_link fs d i end,
                    d :: avoid, w)
      end
  end.
Proof. intros S N. unfold ff_copy. rewrite S. destruct w; [discriminate|reflexivity..]. Qed.

Lemma stage_placed fs d i w (fs' := match w with Copy => add_copy fs d (data_of fs i) | _ => add_link fs d i end) :
  extends fs fs' d /\ placed fs fs' w d i.
Proof.
  subst fs'. split; [destruct w; auto using add_link_extends, add_copy_extends|].
  destruct w; unfold placed; rewrite ?ino_add_link, ?ino_add_copy, path_eqb_refl; auto.
  exists (fresh_ino fs). rewrite data_add_copy, Nat.eqb_refl. repeat split. intros p. apply fresh_ino_fresh.
Qed.

Lemma ff_copy_contract : copy_contract ff_copy.
Proof.
  intros fs dest m sup avoid f f' fs' avoid' w E.
  destruct (select (inter m sup)) as [w0|] eqn:SEL; [|unfold ff_copy in E; rewrite SEL in E; discriminate].
  pose proof (select_spec (inter m sup)) as AL. rewrite SEL in AL.
  destruct (way_eqb w0 Leave) eqn:WL.
  - destruct w0; try discriminate. unfold ff_copy in E. rewrite SEL in E. inversion E; subst. auto.
  - rewrite (ff_copy_nonleave _ _ _ _ _ _ _ SEL WL) in E.
    destruct (ino_of fs (snd f)) as [i|] eqn:I; [|discriminate].
    destruct (search _ fs avoid dest (snd (snd f)) 0) as [d|] eqn:Q; [|discriminate].
    apply search_ok in Q. destruct Q as (Q1 & Q2 & Q3).
    injection E as <- Efs <- <-. split; [exact AL|].
    destruct (stage_placed fs d i w0) as [[F G] P]. rewrite Efs in F, G, P.
    assert (created fs dest avoid f (fst f, d) fs' (d :: avoid) w0) as C.
    { unfold created. cbn [fst snd]. repeat (split; [assumption || reflexivity|]).
      split; [intros p; cbn; split; intros [X|X]; auto|]. repeat (split; [assumption|]). exists i. auto. }
    destruct w0; [discriminate|exact C..].
Qed.

Section ValueInd.
  Variable P : value -> Prop.
  Hypothesis Ha : forall r t, P (VAtom r t).
  Hypothesis Hf : forall f, P (VFile f).
  Hypothesis Hn : forall k, P (VCont k []).
  Hypothesis Hc : forall k x l, P x -> P (VCont k l) -> P (VCont k (x :: l)).
  Fixpoint value_nested_ind (v : value) : P v :=
    match v with
    | VAtom r t => Ha r t
    | VFile f => Hf f
    | VCont k l => (fix go (l : list value) : P (VCont k l) :=
                      match l with [] => Hn k | x :: r => Hc k x r (value_nested_ind x) (go r) end) l
    end.
End ValueInd.

Section Run.
  Variable g : fileset -> st -> res (fileset * st).

  Fixpoint run (l : list fileset) (s : st) : res (list fileset * st) :=
    match l with
    | [] => Ok ([], s)
    | f :: r =>
        match g f s with
        | Err e => Err e
        | Ok (f', s1) => match run r s1 with Err e => Err e | Ok (r', s2) => Ok (f' :: r', s2) end
        end
    end.

  Lemma run_app a b s :
    run (a ++ b) s =
    match run a s with
    | Err e => Err e
    | Ok (a', s1) => match run b s1 with Err e => Err e | Ok (b', s2) => Ok (a' ++ b', s2) end
    end.
  Proof.
    revert s. induction a as [|f a IH]; intros s; cbn.
    - destruct (run b s) as [[b' s2]|]; reflexivity.
    - destruct (g f s) as [[f' s1]|]; [|reflexivity]. rewrite IH.
      destruct (run a s1) as [[a' s2]|]; [|reflexivity].
      destruct (run b s2) as [[b' s3]|]; reflexivity.
  Qed.

  Lemma apply_files_run v : forall s,
    match apply_files g v s with
    | Ok (v', s') => same_shape v v' = true /\ run (leaves v) s = Ok (leaves v', s')
    | Err e => run (leaves v) s = Err e
    end.
  Proof.
    induction v as [r t|f|k|k x l Hx Hl] using value_nested_ind; intros s.
    - cbn. rewrite String.eqb_refl, Bool.eqb_reflx. auto.
    - cbn. destruct (g f s) as [[f' s']|]; cbn; auto.
    - cbn. destruct k; auto.
    - cbn [apply_files leaves flat_map]. rewrite run_app. specialize (Hx s).
      destruct (apply_files g x s) as [[x' s1]|]; [|now rewrite Hx].
      destruct Hx as [Sx Rx]. rewrite Rx. specialize (Hl s1). cbn [apply_files leaves] in Hl.
      (* the traversal of the remaining items: the inner fix of apply_files, the same term in goal and Hl *)
      destruct (_ l s1) as [[l' s2]|]; [|now rewrite Hl].
      destruct Hl as [Sl Rl]. rewrite Rl. split; [|reflexivity].
      cbn in Sl |- *. rewrite Sx. apply andb_true_iff in Sl. destruct Sl as [-> Sl]. cbn. exact Sl.
  Qed.
End Run.

Lemma allowed_inter w a b : allowed w (inter a b) = (allowed w a && allowed w b)%bool.
Proof. destruct w; reflexivity. Qed.

Lemma map_fst_combine {A B} (l : list A) (l' : list B) :
  List.length l' = List.length l -> map fst (combine l l') = l.
Proof.
  revert l'. induction l as [|x l IH]; intros [|y l']; cbn; try discriminate; auto.
  intros E. f_equal. apply IH. lia.
Qed.

Lemma forall2_combine_map {A B C} (P : A -> B -> Prop) (h : B -> C) l l' a c :
  Forall2 P l l' -> In (a, c) (combine l (map h l')) -> exists b, c = h b /\ P a b.
Proof.
  induction 1 as [|x y l l' Pxy F IH]; cbn; [tauto|].
  intros [E|I]; [inversion E; subst; eauto|auto].
Qed.

Lemma forall2_map_r {A B C} (P : A -> C -> Prop) (Q : A -> B -> Prop) (h : B -> C) l l' :
  (forall a b, Q a b -> P a (h b)) -> Forall2 Q l l' -> Forall2 P l (map h l').
Proof. intros I. induction 1; cbn; constructor; auto. Qed.

Lemma all_pairs_in {P : value -> value * list log_entry -> Prop} vs outs s d :
  Forall2 P vs outs -> In (s, d) (all_pairs vs (map fst outs)) ->
  exists v o, P v o /\ In (s, d) (pairs_of v (fst o)).
Proof.
  unfold all_pairs. induction 1 as [|v o vs outs Pvo F IH]; cbn; [tauto|].
  intros I. apply in_app_or in I. destruct I as [I|I]; [exists v, o; auto|auto].
Qed.

Lemma allowed_narrow tab dest s sup w :
  allowed w (narrow tab dest s sup) = true <-> allowed w sup = true /\ mount_ok tab dest w s.
Proof.
  unfold narrow, mount_ok.
  destruct (on_cifs tab (full (snd s))), (on_same_mount tab (full (snd s)) dest), w; cbn;
    rewrite ?andb_true_r, ?andb_false_r; (split; [intros H|intros [H H']]); try discriminate; auto.
Qed.

Lemma same_shape_refl : forall v, same_shape v v = true.
Proof.
  induction v as [r t|f|k|k x l Hx Hl] using value_nested_ind; cbn in *.
  - now rewrite String.eqb_refl, Bool.eqb_reflx.
  - reflexivity.
  - now destruct k.
  - now rewrite Hx.
Qed.

Definition sources_exist (fs0 : fsT) (vs : list value) : Prop :=
  forall v f, In v vs -> In f (leaves v) -> ino_of fs0 (snd f) <> None.

Definition inputs_exist (fs0 : fsT) (fields : list field) : Prop :=
  forall fd f, In fd fields -> is_staged fd = true -> In f (leaves (fd_value fd)) -> ino_of fs0 (snd f) <> None.

Definition counts (outs : list (value * list log_entry)) : list (value * nat) :=
  map (fun o => (fst o, List.length (snd o))) outs.

Definition nonleave (e : log_entry) : bool := negb (way_eqb (snd e) Leave).
Definition dpath (e : log_entry) : path := snd (snd (fst e)).
Definition dsts (h : list log_entry) : list path := map dpath (filter nonleave h).

Section Copies.
  Variable copy_one : copy_fn.
  Hypothesis HC : copy_contract copy_one.
  Variable tab : table.
  Variables (dest : string) (fs0 : fsT) (avoid0 : list path).

  Definition entry_ok (fs : fsT) (e : log_entry) : Prop :=
    let '(s, d, w) := e in
    if way_eqb w Leave then d = s
    else fst d = fst s /\ fst (snd d) = dest /\ ~ In (snd d) avoid0 /\
         exists i, ino_of fs0 (snd s) = Some i /\ placed fs0 fs w (snd d) i.

  (* invariant of the whole run of FileSet.copy calls, relative to the initial fs0/avoid0; minv below is per field *)
  Record ginv (fs : fsT) (avoid : list path) (h : list log_entry) : Prop := {
    gi_ino : forall p i, ino_of fs0 p = Some i -> ino_of fs p = Some i;
    gi_data : forall i, (exists p, ino_of fs0 p = Some i) -> data_of fs i = data_of fs0 i;
    gi_log : forall e, In e h -> entry_ok fs e;
    gi_nodup : NoDup (dsts h);
    gi_dsts : incl (dsts h) avoid;
    gi_new : forall p, ino_of fs p <> None -> ino_of fs0 p <> None \/ In p avoid /\ ~ In p avoid0;
    gi_seed : incl avoid0 avoid
  }.

  Lemma ginv_init : ginv fs0 avoid0 [].
  Proof.
    split; auto.
    - intros e [].
    - constructor.
    - intros p [].
    - apply incl_refl.
  Qed.

  Lemma ginv_read fs avoid h p : ginv fs avoid h -> ino_of fs0 p <> None -> read fs p = read fs0 p.
  Proof.
    intros G N. destruct (ino_of fs0 p) as [i|] eqn:E; [|congruence].
    unfold read. rewrite E, (gi_ino _ _ _ G _ _ E). cbn. f_equal. apply (gi_data _ _ _ G). eauto.
  Qed.

  Lemma entry_ok_frame fs fs' x e :
    extends fs fs' x -> ino_of fs x = None -> entry_ok fs e -> entry_ok fs' e.
  Proof.
    intros E N. destruct e as [[s d] w]. unfold entry_ok. destruct (way_eqb w Leave); [auto|].
    intros (A & B & C & i & I & P). repeat (split; [assumption|]). exists i. split; [assumption|].
    eapply placed_frame; eassumption.
  Qed.

  Lemma ginv_step fs avoid h m sup f f' fs' avoid' w :
    ginv fs avoid h -> ino_of fs0 (snd f) <> None ->
    copy_one fs dest m sup avoid f = Ok (f', fs', avoid', w) ->
    ginv fs' avoid' ((f, f', w) :: h).
  Proof.
    intros G SRC E. pose proof G as [G1 G2 G3 G4 G5 G6 G7].
    destruct (way_eqb w Leave) eqn:WL.
    - destruct w; try discriminate. apply HC in E. destruct E as [_ (-> & -> & ->)].
      split; auto. intros e [<-|I]; [reflexivity|auto].
    - assert (created fs dest avoid f f' fs' avoid' w) as (C1 & C2 & C3 & C4 & C5 & C6 & C7 & i & I & P)
        by (apply HC in E; destruct E as [_ E]; destruct w; [discriminate|exact E..]).
      pose proof (conj C6 C7 : extends fs fs' (snd f')) as EX. change (placed fs fs' w (snd f') i) in P.
      assert (dsts ((f, f', w) :: h) = snd f' :: dsts h) as DS
        by (unfold dsts; cbn [filter]; unfold nonleave at 1; cbn [snd]; rewrite WL; reflexivity).
      destruct (ino_of fs0 (snd f)) as [i0|] eqn:I0; [|congruence].
      assert (i = i0) as -> by (apply G1 in I0; congruence).
      split.
      + intros p j J. eauto using extends_ino.
      + intros j [p J]. rewrite (proj2 EX); eauto.
      + intros e [<-|J]; [|eapply entry_ok_frame; eauto].
        unfold entry_ok. rewrite WL. repeat (split; [assumption|]).
        split; [intros X; apply C3; now apply G7|]. exists i0. split; [exact I0|].
        (* P places a copy against fs; against fs0: an inode fs lacks, fs0 lacks (G1), and i0's data is still fs0's (G2) *)
        destruct w; try exact P. destruct P as (j & J1 & J2 & J3). exists j. split; [assumption|]. split.
        * intros p X. apply G1 in X. eapply J2; eauto.
        * rewrite J3. apply G2. eauto.
      + rewrite DS. constructor; [|assumption]. intros J. apply G5 in J. contradiction.
      + rewrite DS. intros p [<-|J]; apply C5; auto.
      + intros p J. destruct (path_eqb (snd f') p) eqn:X.
        * apply path_eqb_spec in X. subst. right. split; [apply C5; now left|]. intros X. now apply C3, G7.
        * apply path_eqb_neq in X. rewrite C6 in J by congruence. destruct (G6 _ J) as [|[A B]]; [auto|].
          right. split; [apply C5; now right|exact B].
      + intros p J. apply C5. right. now apply G7.
  Qed.

  Section Field.
    Variables m sup : cmode.

    Record minv (memo : list (fileset * fileset)) (lg : list log_entry)
           (done : list (fileset * fileset)) : Prop := {
      m_done : incl done memo;
      m_log : memo = map fst lg;
      m_nodup : NoDup (map fst memo);
      m_keys : forall f, In f (map fst memo) <-> In f (map fst done);
      m_way : forall s d w, In (s, d, w) lg -> allowed w m = true /\ mount_ok tab dest w s
    }.

    Lemma minv_init : minv [] [] [].
    Proof. split; cbn; try tauto; try reflexivity; [apply incl_refl|constructor]. Qed.

    (* the only way to fail: a FileSet.copy call on one of the files l, made in a state that meets the invariant *)
    Definition failed (l : list fileset) (e : err) : Prop :=
      Exists (fun f => exists fs avoid h, ginv fs avoid h /\ copy_one fs dest m (narrow tab dest f sup) avoid f = Err e) l.

    Lemma field_step s f hprev done :
      ginv (s_fs s) (s_avoid s) (s_log s ++ hprev) -> minv (s_memo s) (s_log s) done ->
      ino_of fs0 (snd f) <> None ->
      match copy_fileset copy_one tab dest m sup f s with
      | Ok (f', s') => ginv (s_fs s') (s_avoid s') (s_log s' ++ hprev)
                       /\ minv (s_memo s') (s_log s') (done ++ [(f, f')])
      | Err e => copy_one (s_fs s) dest m (narrow tab dest f sup) (s_avoid s) f = Err e
      end.
    Proof.
      intros G [M1 M2 M3 M4 M5] SRC. unfold copy_fileset.
      destruct (assoc fileset_eqb f (s_memo s)) as [f'|] eqn:A.
      - apply (assoc_in _ fileset_eqb_spec) in A. split; [assumption|]. split; auto.
        + apply incl_app; [assumption|]. now intros x [<-|[]].
        + intros f0. rewrite map_app, in_app_iff, <- M4. cbn. split; [auto|]. intros [I|[<-|[]]]; [assumption|].
          now apply (in_map fst) in A.
      - destruct (copy_one (s_fs s) dest m (narrow tab dest f sup) (s_avoid s) f) as [[[[f' fs'] av'] w]|] eqn:E;
          [|reflexivity].
        cbn [s_fs s_avoid s_memo s_log].
        split; [change (((f, f', w) :: s_log s) ++ hprev) with ((f, f', w) :: (s_log s ++ hprev));
                eapply ginv_step; eauto|].
        split.
        + apply incl_app; [now apply incl_tl|]. intros x [<-|[]]. now left.
        + cbn. now f_equal.
        + cbn. constructor; [now apply (assoc_none_notin _ fileset_eqb_spec)|assumption].
        + intros f0. rewrite map_app, in_app_iff. cbn. rewrite <- M4. tauto.
        + intros s0 d w0 [I|I]; [|eauto]. inversion I; subst. apply HC in E. destruct E as [E _].
          rewrite allowed_inter in E. apply andb_true_iff in E. destruct E as [E N]. split; [exact E|]. apply allowed_narrow in N. apply N.
    Qed.

    Lemma field_run l : forall s hprev done,
      ginv (s_fs s) (s_avoid s) (s_log s ++ hprev) -> minv (s_memo s) (s_log s) done ->
      (forall f, In f l -> ino_of fs0 (snd f) <> None) ->
      match run (copy_fileset copy_one tab dest m sup) l s with
      | Ok (l', s') => ginv (s_fs s') (s_avoid s') (s_log s' ++ hprev)
                       /\ minv (s_memo s') (s_log s') (done ++ combine l l')
                       /\ List.length l' = List.length l
      | Err e => failed l e
      end.
    Proof.
      induction l as [|f r IH]; intros s hprev done G M SRC; cbn [run].
      - cbn. rewrite app_nil_r. auto.
      - pose proof (field_step s f hprev done G M (SRC f (or_introl eq_refl))) as FS.
        destruct (copy_fileset copy_one tab dest m sup f s) as [[f' s1]|e];
          [|apply Exists_cons_hd; exists (s_fs s), (s_avoid s), (s_log s ++ hprev); auto].
        destruct FS as [G1 M1]. specialize (IH s1 hprev _ G1 M1 (fun x I => SRC x (or_intror I))).
        destruct (run _ r s1) as [[r' s2]|e]; [|now apply Exists_cons_tl].
        destruct IH as (G2 & M2 & L). split; [assumption|]. split; [|cbn; now rewrite L].
        cbn [combine]. change ((f, f') :: combine r r') with ([(f, f')] ++ combine r r'). now rewrite app_assoc.
    Qed.

    Record field_ok (v v' : value) (lg : list log_entry) : Prop := {
      fo_shape : same_shape v v' = true;
      fo_logged : forall s d, In (s, d) (pairs_of v v') ->
                  exists w, In (s, d, w) lg /\ allowed w m = true /\ mount_ok tab dest w s;
      fo_fun : forall s1 d1 s2 d2, In (s1, d1) (pairs_of v v') -> In (s2, d2) (pairs_of v v') -> s1 = s2 -> d1 = d2;
      fo_count : distinct_count (leaves v) (List.length lg)
    }.

    Lemma copy_nested_files_ok v avoid fs hprev :
      ginv fs avoid hprev -> (forall f, In f (leaves v) -> ino_of fs0 (snd f) <> None) ->
      match copy_nested_files copy_one tab v dest m sup avoid fs with
      | Ok (v', fs1, av1, lg) => ginv fs1 av1 (lg ++ hprev) /\ field_ok v v' lg
      | Err e => failed (leaves v) e
      end.
    Proof.
      intros G SRC. unfold copy_nested_files.
      pose proof (apply_files_run (copy_fileset copy_one tab dest m sup) v (mkst fs avoid [] [])) as T.
      pose proof (field_run (leaves v) (mkst fs avoid [] []) hprev [] G minv_init SRC) as R.
      destruct (apply_files _ v _) as [[v1 s1]|e]; [destruct T as [SH T]|]; rewrite T in R; [|exact R].
      destruct R as (G1 & [M1 M2 M3 M4 M5] & L). split; [assumption|].
      unfold pairs_of in *. cbn [app] in *. split; [assumption|..].
      - intros s d I. apply M1 in I. rewrite M2 in I. apply in_map_iff in I.
        destruct I as ([[s' d'] w] & X & I). inversion X; subst. destruct (M5 _ _ _ I). eauto.
      - intros a1 d1 a2 d2 I1 I2 E. apply M1 in I1, I2.
        pose proof (NoDup_map_inj fst _ _ _ M3 I1 I2 E) as X. now inversion X.
      - exists (map fst (s_memo s1)). split; [assumption|]. split.
        + intros f. rewrite M4, map_fst_combine by assumption. tauto.
        + now rewrite M2, !map_length.
    Qed.
  End Field.

  Lemma entry_behaves fs1 av h s d w :
    ginv fs1 av h -> In (s, d, w) h ->
    behaves w dest fs0 fs1 s d /\ fst d = fst s /\
    (w <> Leave -> fst (snd d) = dest /\ read fs0 (snd s) <> None
                   /\ read fs1 (snd d) = read fs0 (snd s) /\ read fs1 (snd s) = read fs0 (snd s)).
  Proof.
    intros G I. pose proof (gi_log _ _ _ G _ I) as EO. unfold entry_ok in EO.
    destruct (way_eqb w Leave) eqn:WL; [destruct w; try discriminate; subst d; repeat split; congruence|].
    destruct EO as (A & B & _ & i & I0 & P).
    assert (read fs0 (snd s) = Some (data_of fs0 i)) as R0 by (unfold read; now rewrite I0).
    assert (read fs1 (snd s) = read fs0 (snd s)) as R1 by (apply (ginv_read _ _ _ _ G); congruence).
    pose proof (gi_ino _ _ _ G _ _ I0) as I1.
    (* the staged file's inode j holds the source's data; it is the source's own inode exactly for a link *)
    assert (exists j, ino_of fs1 (snd d) = Some j /\ data_of fs1 j = data_of fs0 i
                      /\ Nat.eqb i j = negb (way_eqb w Copy)) as (j & J1 & J2 & J3).
    { destruct w; [discriminate|exists i; rewrite Nat.eqb_refl; repeat split; [exact P|apply (gi_data _ _ _ G); eauto]..|].
      destruct P as (j & J1 & J2 & J3). exists j. repeat split; [assumption..|].
      apply Nat.eqb_neq. intros <-. now apply J2 in I0. }
    assert (read fs1 (snd d) = Some (data_of fs0 i)) as RD by (unfold read; rewrite J1; cbn; now rewrite J2).
    split; [|split; [exact A|]; intros _; repeat split; congruence].
    destruct w; [discriminate|..]; cbn [behaves]; repeat split; try congruence; intros c;
      rewrite (read_write _ _ _ _ i j), J3 by assumption; cbn; congruence.
  Qed.

  Lemma entries_inj fs1 av h s1 d1 w1 s2 d2 w2 :
    ginv fs1 av h -> In (s1, d1, w1) h -> In (s2, d2, w2) h ->
    w1 <> Leave -> w2 <> Leave -> snd d1 = snd d2 -> s1 = s2.
  Proof.
    intros G I1 I2 N1 N2 E.
    assert (forall s d w, w <> Leave -> In (s, d, w) h -> In (s, d, w) (filter nonleave h)) as F.
    { intros s d w N I. apply filter_In. split; [assumption|]. unfold nonleave; cbn. now destruct w. }
    pose proof (NoDup_map_inj dpath _ _ _ (gi_nodup _ _ _ G) (F _ _ _ N1 I1) (F _ _ _ N2 I2) E) as X.
    now inversion X.
  Qed.

  (* a later write by the engine to a reserved path p of the directory (free at the start, in the initial
     clash set) creates a new file and disturbs nothing *)
  Lemma dump_frame fs1 av h (p : path) c :
    ginv fs1 av h -> In p avoid0 -> ino_of fs0 p = None ->
    ino_of fs1 p = None /\ forall q, q <> p -> read (dump fs1 p c) q = read fs1 q.
  Proof.
    intros G IN N0.
    assert (ino_of fs1 p = None) as N1.
    { destruct (ino_of fs1 p) eqn:X; [|reflexivity]. exfalso.
      destruct (gi_new _ _ _ G p) as [X'|[_ X']]; auto; congruence. }
    split; [exact N1|]. intros q NE. unfold dump. rewrite N1.
    destruct (add_copy_extends fs1 p c) as [F D]. unfold read. rewrite F by exact NE.
    destruct (ino_of fs1 q) as [i|] eqn:I; [|reflexivity]. cbn. f_equal. apply D. eauto.
  Qed.

  Lemma entry_not_reserved fs1 av h s d w (p : path) :
    ginv fs1 av h -> In (s, d, w) h -> In p avoid0 -> ino_of fs0 p = None ->
    ino_of fs0 (snd s) <> None -> snd d <> p /\ snd s <> p.
  Proof.
    intros G I IN N0 SRC. pose proof (gi_log _ _ _ G _ I) as EO. unfold entry_ok in EO.
    assert (snd s <> p) as NS by congruence. split; [|exact NS].
    destruct (way_eqb w Leave); [now subst|]. destruct EO as (_ & _ & C' & _). congruence.
  Qed.

  Lemma copyfile_fields_ok fields : forall avoid fs hprev,
    ginv fs avoid hprev -> sources_exist fs0 fields ->
    match copyfile_fields copy_one tab dest fields avoid fs with
    | Ok (outs, fs2, av2) =>
        exists h, ginv fs2 av2 h /\ incl hprev h /\
          Forall2 (fun v o => field_ok mode_hardlink_or_copy v (fst o) (snd o) /\ incl (snd o) h) fields outs
    | Err e => Exists (fun v => failed mode_hardlink_or_copy mode_any (leaves v) e) fields
    end.
  Proof.
    induction fields as [|v r IH]; intros avoid fs hprev G SRC; cbn [copyfile_fields].
    - exists hprev. auto using incl_refl.
    - pose proof (copy_nested_files_ok mode_hardlink_or_copy mode_any v avoid fs hprev G
                    (fun f => SRC v f (or_introl eq_refl))) as N.
      destruct (copy_nested_files _ _ v _ _ _ avoid fs) as [[[[v' fs1] av1] lg]|e]; [|now apply Exists_cons_hd].
      destruct N as [G1 FO]. specialize (IH av1 fs1 _ G1 (fun v0 f I => SRC v0 f (or_intror I))).
      destruct (copyfile_fields _ _ _ r av1 fs1) as [[[r' fs3] av3]|e].
      + destruct IH as (h & G2 & INC & F2). apply incl_app_inv in INC. destruct INC as [IL IP]. exists h. auto.
      + now apply Exists_cons_tl.
  Qed.

  Lemma collected_logged fields outs fs1 av1 :
    sources_exist fs0 fields ->
    copyfile_fields copy_one tab dest fields avoid0 fs0 = Ok (outs, fs1, av1) ->
    exists h, ginv fs1 av1 h /\
      Forall2 (fun v v' => same_shape v v' = true) fields (map fst outs) /\
      forall s d, In (s, d) (all_pairs fields (map fst outs)) ->
        exists w, In (s, d, w) h /\ (w = Hard \/ w = Copy) /\ mount_ok tab dest w s.
  Proof.
    intros SRC E. pose proof (copyfile_fields_ok fields avoid0 fs0 [] ginv_init SRC) as K. rewrite E in K.
    destruct K as (h & G & _ & F). exists h. split; [exact G|].
    split; [eapply forall2_map_r; [|exact F]; now intros v o [[] _]|].
    intros s d I. destruct (all_pairs_in _ _ _ _ F I) as (v & o & [FO INC] & I2).
    destruct (fo_logged _ _ _ _ FO _ _ I2) as (w & Iw & A & M). exists w. split; [now apply INC|].
    split; [destruct w; cbn in A; auto; discriminate|exact M].
  Qed.

  Theorem copyfile_fields_collected fields outs fs1 av1 :
    sources_exist fs0 fields ->
    copyfile_fields copy_one tab dest fields avoid0 fs0 = Ok (outs, fs1, av1) ->
    collected tab dest fs0 fs1 fields (map fst outs).
  Proof.
    intros SRC E. destruct (collected_logged _ _ _ _ SRC E) as (h & G & SH & K).
    split.
    - exact SH.
    - intros s d I. destruct (K _ _ I) as (w & Iw & W & MO).
      destruct (entry_behaves _ _ _ _ _ _ G Iw) as (BH & A1 & FA).
      destruct FA as (A2 & A3 & A4 & A5); [destruct W; subst; discriminate|].
      repeat (split; [assumption|]). exists w. auto.
    - intros s1 d1 s2 d2 I1 I2 E'. destruct (K _ _ I1) as (w1 & Iw1 & W1 & _), (K _ _ I2) as (w2 & Iw2 & W2 & _).
      f_equal. eapply entries_inj; eauto; [destruct W1|destruct W2]; subst; discriminate.
  Qed.

  Theorem copyfile_fields_then_dump fields outs fs1 av1 (p : path) c :
    sources_exist fs0 fields ->
    copyfile_fields copy_one tab dest fields avoid0 fs0 = Ok (outs, fs1, av1) ->
    In p avoid0 -> ino_of fs0 p = None ->
    forall s d, In (s, d) (all_pairs fields (map fst outs)) ->
      snd d <> p /\ read (dump fs1 p c) (snd d) = read fs0 (snd s)
      /\ read (dump fs1 p c) (snd s) = read fs0 (snd s).
  Proof.
    intros SRC E IN N0 s d I. destruct (collected_logged _ _ _ _ SRC E) as (h & G & _).
    destruct (c_leaf _ _ _ _ _ _ (copyfile_fields_collected _ _ _ _ SRC E) _ _ I) as (_ & _ & R0 & RD & RS & _).
    destruct (dump_frame _ _ _ p c G IN N0) as [N1 FR].
    (* p is still free after the collection, where d and s can be read *)
    assert (forall q, read fs1 q = read fs0 (snd s) -> q <> p) as NP
      by (intros q R ->; apply R0; rewrite <- R; unfold read; now rewrite N1).
    split; [now apply NP|]. rewrite !FR by now apply NP. auto.
  Qed.

  Lemma job_fields_ok fields : forall avoid fs hprev,
    ginv fs avoid hprev -> inputs_exist fs0 fields ->
    match job_fields copy_one tab dest fields avoid fs with
    | Ok (outs, fs2, av2) =>
        exists h, ginv fs2 av2 h /\ incl hprev h /\
          Forall2 (fun fd o => if is_staged fd
                               then field_ok (fd_mode fd) (fd_value fd) (fst o) (snd o) /\ incl (snd o) h
                               else o = (fd_value fd, [])) fields outs
    | Err e => Exists (fun fd => is_staged fd = true /\ failed (fd_mode fd) mode_any (leaves (fd_value fd)) e) fields
    end.
  Proof.
    induction fields as [|fd r IH]; intros avoid fs hprev G SRC; cbn [job_fields].
    - exists hprev. auto using incl_refl.
    - specialize (fun av fs' h G' => IH av fs' h G' (fun fd' f I => SRC fd' f (or_intror I))).
      fold (is_staged fd). destruct (is_staged fd) eqn:ST.
      + pose proof (copy_nested_files_ok (fd_mode fd) mode_any _ avoid fs hprev G
                      (fun f => SRC fd f (or_introl eq_refl) ST)) as N.
        destruct (copy_nested_files _ _ (fd_value fd) _ _ _ avoid fs) as [[[[v' fs1] av1] lg]|e];
          [|apply Exists_cons_hd; auto].
        destruct N as [G1 FO]. specialize (IH av1 fs1 _ G1).
        destruct (job_fields _ _ _ r av1 fs1) as [[[r' fs3] av3]|e].
        * destruct IH as (h & G2 & INC & F2). apply incl_app_inv in INC. destruct INC as [IL IP].
          exists h. split; [assumption|]. split; [assumption|]. constructor; [rewrite ST; auto|exact F2].
        * now apply Exists_cons_tl.
      + specialize (IH avoid fs _ G). destruct (job_fields _ _ _ r avoid fs) as [[[r' fs3] av3]|e].
        * destruct IH as (h & G2 & INC & F2).
          exists h. split; [assumption|]. split; [assumption|]. constructor; [now rewrite ST|exact F2].
        * now apply Exists_cons_tl.
  Qed.

  Theorem job_fields_staged fields outs fs1 av1 :
    inputs_exist fs0 fields ->
    job_fields copy_one tab dest fields avoid0 fs0 = Ok (outs, fs1, av1) ->
    staged tab dest fs0 fs1 fields (counts outs).
  Proof.
    intros SRC E. pose proof (job_fields_ok fields avoid0 fs0 [] ginv_init SRC) as K0. rewrite E in K0.
    destruct K0 as (h & G & _ & F).
    pose proof (fun fd c => forall2_combine_map _ (fun o => (fst o, List.length (snd o))) _ _ fd c F) as K.
    fold (counts outs) in K.
    split.
    - eapply forall2_map_r; [|exact F]. intros fd o. cbn. destruct (is_staged fd).
      + now intros [[] _].
      + intros ->. apply same_shape_refl.
    - intros fd c I ST. destruct (K _ _ I) as (o & -> & Q). rewrite ST in Q. now subst.
    - intros fd c I ST s d I2. destruct (K _ _ I) as (o & -> & Q). rewrite ST in Q.
      destruct Q as [FO INC]. destruct (fo_logged _ _ _ _ FO _ _ I2) as (w & Iw & A & M).
      destruct (entry_behaves _ _ _ _ _ _ G (INC _ Iw)) as (BH & FS & _). eauto.
    - intros fd c I ST. destruct (K _ _ I) as (o & -> & Q). rewrite ST in Q.
      destruct Q as [FO _]. split; [apply (fo_fun _ _ _ _ FO)|apply (fo_count _ _ _ _ FO)].
    - intros p I. now apply (ginv_read _ _ _ _ G).
  Qed.

  Theorem job_fields_then_dump fields outs fs1 av1 (p : path) c :
    inputs_exist fs0 fields ->
    job_fields copy_one tab dest fields avoid0 fs0 = Ok (outs, fs1, av1) ->
    In p avoid0 -> ino_of fs0 p = None ->
    ino_of fs1 p = None
    /\ (forall q, q <> p -> read (dump fs1 p c) q = read fs1 q)
    /\ forall fd o, In (fd, o) (combine fields outs) -> is_staged fd = true ->
         forall s d, In (s, d) (pairs_of (fd_value fd) (fst o)) -> snd d <> p /\ snd s <> p.
  Proof.
    intros SRC E IN N0. pose proof (job_fields_ok fields avoid0 fs0 [] ginv_init SRC) as K. rewrite E in K.
    destruct K as (h & G & _ & F).
    destruct (dump_frame _ _ _ p c G IN N0) as [N1 FR].
    split; [exact N1|]. split; [exact FR|].
    (* forall2_combine_map speaks of [combine l (map h l')]: here h is the identity *)
    intros fd o I ST s d I2. rewrite <- (map_id outs) in I.
    destruct (forall2_combine_map _ _ _ _ _ _ F I) as (o' & <- & Q). rewrite ST in Q.
    destruct Q as [FO INC]. destruct (fo_logged _ _ _ _ FO _ _ I2) as (w & Iw & _).
    eapply entry_not_reserved; eauto. eapply SRC; eauto using in_combine_l.
  Qed.
End Copies.

Lemma split_ext_app name : (fst (split_ext name) ++ snd (split_ext name))%string = name.
Proof.
  unfold split_ext. destruct (last_dot (la_of name) 0 None) as [i|]; cbn.
  - destruct (_ && _)%bool; cbn.
    + now rewrite <- str_of_app, firstn_skipn, str_of_la_of.
    + clear. induction name; cbn; congruence.
  - clear. induction name; cbn; congruence.
Qed.

Lemma dec_inj j k : dec j = dec k -> j = k.
Proof.
  unfold dec. intros E. apply (f_equal NilEmpty.uint_of_string) in E. rewrite !NilEmpty.usu in E.
  inversion E as [E']. apply (f_equal Nat.of_uint) in E'. now rewrite !Unsigned.of_to in E'.
Qed.

Lemma cand_name_S_neq name k : cand_name name (S k) <> name.
Proof.
  pose proof (split_ext_app name) as SE. unfold cand_name.
  destruct (split_ext name) as [st ex]. cbn [fst snd] in SE.
  intros E. rewrite <- SE in E. apply (f_equal (fun s => List.length (la_of s))) in E.
  rewrite !la_of_append, !app_length in E. cbn in E. lia.
Qed.

Lemma cand_name_inj name j k : cand_name name j = cand_name name k -> j = k.
Proof.
  destruct j as [|j], k as [|k]; auto; intros E.
  - symmetry in E. now apply cand_name_S_neq in E.
  - now apply cand_name_S_neq in E.
  - unfold cand_name in E. destruct (split_ext name) as [st ex].
    apply (f_equal la_of) in E. rewrite !la_of_append in E. do 2 apply app_inv_head in E.
    apply app_inv_tail, la_of_inj, dec_inj in E. exact E.
Qed.

Lemma dest_check_total fs avoid p : (ino_of fs p <> None -> In p avoid) -> dest_check fs avoid p = Ok (mem p avoid).
Proof.
  intros D. unfold dest_check. destruct (ino_of fs p); [|reflexivity].
  rewrite (proj2 (mem_spec p avoid)); [reflexivity|]. apply D. discriminate.
Qed.

Lemma search_progress fs avoid dest name fuel :
  (forall p : path, fst p = dest -> ino_of fs p <> None -> In p avoid) ->
  forall k, (forall j, j < fuel -> In (cand dest name (k + j)) avoid) \/ exists d, search fuel fs avoid dest name k = Ok d.
Proof.
  intros D. induction fuel as [|fu IH]; intros k; [left; intros; lia|].
  cbn [search]. rewrite dest_check_total by now apply D.
  destruct (mem (cand dest name k) avoid) eqn:M; [|right; eauto].
  destruct (IH (S k)) as [A|A]; [left|now right].
  intros [|j] L; [rewrite Nat.add_0_r; now apply mem_spec|].
  replace (k + S j) with (S k + j) by lia. apply A. lia.
Qed.

Lemma search_total fs avoid dest name :
  (forall p : path, fst p = dest -> ino_of fs p <> None -> In p avoid) ->
  exists d, search (S (List.length avoid)) fs avoid dest name 0 = Ok d.
Proof.
  intros D. destruct (search_progress fs avoid dest name (S (List.length avoid)) D 0) as [A|A]; [|exact A].
  exfalso.
  assert (NoDup (map (cand dest name) (seq 0 (S (List.length avoid))))) as ND.
  { apply FinFun.Injective_map_NoDup; [|apply seq_NoDup].
    intros j k E. inversion E. now apply cand_name_inj in H0. }
  assert (incl (map (cand dest name) (seq 0 (S (List.length avoid)))) avoid) as INC.
  { intros p I. apply in_map_iff in I. destruct I as (j & <- & I). apply in_seq in I. apply (A j). lia. }
  pose proof (NoDup_incl_length ND INC) as L. rewrite map_length, seq_length in L. lia.
Qed.

Lemma ff_copy_total fs dest m sup avoid f :
  (forall p : path, fst p = dest -> ino_of fs p <> None -> In p avoid) ->
  ino_of fs (snd f) <> None -> select (inter m sup) <> None ->
  exists r, ff_copy fs dest m sup avoid f = Ok r.
Proof.
  intros D SRC SEL. destruct (select (inter m sup)) as [w|] eqn:S; [|congruence].
  destruct (way_eqb w Leave) eqn:WL.
  - destruct w; try discriminate. unfold ff_copy. rewrite S. eauto.
  - rewrite (ff_copy_nonleave _ _ _ _ _ _ _ S WL). destruct (ino_of fs (snd f)) as [i|]; [|congruence].
    destruct (search_total fs avoid dest (snd (snd f)) D) as [d ->]. eauto.
Qed.

Lemma stageable_select tab dest m s : stageable tab dest m s -> select (inter m (narrow tab dest s mode_any)) <> None.
Proof.
  intros (w & A & M) E. pose proof (select_spec (inter m (narrow tab dest s mode_any))) as S.
  rewrite E in S. specialize (S w). rewrite allowed_inter, A, (proj2 (allowed_narrow _ _ _ _ _)) in S; [discriminate|].
  split; [now destruct w|exact M].
Qed.

Lemma dir_entries_spec fs d (p : path) : fst p = d -> ino_of fs p <> None -> In p (dir_entries fs d).
Proof.
  intros E I. unfold dir_entries. apply filter_In. split; [|now apply String.eqb_eq].
  unfold ino_of in I. destruct (assoc path_eqb p (f_ino fs)) eqn:A; [|congruence].
  apply (assoc_in _ path_eqb_spec) in A. change p with (fst (p, n)). now apply in_map.
Qed.

Lemma seed_spec fs d (p : path) : fst p = d -> ino_of fs p <> None -> In p (seed fs d).
Proof. intros. apply in_or_app. left. now apply dir_entries_spec. Qed.

Lemma ff_not_failed tab dest fs0 avoid0 m l e :
  (forall p : path, fst p = dest -> ino_of fs0 p <> None -> In p avoid0) ->
  failed ff_copy tab dest fs0 avoid0 m mode_any l e ->
  (forall f, In f l -> ino_of fs0 (snd f) <> None) -> (forall f, In f l -> stageable tab dest m f) -> False.
Proof.
  intros DIR F SRC SAT. apply Exists_exists in F. destruct F as (f & I & fs & avoid & h & G & E).
  destruct (ff_copy_total fs dest m (narrow tab dest f mode_any) avoid f) as [r R]; [..|congruence].
  - intros p D J. apply (gi_new _ _ _ _ _ _ G) in J.
    destruct J as [J|[J _]]; [apply (gi_seed _ _ _ _ _ _ G); now apply DIR|exact J].
  - destruct (ino_of fs0 (snd f)) eqn:X; [|now apply SRC in I].
    rewrite (gi_ino _ _ _ _ _ _ G _ _ X). discriminate.
  - now apply stageable_select, SAT.
Qed.

Lemma copyfile_workflow_total tab dest fs0 fields :
  sources_exist fs0 fields ->
  exists r, copyfile_workflow ff_copy tab dest fields fs0 = Ok r.
Proof.
  intros SRC. unfold copyfile_workflow.
  pose proof (copyfile_fields_ok _ ff_copy_contract tab dest fs0 (seed fs0 dest) fields _ fs0 []
                (ginv_init _ _ _) SRC) as K.
  destruct (copyfile_fields _ _ _ _ _ _) as [r|e]; [eauto|]. apply Exists_exists in K. destruct K as (v & I & F). exfalso.
  eapply (ff_not_failed _ _ _ _ _ _ _ (seed_spec fs0 dest) F); [exact (fun f => SRC v f I)|].
  intros f _. exists Copy. now split.
Qed.

Definition fields_ready (tab : table) (dest : string) (fs0 : fsT) (fields : list field) : Prop :=
  forall fd f, In fd fields -> is_staged fd = true -> In f (leaves (fd_value fd)) ->
               ino_of fs0 (snd f) <> None /\ stageable tab dest (fd_mode fd) f.

Lemma fields_ready_exist tab dest fs0 fields : fields_ready tab dest fs0 fields -> inputs_exist fs0 fields.
Proof. intros S fd f I ST L. now destruct (S fd f I ST L). Qed.

Lemma job_inputs_total tab dest fs0 fields :
  fields_ready tab dest fs0 fields ->
  exists r, job_inputs ff_copy tab dest fields fs0 = Ok r.
Proof.
  intros S. unfold job_inputs.
  pose proof (job_fields_ok _ ff_copy_contract tab dest fs0 (seed fs0 dest) fields _ fs0 [] (ginv_init _ _ _)
                (fields_ready_exist _ _ _ _ S)) as K.
  destruct (job_fields _ _ _ _ _ _) as [r|e]; [eauto|]. apply Exists_exists in K. destruct K as (fd & I & ST & F). exfalso.
  eapply (ff_not_failed _ _ _ _ _ _ _ (seed_spec fs0 dest) F); intros f L; now destruct (S fd f I ST L).
Qed.

Lemma reserved_in_seed fs dest n : In n reserved_names -> In (dest, n) (seed fs dest).
Proof. intros I. apply in_or_app. right. apply in_map_iff. now exists n. Qed.

Definition ex_fs : fsT :=
  mkfs [(("/d1", "f.txt"), 1); (("/d2", "f.txt"), 2); (("/d2", "g"), 3); (("/d3", "f (1).txt"), 4)]
       [(1, "A"); (2, "B"); (3, "C"); (4, "D")].
Definition ex_a : fileset := ("File", ("/d1", "f.txt")).
Definition ex_b : fileset := ("File", ("/d2", "f.txt")).
Definition ex_g : fileset := ("Directory", ("/d2", "g")).
Definition ex_d : fileset := ("File", ("/d3", "f (1).txt")).
Definition ex_fields : list value :=
  [VCont CList [VFile ex_a; VFile ex_b];
   VCont CDict [VAtom "'k'" true; VCont CTuple [VFile ex_a; VCont CList [VFile ex_g; VFile ex_d; VFile ex_b]]]].

Example ex_ready : sources_exist ex_fs ex_fields.
Proof.
  intros v f [<-|[<-|[]]]; cbn; intros H; repeat (destruct H as [<-|H]; [discriminate|]); destruct H.
Qed.

(* equal names from several directories, the same file in two fields, a name that looks like a counter *)
Example ex_collect :
  option_map (fun r => map fst (fst (fst r))) (match copyfile_workflow ff_copy [] "/wf" ex_fields ex_fs with Ok r => Some r | Err _ => None end)
  = Some [VCont CList [VFile ("File", ("/wf", "f.txt")); VFile ("File", ("/wf", "f (1).txt"))];
          VCont CDict [VAtom "'k'" true;
                       VCont CTuple [VFile ("File", ("/wf", "f (2).txt"));
                                     VCont CList [VFile ("Directory", ("/wf", "g"));
                                                  VFile ("File", ("/wf", "f (1) (1).txt"));
                                                  VFile ("File", ("/wf", "f (3).txt"))]]]].
Proof. vm_compute. reflexivity. Qed.

(* what the per-field clash set of the unrepaired Job.inputs did: the second field's equally named
   file hits the first field's staged copy, which is not in its (fresh) set *)
Definition job_fields_unshared (copy_one : copy_fn) (tab : table) (dest : string) :=
  fix go (fields : list field) (fs : fsT) : res (list value * fsT) :=
    match fields with
    | [] => Ok ([], fs)
    | fd :: r =>
        if is_staged fd then
          match copy_nested_files copy_one tab (fd_value fd) dest (fd_mode fd) mode_any [] fs with
          | Err e => Err e
          | Ok (v', fs1, _, _) => match go r fs1 with Err e => Err e | Ok (r', fs2) => Ok (v' :: r', fs2) end
          end
        else match go r fs with Err e => Err e | Ok (r', fs2) => Ok (fd_value fd :: r', fs2) end
    end.
Definition mode_copy : cmode := mkmode false false false true.
Definition ex_job : list field := [mkfield true mode_copy (VFile ex_a); mkfield true mode_copy (VFile ex_b)].
Example unshared_set_fails : job_fields_unshared ff_copy [] "/job" ex_job ex_fs = Err EExists.
Proof. vm_compute. reflexivity. Qed.
Example shared_set_stages :
  match job_inputs ff_copy [] "/job" ex_job ex_fs with
  | Ok (outs, _, _) => map fst outs = [VFile ("File", ("/job", "f.txt")); VFile ("File", ("/job", "f (1).txt"))]
  | Err _ => False
  end.
Proof. vm_compute. reflexivity. Qed.
Example ex_job_ready : fields_ready [] "/job" ex_fs ex_job.
Proof.
  intros fd f [<-|[<-|[]]] _; cbn; (intros [<-|[]]); (split; [discriminate|]); exists Copy; cbn; auto.
Qed.

(* an output named like something the directory already holds gets the next free name *)
Definition ex_fs_job : fsT :=
  mkfs [(("/wf", "_job.pklz"), 9); (("/d1", "_job.pklz"), 1); (("/d2", "_job.pklz"), 2)] [(9, "ENGINE"); (1, "A"); (2, "B")].
Example ex_seeded :
  match copyfile_workflow ff_copy [] "/wf" [VCont CList [VFile ("File", ("/d1", "_job.pklz")); VFile ("File", ("/d2", "_job.pklz"))]] ex_fs_job with
  | Ok (outs, fs1, _) =>
      map fst outs = [VCont CList [VFile ("File", ("/wf", "_job (1).pklz")); VFile ("File", ("/wf", "_job (2).pklz"))]]
      /\ read fs1 ("/wf", "_job.pklz") = Some "ENGINE"
  | Err _ => False
  end.
Proof. vm_compute. split; reflexivity. Qed.

(* an output named like the result pickle is collected under the next free name, so the pickle written
   afterwards goes to a new file and both the collected file and the source keep their content *)
Definition ex_fs_res : fsT := mkfs [(("/wf", "_job.pklz"), 9); (("/d1", "_result.pklz"), 1)] [(9, "ENGINE"); (1, "USERDATA")].
Example ex_reserved :
  match copyfile_workflow ff_copy [] "/wf" [VFile ("File", ("/d1", "_result.pklz"))] ex_fs_res with
  | Ok (outs, fs1, _) =>
      map fst outs = [VFile ("File", ("/wf", "_result (1).pklz"))]
      /\ read (dump fs1 ("/wf", "_result.pklz") "PICKLE") ("/wf", "_result (1).pklz") = Some "USERDATA"
      /\ read (dump fs1 ("/wf", "_result.pklz") "PICKLE") ("/d1", "_result.pklz") = Some "USERDATA"
  | Err _ => False
  end.
Proof. vm_compute. repeat split; reflexivity. Qed.
