(* Proofs/SchedTermA.v — termination of the asynchronous loop of Model/Sched.v (the full scheduler
   model: split nodes, failing jobs, max_concurrent, `futured`, the stall detector).  For every set of
   failing jobs and every oracle the loop ends Finished or Stalled within |jobs| + 2 iterations
   (async_terminates_full); when no job fails and no node is empty it ends Finished within |jobs| + 1
   (async_terminates). *)
From Pydra Require Import Base.Prelude Base.SchedBase Model.Sched Spec.Sched Proofs.SchedA Proofs.SchedC Proofs.SchedD Proofs.SchedJ Proofs.SchedF Proofs.SchedK Proofs.ListFacts.
Local Open Scope nat_scope.

Section Term.
Variable V : Type.
Variable body : nat -> nat -> list (list (option V)) -> V.
Variable fails : job -> bool.
Variable vr : variant.
Hypothesis F14 : fix14 vr = true.
Variable g : graph.
Hypothesis WF : wf_graph g.
Variable kmax : option nat.
Hypothesis KP : forall k, kmax = Some k -> 1 <= k.

Notation world := (world V).
Notation nstate := (nstate V).
Notation sstate := (sstate V).
Notation lstate := (lstate V).
Notation GInv := (GInv V fails g).
Notation WInv := (WInv V fails).
Notation LInv := (LInv V body fails vr g kmax).
Notation runs := (@runs V).
Notation task_ok := (task_ok V fails g).

Lemma existsb_false {A} (f : A -> bool) l : existsb f l = false <-> forall x, In x l -> f x = false.
Proof. exact (existsb_false_In f l). Qed.

Definition upd (w : world) (ss : sstate) (m : nat) : nstate := fst (update_ns vr w m (nst ss m)).

Lemma upd_upd (w : world) ss m : GInv w ss -> fst (update_ns vr w m (upd w ss m)) = upd w ss m.
Proof.
  exact (refresh_idem V fails vr F14 g w ss m).
Qed.

Lemma scan_all_done (w : world) ss0 : GInv w ss0 -> forall rest ss ns acc,
  (forall m, nst ss m = nst ss0 m \/ nst ss m = upd w ss0 m) ->
  (forall nd, In nd rest -> done_ns (upd w ss0 (nid nd)) = true) ->
  snd (scan vr g w rest ss ns acc) = acc /\
  forall m, nst (fst (scan vr g w rest ss ns acc)) m = nst ss0 m \/ nst (fst (scan vr g w rest ss ns acc)) m = upd w ss0 m.
Proof.
  intros G. induction rest as [|nd rest IH]; intros ss ns acc Hs Hd; cbn [scan]; [split; [reflexivity|exact Hs]|].
  assert (E : nst (update vr w ss (nid nd)) (nid nd) = upd w ss0 (nid nd)).
  { rewrite nst_update, Nat.eqb_refl. destruct (Hs (nid nd)) as [X|X]; rewrite X; [reflexivity|apply upd_upd; exact G]. }
  rewrite E, (Hd nd (or_introl eq_refl)).
  apply IH.
  - intros m. rewrite nst_update. destruct (m =? nid nd) eqn:Em; [|apply Hs].
    apply Nat.eqb_eq in Em. subst m. right. rewrite nst_update, Nat.eqb_refl in E. exact E.
  - intros nd' H'. apply Hd. now right.
Qed.

(* once every node is done, a further poll changes nothing that matters *)
Lemma poll_all_done (w : world) ss :
  GInv w ss -> any_not_done vr g w ss = false ->
  snd (poll vr g kmax w ss) = [] /\ any_not_done vr g w (fst (poll vr g kmax w ss)) = false.
Proof.
  intros G A. pose proof (proj1 (any_not_done_false V vr g w ss) A) as Hd.
  destruct (scan_all_done w ss G g ss [] [] (fun m => or_introl eq_refl) Hd) as [S1 S2].
  unfold poll. destruct (scan vr g w g ss [] []) as [ss1 tasks]. cbn [fst snd] in *. subst tasks.
  split; [unfold truncate; destruct kmax as [k|]; [destruct k|]; reflexivity|].
  apply any_not_done_false. intros nd Hnd. unfold refresh. cbn [nst].
  destruct (S2 (nid nd)) as [X|X]; rewrite X; [apply Hd, Hnd|].
  rewrite (upd_upd w ss (nid nd) G). apply Hd, Hnd.
Qed.

(* the progress invariant: how futures, results, lock files and the node states hang together *)
Record PInv2 (ls : lstate) : Prop := {
  p2_vp : forall j, In j (visible (ls_w ls)) -> In j (ls_pending ls);
  p2_fp : forall j, In j (ls_futured ls) -> is_none (ls_w ls) j = true -> In j (ls_pending ls);
  p2_run : forall n i, In i (running (nst (ls_ss ls) n)) -> In (n, i) (ls_futured ls);
  p2_fs : forall j, In j (ls_futured ls) -> runs (ls_ss ls) j;
  p2_none : forall j, In j (ls_tasks ls) -> is_none (ls_w ls) j = true
}.

Definition idle_done (ls : lstate) : Prop :=
  ls_tasks ls = [] /\ ls_pending ls = [] /\ any_not_done vr g (ls_w ls) (ls_ss ls) = false.

(* the same facts at the moment a poll is made; a poll keeps them, and the jobs it returns have no result yet *)
Record PrePoll (w : world) (ss : sstate) (fut pend : list job) : Prop := {
  pp_g : GInv w ss;
  pp_w : WInv w;
  pp_vp : forall j, In j (visible w) -> In j pend;
  pp_fp : forall j, In j fut -> is_none w j = true -> In j pend;
  pp_pf : forall j, In j pend -> In j fut;
  pp_res : forall j, is_none w j = false -> In j fut;
  pp_run : forall n i, In i (running (nst ss n)) -> In (n, i) fut;
  pp_fs : forall j, In j fut -> runs ss j
}.

Lemma PrePoll_poll (w : world) ss fut pend ss' tasks :
  PrePoll w ss fut pend -> poll vr g kmax w ss = (ss', tasks) ->
  PrePoll w ss' fut pend /\ (forall j, In j tasks -> is_none w j = true).
Proof.
  intros [G W VP FP PF RES RU FS] EP.
  destruct (poll_spec V fails vr F14 g WF kmax w ss ss' tasks G W EP) as [G1 [T1 KR]].
  destruct (poll_mono V fails vr F14 g WF kmax w ss ss' tasks G W EP) as [_ [_ R1]].
  split; [constructor; auto|].
  - intros n i Hi. destruct (R1 n i Hi) as [X|X]; [apply RU; exact X|]. apply mem_job_In in X. apply PF, VP, X.
  - intros j Hj. apply (returned_none V fails g w ss ss' j); [|apply T1, Hj]. intros q Hq. apply FS, RES, Hq.
Qed.

(* the node states and tasks of ls are what a poll made in a PrePoll state has just returned *)
Definition Polled (ls : lstate) : Prop :=
  exists ss, PrePoll (ls_w ls) ss (ls_futured ls) (ls_pending ls)
             /\ poll vr g kmax (ls_w ls) ss = (ls_ss ls, ls_tasks ls).

Lemma Polled_PInv2 (ls : lstate) : Polled ls -> PInv2 ls.
Proof.
  intros [ss [P EP]]. destruct (PrePoll_poll _ _ _ _ _ _ P EP) as [[G W VP FP PF RES RU FS] NO].
  constructor; assumption.
Qed.

Lemma PInv2_PrePoll (ls : lstate) : LInv ls -> PInv2 ls -> PrePoll (ls_w ls) (ls_ss ls) (ls_futured ls) (ls_pending ls).
Proof.
  intros I [VP FP RU FS _]. pose proof (li_t I) as Tt.
  constructor; [apply I|apply I|exact VP|exact FP|apply Tt|apply Tt|exact RU|exact FS].
Qed.

Lemma stall_block (w : world) (fut pend : list job) :
  WInv w ->
  (forall j, In j (visible w) -> In j pend) -> (forall j, In j pend -> In j fut) ->
  (forall j, is_none w j = false -> In j fut) ->
  forall n ss tasks,
  GInv w ss ->
  (forall j, In j tasks -> task_ok w j /\ runs ss j) ->
  (forall j, In j fut -> runs ss j) ->
  (forall m i, In i (running (nst ss m)) -> In (m, i) fut) ->
  (forall j, In j tasks -> is_none w j = true) ->
  let '(ss', tasks', stalled) := stall_loop vr g kmax n w ss tasks in
  GInv w ss' /\ (forall j, In j tasks' -> task_ok w j /\ runs ss' j) /\ (forall j, In j fut -> runs ss' j) /\
  (forall m i, In i (running (nst ss' m)) -> In (m, i) fut) /\
  (forall j, In j tasks' -> is_none w j = true) /\
  (stalled = false -> tasks' <> [] \/ any_not_done vr g w ss' = false).
Proof.
  intros W VP PF RF n ss tasks G T FS RU NO.
  destruct (stall_loop vr g kmax n w ss tasks) as [[ss' tasks'] stalled] eqn:ES.
  (* PrePoll with `fut` for both lists: nothing here tells pending from futured *)
  destruct (stall_loop_ind V vr g kmax w
              (fun ss t => PrePoll w ss fut fut /\ (forall j, In j t -> task_ok w j /\ runs ss j)
                           /\ forall j, In j t -> is_none w j = true))
    with (3 := ES) as [[[G1 _ _ _ _ _ RU1 FS1] [T1 NO1]] X]; [|split; [constructor|]; auto|].
  - intros s t s' t' [Pi _] EP. destruct (PrePoll_poll _ _ _ _ _ _ Pi EP) as [P1 N1].
    destruct (poll_spec V fails vr F14 g WF kmax w s s' t' (pp_g _ _ _ _ Pi) W EP) as [_ [R _]].
    split; [exact P1|split; [|exact N1]]. intros j Hj. destruct (R j Hj) as [X [Y _]]. auto.
  - refine (conj G1 (conj T1 (conj FS1 (conj RU1 (conj NO1 _))))). intros S. exact (X S (gi_raised G1)).
Qed.

Lemma stall_part_polled (ls : lstate) ss1 tasks1 :
  PrePoll (ls_w ls) (ls_ss ls) (ls_futured ls) (ls_pending ls) ->
  (forall j, In j (ls_tasks ls) -> is_none (ls_w ls) j = true) ->
  stall_part V vr g kmax ls = (ss1, tasks1, false) ->
  PrePoll (ls_w ls) ss1 (ls_futured ls) (ls_pending ls)
  /\ (forall j, In j tasks1 -> is_none (ls_w ls) j = true)
  /\ (tasks1 <> [] \/ ls_pending ls <> [] \/ any_not_done vr g (ls_w ls) ss1 = false)
  /\ (tasks1 = [] -> ls_tasks ls = []).
Proof.
  intros P0 NO ES.
  destruct (stall_part_ind V vr g kmax ls
              (fun ss t => PrePoll (ls_w ls) ss (ls_futured ls) (ls_pending ls) /\ forall j, In j t -> is_none (ls_w ls) j = true))
    with (3 := ES) as [[P1 NO1] [X Y]]; [intros ss t ss' t' [Pi _] EP; exact (PrePoll_poll _ _ _ _ _ _ Pi EP)|auto|].
  pose proof (X eq_refl (gi_raised (pp_g _ _ _ _ P1))). auto.
Qed.

(* One iteration: the new state is the result of a poll, and either a future has completed or the iteration
   started with nothing to do and has found every node done. *)
Lemma async_step_polled o (ls : lstate) :
  LInv ls -> PInv2 ls ->
  match async_step body fails vr g kmax o ls with
  | Stop OutOfFuel _ => False
  | Stop _ _ => True
  | Continue ls' =>
      Polled ls' /\ (S (count_finish (ls_trace ls)) <= count_finish (ls_trace ls')
                     \/ (idle_done ls' /\ ls_tasks ls = [] /\ ls_pending ls = []))
  end.
Proof.
  intros I P. pose proof (PInv2_PrePoll ls I P) as P0. destruct P as [VP FP RU FS NO].
  destruct (async_step_case V body fails vr g kmax o ls)
    as [| | | |ss1 tasks1 fut pend tr launched w2 pend2 errs2 tr2 ss3 tasks3 R C ES R1 EL EC EP]; try exact Logic.I.
  destruct (stall_part_polled ls ss1 tasks1 P0 NO ES) as [P1 [NO1 [PR1 Hidle]]].
  pose proof (LInv_stall_part V body fails vr F14 g WF kmax ls _ _ _ I ES) as I1.
  destruct (LInv_launch V body fails vr g kmax _ _ _ _ _ ((tasks1, launched) :: ls_iters ls) I1 EL)
    as [I2 [new [Ef [Ep [Hnew [Cf Hfirst]]]]]].
  destruct (LInv_completions V body fails vr g WF kmax o _ _ _ _ _ ((tasks1, launched) :: ls_iters ls) I2 EC) as [I3 [L3 AS]].
  cbn [ls_w ls_ss ls_futured ls_pending ls_trace ls_tasks with_poll] in *.
  pose proof (li_t I3) as T3. cbn in T3.
  assert (P3 : PrePoll w2 ss1 fut pend2 -> Polled (mkLS ss3 w2 tasks3 fut pend2 errs2 tr2 ((tasks1, launched) :: ls_iters ls)))
    by (intros P3; exists ss1; split; [exact P3|exact EP]).
  unfold completions in EC. destruct pend as [|pj pr] eqn:Epend.
  - (* nothing pending after the launch: nothing was to be done, and every node is done *)
    inversion EC; subst w2 pend2 errs2 tr2.
    assert (Hp0 : ls_pending ls = [] /\ new = []) by (destruct (ls_pending ls), new; try discriminate; auto).
    destruct Hp0 as [Hp0 Hn0]. subst new. rewrite app_nil_r in Ef. subst fut.
    assert (Ht0 : tasks1 = []).
    { (* a returned task would be futured without being pending, or stopped by a limit that nothing pending reaches *)
      destruct tasks1 as [|j r]; [reflexivity|]. exfalso. destruct (Hfirst j (or_introl eq_refl)) as [M|M].
      - pose proof (pp_fp _ _ _ _ P1 j M (NO1 j (or_introl eq_refl))) as X. rewrite Hp0 in X. destruct X.
      - unfold below_limit in M. destruct (fix16 vr); [|discriminate]. destruct kmax as [k|] eqn:K; [|discriminate].
        apply Nat.ltb_ge in M. cbn in M. specialize (KP k eq_refl). lia. }
    assert (Hd : any_not_done vr g (ls_w ls) ss1 = false) by (destruct PR1 as [X|[X|X]]; [congruence|congruence|exact X]).
    destruct (poll_all_done (ls_w ls) ss1 (pp_g _ _ _ _ P1) Hd) as [PA1 PA2]. rewrite EP in PA1, PA2. cbn [fst snd] in *.
    split; [apply P3; rewrite <- Hp0; exact P1|right]. repeat split; auto.
  - (* at least one future is pending: at least one completes *)
    rewrite <- Epend in *. assert (Hpne : pend <> []) by (rewrite Epend; discriminate). clear Epend pj pr.
    destruct (AS Hpne) as [VP' [CA CC]].
    split; [apply P3|left; rewrite <- Cf; exact CC].
    constructor; [apply I3|apply I3|exact VP'| |apply T3|apply T3| |].
    + intros j Hj Hn. assert (Hp : In j pend).
      { rewrite Ef in Hj. apply in_app_or in Hj. rewrite Ep. apply in_or_app. destruct Hj as [Hj|Hj]; [left|right; exact Hj].
        apply FP; [exact Hj|]. eapply is_none_anti; eauto. }
      destruct (CA j Hp) as [X|X]; [exact X|congruence].
    + intros n i Hi. rewrite Ef. apply in_or_app. left. apply (pp_run _ _ _ _ P1), Hi.
    + intros j Hj. rewrite Ef in Hj. apply in_app_or in Hj.
      destruct Hj as [Hj|Hj]; [apply (pp_fs _ _ _ _ P1), Hj|apply (li_tasks I1), Hnew, Hj].
Qed.

Lemma async_step_prog2 o (ls : lstate) :
  LInv ls -> PInv2 ls ->
  match async_step body fails vr g kmax o ls with
  | Stop OutOfFuel _ => False
  | Stop _ _ => True
  | Continue ls' => PInv2 ls' /\ (S (count_finish (ls_trace ls)) <= count_finish (ls_trace ls') \/ idle_done ls')
  end.
Proof.
  intros I P. pose proof (async_step_polled o ls I P) as H.
  destruct (async_step body fails vr g kmax o ls) as [ls'|st ls']; [|exact H].
  destruct H as [A [B|[B _]]]; (split; [apply Polled_PInv2, A|auto]).
Qed.

Lemma idle_done_stops o (ls : lstate) :
  LInv ls -> idle_done ls -> exists ls', async_step body fails vr g kmax o ls = Stop Finished ls'.
Proof.
  intros I D. unfold async_step.
  rewrite (gi_raised (li_g I)), (proj2 (loop_cond_false V vr g ls) D). cbn. eauto.
Qed.

Lemma run_loop_no_fuel_out : forall fuel orc ls,
  LInv ls -> PInv2 ls ->
  List.length (all_jobs g) + 2 <= fuel + count_finish (ls_trace ls) ->
  o_status (run_loop body fails vr g kmax fuel orc ls) <> OutOfFuel.
Proof.
  induction fuel as [|f IH]; intros orc ls I P B.
  - pose proof (finish_bound V body fails vr g kmax ls I). lia.
  - rewrite run_loop_S.
    pose proof (async_step_spec V body fails vr F14 g WF kmax (hd default_step orc) ls I) as S1.
    pose proof (async_step_prog2 (hd default_step orc) ls I P) as S2.
    destruct (async_step body fails vr g kmax (hd default_step orc) ls) as [ls'|st ls'].
    + destruct S2 as [P' [C|C]]; [apply IH; auto; lia|].
      (* everything is done: the next test of the loop condition ends the loop *)
      destruct f as [|f']; [pose proof (finish_bound V body fails vr g kmax ls I); lia|].
      rewrite run_loop_S. destruct (idle_done_stops (hd default_step (tl orc)) ls' S1 C) as [ls'' ->]. discriminate.
    + cbn. destruct st; try discriminate. contradiction.
Qed.

Lemma Polled_init : Polled (ls_init V vr g kmax).
Proof.
  unfold ls_init. destruct (poll vr g kmax (w_init V) (ss_init V)) as [ss tasks] eqn:EP.
  exists (ss_init V). split; [|exact EP].
  constructor; cbn; [apply GInv_init|apply WInv_init|intros j []|intros j []|intros j []| |intros n i []|intros j []].
  intros j H. discriminate H.
Qed.

Lemma PInv2_init : PInv2 (ls_init V vr g kmax).
Proof. apply Polled_PInv2, Polled_init. Qed.

(* For every wf graph, every set of failing jobs, every max_concurrent >= 1 (or none) and every
   oracle: |jobs| + 2 iterations of `while tasks or task_futures or any(not n.done ...)` suffice.
   The loop ends Finished or Stalled (the stall detector's RuntimeError); it never raises otherwise. *)
Theorem async_terminates_full orc fuel :
  List.length (all_jobs g) + 2 <= fuel ->
  o_status (run_async V body fails vr g kmax orc fuel) = Finished \/
  o_status (run_async V body fails vr g kmax orc fuel) = Stalled.
Proof.
  intros B.
  assert (N : o_status (run_async V body fails vr g kmax orc fuel) <> OutOfFuel).
  { unfold run_async. apply run_loop_no_fuel_out; [apply LInv_init; assumption|apply PInv2_init|lia]. }
  pose proof (async_never_raises V body fails vr F14 g WF kmax orc fuel) as R.
  destruct (o_status (run_async V body fails vr g kmax orc fuel)); auto; congruence.
Qed.

Hypothesis NF : forall j, fails j = false.

Lemma PrePoll_progress (w : world) ss fut ss' tasks :
  PrePoll w ss fut [] -> poll vr g kmax w ss = (ss', tasks) ->
  tasks <> [] \/ any_not_done vr g w ss' = false \/ newly_started_zero V g (nst ss) (nst ss').
Proof.
  intros [G W VP FP PF RES RU FS] EP.
  apply (poll_makes_progress V fails vr F14 g WF kmax NF KP w ss ss' tasks G W); [| |exact EP].
  - intros n i Hi. destruct (is_none w (n, i)) eqn:N; [|reflexivity]. destruct (FP _ (RU n i Hi) N).
  - intros j. destruct (mem_job j (visible w)) eqn:M; [|reflexivity]. apply mem_job_In, VP in M. destruct M.
Qed.

Hypothesis NJ : forall nd, In nd g -> 1 <= njobs nd.

Lemma polled_idle (ls : lstate) :
  Polled ls -> ls_pending ls = [] -> ls_tasks ls = [] -> any_not_done vr g (ls_w ls) (ls_ss ls) = false.
Proof.
  intros [ss [P EP]] Hp Ht. rewrite Hp in P.
  destruct (PrePoll_progress _ _ _ _ _ P EP) as [X|[X|[nd [Hnd [Z _]]]]]; [contradiction|exact X|].
  specialize (NJ nd Hnd). lia.
Qed.

(* no failing job and at least one job in every node: an iteration that starts with nothing to do finds
   every node done, so the stall block is never entered and every iteration but the last completes a future *)
Lemma run_loop_terminates : forall fuel orc ls,
  LInv ls -> Polled ls ->
  List.length (all_jobs g) + 1 <= fuel + count_finish (ls_trace ls) ->
  o_status (run_loop body fails vr g kmax fuel orc ls) = Finished.
Proof.
  induction fuel as [|f IH]; intros orc ls I P B.
  - pose proof (finish_bound V body fails vr g kmax ls I). lia.
  - rewrite run_loop_S.
    assert (Idle : ls_tasks ls = [] -> ls_pending ls = [] -> loop_cond vr g ls = false).
    { intros T0 P0. apply loop_cond_false. auto using polled_idle. }
    pose proof (async_step_spec V body fails vr F14 g WF kmax (hd default_step orc) ls I) as S1.
    pose proof (async_step_polled (hd default_step orc) ls I (Polled_PInv2 ls P)) as S2.
    revert S1 S2.
    destruct (async_step_case V body fails vr g kmax (hd default_step orc) ls)
      as [R|R C|ss1 tasks1 stalled R C ES R1|ss1 tasks1 R C ES R1| ]; intros S1 S2.
    + destruct S1 as [_ X]. congruence.
    + reflexivity.
    + destruct S1 as [_ X]. congruence.
    + exfalso. destruct (stall_part_stalled V vr g kmax ls _ _ ES) as [T0 [P0 _]]. rewrite (Idle T0 P0) in C. discriminate.
    + destruct S2 as [P' [Pr|[_ [T0 P0]]]]; [apply IH; auto; lia|]. rewrite (Idle T0 P0) in *. discriminate.
Qed.

Theorem async_terminates orc fuel :
  List.length (all_jobs g) + 1 <= fuel -> o_status (run_async V body fails vr g kmax orc fuel) = Finished.
Proof.
  intros B. unfold run_async. apply run_loop_terminates; [apply LInv_init; assumption|apply Polled_init|lia].
Qed.

End Term.
