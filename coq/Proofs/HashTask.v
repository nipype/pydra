(* Proofs/HashTask.v — Task._compute_hashes / _checksum (Model.Hash.compute_hash / checksum) on top of the value
   theorems: the checksum is a function of the field names and of the digests the field values have alone
   (the Cache shared between the fields does not matter for acyclic values), so two tasks whose fields have
   pairwise equal digests share their checksum (C06; the session theorems of C07 in HashOrderDeep.v are instances). *)
From Pydra Require Import Base.Prelude Model.Hash Proofs.HashCtx Proofs.HashOrder.
Local Open Scope list_scope.

Section Task.
  Variable H : string -> string.
  Variable env : nat -> option pyval.

  Definition dg (v : pyval) : string := match digest H v with Ok d => d | Err _ => EmptyString end.

  (* the (name, hex digest) pairs that _compute_hashes collects, when every field is hashed alone *)
  Definition fh_of (fields : list (string * pyval)) : list (string * string) :=
    map (fun kv : string * pyval => (fst kv, hex (dg (snd kv)))) fields.

  Lemma field_hashes_alone : forall fields,
      (forall kv, In kv fields -> hashable_acyclic H env (snd kv)) ->
      field_hashes H fields [] = Ok (fh_of fields).
  Proof.
    intros fields. generalize (Inv_nil H env). generalize (@nil (nat * string)).
    induction fields as [|[k v] fields IH]; intros m HI Hall; [reflexivity|].
    destruct (hash_object_alone H env v m (Hall (k, v) (or_introl eq_refl)) HI) as (d & m' & Hd & Ehs & HI').
    cbn [field_hashes fh_of map fst snd]. unfold dg at 1. rewrite Ehs, Hd, (IH m' HI'); auto.
    intros kv Hkv. apply Hall. now right.
  Qed.

  (* the checksum as a function of (name, digest alone) pairs *)
  Definition hash_of_items (fh : list (string * string)) : res string :=
    match sorted_res vlt (items_val 1 fh) with
    | Err e => Err e
    | Ok items => match hash_object H (VList 0 items) [] with Ok (d, _) => Ok (hex d) | Err e => Err e end
    end.

  Theorem compute_hash_alone : forall fields,
      (forall kv, In kv fields -> hashable_acyclic H env (snd kv)) ->
      compute_hash H fields = hash_of_items (fh_of fields).
  Proof.
    intros fields Hall. unfold compute_hash. rewrite (field_hashes_alone fields Hall). reflexivity.
  Qed.
End Task.

(* two sessions: the same field names, values equal up to set iteration order, dict insertion order and object
   identities *)
Definition session_variant (f1 f2 : list (string * pyval)) : Prop :=
  Forall2 (fun a b : string * pyval => fst a = fst b /\ reorder (snd a) (snd b)) f1 f2.

Lemma dg_eq : forall H v1 v2 d1 d2,
    (forall f, dig H f v1 tt = dig H f v2 tt) -> digest H v1 = Ok d1 -> digest H v2 = Ok d2 -> dg H v1 = dg H v2.
Proof.
  intros H v1 v2 d1 d2 E D1 D2. unfold dg. rewrite D1, D2. apply digest_dig in D1. apply digest_dig in D2.
  rewrite E in D1. eapply dig_det; eauto.
Qed.

(* C06: tasks whose fields have the same names and pairwise the same digests share the checksum, whatever else
   differs between them *)
Theorem checksum_only_sees_digests : forall H env1 env2 ty f1 f2,
    Forall2 (fun a b : string * pyval => fst a = fst b /\ dg H (snd a) = dg H (snd b)) f1 f2 ->
    (forall kv, In kv f1 -> hashable_acyclic H env1 (snd kv)) ->
    (forall kv, In kv f2 -> hashable_acyclic H env2 (snd kv)) ->
    checksum H ty f1 = checksum H ty f2.
Proof.
  intros H env1 env2 ty f1 f2 Hv H1 H2. unfold checksum.
  rewrite (compute_hash_alone H env1 f1 H1), (compute_hash_alone H env2 f2 H2).
  enough (E : fh_of H f1 = fh_of H f2) by now rewrite E.
  clear H1 H2. unfold fh_of. induction Hv as [|a b f1 f2 [Hn Hr] Hv IH]; [reflexivity|]. cbn [map]. now rewrite Hn, Hr, IH.
Qed.
