(* Proofs/CacheProtoC35n.v — C35 for concurrent histories: whenever nobody is inside the critical section of the
   checksum (or the holder has not touched the directory yet) and some execution has gone through the finally
   region, the job directory holds the complete job record and a complete result. Any number of processes, any
   interleaving, exceptions only inside the try block / its handler (nobody is `dirty`). Kills are allowed in
   directory_complete; directory_consistent_n excludes them to conclude from the absent marker that nobody is inside. *)
From Pydra Require Import Base.Prelude.
From Pydra Require Import Model.CacheProto Proofs.CacheProto Proofs.CacheProtoC35 Proofs.CacheProtoC10.
Local Open Scope nat_scope.

(* inside the with block, but the job directory has not been touched yet (before shutil.rmtree) *)
Definition untouched (c : pcT) : bool := match c with Locked | Hit0 | Hit1 | Miss | Pop1 => true | _ => false end.
Definition touching (c : pcT) : bool := holds c && negb (untouched c).
Definition dir_ok (g : glob) : Prop := dir g = true /\ jobf g = Complete tt /\ exists r, resf g = Complete r.
Definition is_cwd_restored (a : action) : bool := match a with ACwdRestored => true | _ => false end.
(* some execution has reached job.cwd_restored, the last statement of the finally block *)
Definition went_through (tr : list event) : bool := existsb (fun e => is_cwd_restored (snd e)) tr.
Definition all_clean (s : state) : Prop := forall p, dirty (procs s p) = false.
(* b: a result was there at the start or some execution has gone through.  A process that became dirty stays so
   (dirty_step), which is why it may stand in for the one that is touching the directory. *)
Definition dir_inv (b : bool) (s : state) : Prop :=
  (b = true -> dir_ok (gl s)) \/ exists h, touching (pc (procs s h)) || dirty (procs s h) = true.

(* the actions that cannot make a process dirty (`det` of C10 excludes ABodyRaise and rerun requests besides) *)
Definition no_exc (a : action) : bool :=
  match a with AExc | APreHookRaise | APostHookRaise => false | _ => true end.

Lemma dir_ok_same g g' : same_files g g' -> dir_ok g -> dir_ok g'.
Proof. intros (A & B & C & _) (D & E & r & F). unfold dir_ok. rewrite A, B, C. eauto. Qed.

Section C35n.
  Variable pickle : res -> list nat.
  Variable unpickle : list nat -> option res.
  Variable bv : val.
  Notation lstep := (lstep pickle unpickle bv).
  Notation step := (step pickle unpickle bv).
  Notation run := (run pickle unpickle bv).
  Notation init := (init bv).

  Lemma dirty_step {p q g a q' g'} : lstep p q g a = Some (q', g') ->
    (dirty q = true -> dirty q' = true) /\ (no_exc a = true -> dirty q' = dirty q).
  Proof. intros H. lstep_cases H; cbn; split; auto; intros D; discriminate D. Qed.

  (* a process that is neither working on the files nor dirty after its step has left them alone, and if it was
     working on them (or dirty) before, the step is the release at the end of the finally block *)
  Lemma lstep_not_touching {p q g a q' g'} :
    lstep p q g a = Some (q', g') -> (pc q = ExcHold -> dirty q = true) ->
    touching (pc q') || dirty q' = false ->
    is_cwd_restored a = false /\ same_files g g' /\ (touching (pc q) || dirty q = true -> pc q = Fin5).
  Proof.
    intros H. lstep_cases H; unfold same_files; cbn; intros X D.
    all: try discriminate D.
    all: try (rewrite D; cbn).
    all: repeat split; intros; try discriminate; auto.
    (* the release at ExcHold: that process is dirty *)
    rewrite X in D by reflexivity. discriminate D.
  Qed.

  Lemma dir_inv_step b s e s' :
    c35_inv s -> dir_inv b s -> step s e = Some s' -> dir_inv (b || is_cwd_restored (snd e)) s'.
  Proof.
    intros [HL HF] DN H. apply step_cases in H. destruct H as [p Dp|p a q' g' Dp L]; cbn [snd]; [now rewrite orb_false_r|].
    (* only p has to be looked at, and only when it is neither touching nor dirty afterwards *)
    revert DN. apply (unless_at_step (fun q => touching (pc q) || dirty q)). intros X.
    destruct (touching (pc q') || dirty q') eqn:Tq'; [now right|left; intros Bt].
    destruct (lstep_not_touching L (li_hold _ (HL p)) Tq') as (Ea & SF & E5). rewrite Ea, orb_false_r in Bt.
    apply (dir_ok_same _ _ SF). destruct X as [F|Tq]; [exact (F Bt)|].
    (* p leaves at job.cwd_restored: what it has saved is there *)
    pose proof (HF p Dp) as F. unfold fs_inv in F. rewrite (E5 Tq) in F. destruct F as (F1 & F3 & F2).
    split; [exact F1|]. split; [exact F3|]. eexists. exact F2.
  Qed.

  Lemma dir_inv_run tr : forall s0 s b0,
    lock_inv s0 -> c35_inv s0 -> dir_inv b0 s0 -> run s0 tr = Some s -> dir_inv (b0 || went_through tr) s.
  Proof.
    induction tr as [|e tr IH]; cbn [CacheProto.run went_through existsb]; intros s0 s b0 LI CI DN R.
    - inversion R; subst. now rewrite orb_false_r.
    - destruct (step s0 e) as [s1|] eqn:E; [|discriminate].
      rewrite orb_assoc. apply (IH s1); eauto using lock_inv_step, c35_inv_step, dir_inv_step.
  Qed.

  (* Kills included: once a result was there or some execution has gone through the finally block, the job directory
     is complete at every moment at which no process, dead or alive, is between shutil.rmtree and the release *)
  Theorem directory_complete pre tr s :
    run (init pre) tr = Some s -> all_clean s -> pre = true \/ went_through tr = true ->
    dir_ok (gl s) \/ exists h, touching (pc (procs s h)) = true.
  Proof.
    intros R C W. destruct (dir_inv_run tr (init pre) s pre) as [D|(h & Th)]; auto using lock_inv_init, c35_inv_init.
    - left. intros ->. unfold dir_ok; cbn. eauto.
    - left. apply D. destruct W as [->| ->]; [reflexivity|apply orb_true_r].
    - right. exists h. now rewrite C, orb_false_r in Th.
  Qed.

  (* no kills and the marker absent: nobody is inside, which leaves the first alternative of directory_complete *)
  Theorem directory_consistent_n pre tr s :
    run (init pre) tr = Some s -> nocrash_trace tr = true ->
    all_clean s ->
    lock (gl s) = None ->
    pre = true \/ went_through tr = true ->
    dir (gl s) = true /\ jobf (gl s) = Complete tt /\ (exists r, resf (gl s) = Complete r) /\
    forall p, holds (pc (procs s p)) = false /\ cwd (procs s p) = Home /\ infos (procs s p) = 0.
  Proof.
    intros R N C LN W.
    assert (Hp := fun p => unlocked_outside s p (lock_inv_reachable pickle unpickle bv _ _ _ R) LN
                             (nocrash_alive pickle unpickle bv _ _ _ N R p)).
    destruct (directory_complete pre tr s R C W) as [(D1 & D2 & D3)|(h & Th)].
    - split; [exact D1|]. split; [exact D2|]. split; [exact D3|].
      intros p. split; [apply Hp|].
      destruct (finally_region pickle unpickle bv pre tr s p R (C p)) as [F _]. exact (F (Hp p)).
    - unfold touching in Th. now rewrite Hp in Th.
  Qed.

  (* while the checksum is unlocked nothing in its directory changes (a kill changes nothing at all there) *)
  Theorem unlocked_directory_stable pre tr s e s' :
    run (init pre) tr = Some s -> lock (gl s) = None -> step s e = Some s' ->
    same_files (gl s) (gl s').
  Proof.
    intros R LN H. apply step_cases in H. destruct H as [p Dp|p a q' g' Dp L]; [repeat split|].
    exact (outside_same_files _ _ _ L (unlocked_outside s p (lock_inv_reachable pickle unpickle bv _ _ _ R) LN Dp)).
  Qed.

  Lemma run_no_exc_clean tr s0 s :
    all_clean s0 -> forallb (fun e => no_exc (snd e)) tr = true -> run s0 tr = Some s -> all_clean s.
  Proof.
    intros C N. apply (run_inv_on pickle unpickle bv (fun e => no_exc (snd e) = true) all_clean); [|exact C|now apply forallb_forall].
    intros s1 e s2 C1 H Ne. apply step_cases in H. destruct H as [p _|p a q' g' _ L]; [exact C1|].
    intros r. cbn. apply (upd_all (fun q => dirty q = false)); [exact C1|]. rewrite (proj2 (dirty_step L) Ne). apply C1.
  Qed.
End C35n.

(* two submitters: 0 executes, 1 arrives meanwhile, waits, and is served from the cache *)
Definition two_submitters_trace : list event :=
  [(0, APreRun false false); (0, AAcquire); (1, APreRun false false); (0, AChecked); (0, AInfoWritten); (0, ADirCleared);
   (0, ADirCreated); (0, ASaveAcq); (0, AJobBefore); (0, AJobOpened); (0, AJobDumped); (0, AJobAfter); (0, ASaveRel);
   (0, AJobSaved); (0, APopulated); (0, ACwdChanged); (0, APreHook); (0, AAuditStarted); (0, ABodyEnter); (0, ABodyLeft);
   (0, AOutputs); (0, APostHook); (0, AAuditFinal); (0, ASaveAcq); (0, AResBefore); (0, AResOpened); (0, AResDumped);
   (0, AResAfter); (0, AJobBefore); (0, AJobOpened); (0, AJobDumped); (0, AJobAfter); (0, ASaveRel); (0, AResultSaved);
   (0, AInfoRemoved); (0, ACwdRestored); (0, ARelease); (1, AAcquire); (0, ALockReleased); (1, AChecked); (1, AHit);
   (0, APostRun); (1, ARelease); (0, AReturned); (1, AReturned)].

Lemma two_submitters_meet_hypotheses :
  exists s, run toy_pickle toy_unpickle 7 (init 7 false) two_submitters_trace = Some s /\
            nocrash_trace two_submitters_trace = true /\
            (forall p, dirty (procs s p) = false) /\
            lock (gl s) = None /\ went_through two_submitters_trace = true /\
            ret (procs s 0) = Some (Returned (mkRes false (Some 7))) /\ ret (procs s 1) = Some (Returned (mkRes false (Some 7))).
Proof.
  eexists. split; [vm_compute; reflexivity|]. split; [reflexivity|]. split.
  - apply (run_no_exc_clean toy_pickle toy_unpickle 7 two_submitters_trace (init 7 false)).
    + intros p. reflexivity.
    + reflexivity.
    + vm_compute; reflexivity.
  - vm_compute. auto.
Qed.
