(* Proofs/HashOrderDeep.v — order invariance with sets re-ordered at every nesting level simultaneously:
   the elements of a re-ordered set may themselves be re-ordered values (nested frozensets, tuples holding sets…).
   `sorted` compares the ELEMENTS THEMSELVES with Python's `<` (sets) resp. the KEYS themselves (dicts), never
   their digests; so the hypothesis at each set node is about its elements: pairwise distinct, in a class that `<`
   orders totally (keys_ok), and `<` gives the same answers on the elements as seen in the other session (compat).
   Incomparable elements (two frozensets neither of which contains the other: findings F07 / F08d of
   design/C08.md) fail keys_ok.
   Re-ordering with the elements kept as they are (HashOrder.reorder on sortable values) is the special case
   reorder_operm, which gives dig_reorder and the C07 session theorems. *)
From Coq Require Import Sorting.Permutation.
From Pydra Require Import Base.Prelude Model.Hash.
From Pydra Require Import Proofs.HashSort Proofs.HashCtx Proofs.HashOrder Proofs.HashTask Proofs.HashInj Proofs.HashDom Proofs.ListFacts.
Local Open Scope list_scope.

(* `<` answers alike on corresponding elements of two aligned lists *)
Definition compat (l1 l1' : list pyval) : Prop :=
  Forall2 (fun a a' => Forall2 (fun b b' => vlt a b = vlt a' b') l1 l1') l1 l1'.

Inductive operm : pyval -> pyval -> Prop :=
| op_refl v : operm v v
| op_list i j l1 l2 : Forall2 operm l1 l2 -> operm (VList i l1) (VList j l2)
| op_tuple i j l1 l2 : Forall2 operm l1 l2 -> operm (VTuple i l1) (VTuple j l2)
| op_set i j l1 l1' l2 :
    Forall2 operm l1 l1' -> compat l1 l1' -> keys_ok l1' -> Permutation l1' l2 -> operm (VSet i l1) (VSet j l2)
| op_fset i j l1 l1' l2 :
    Forall2 operm l1 l1' -> compat l1 l1' -> keys_ok l1' -> Permutation l1' l2 ->
    operm (VFrozenset i l1) (VFrozenset j l2)
| op_dict i j kv1 kv' kv2 :
    keys_ok (map fst kv1) -> Permutation kv1 kv' ->
    Forall2 (fun a b : pyval * pyval => fst a = fst b /\ operm (snd a) (snd b)) kv' kv2 ->
    operm (VDict i kv1) (VDict j kv2)
| op_obj i j c a1 a' a2 :
    keys_ok (map (fun a : string * pyval => VStr (fst a)) a1) -> Permutation a1 a' ->
    Forall2 (fun a b : string * pyval => fst a = fst b /\ operm (snd a) (snd b)) a' a2 ->
    operm (VObj i c a1) (VObj j c a2).

Lemma compat_lt : forall l1 l1', compat l1 l1' -> forall a a' b b',
    In (a, b) (combine l1 l1') -> In (a', b') (combine l1 l1') -> vlt a a' = vlt b b'.
Proof.
  intros l1 l1' Hc a a' b b' Ha Ha'. exact (F2_in_combine _ _ _ _ _ (F2_in_combine _ _ _ _ _ Hc Ha) Ha').
Qed.

Section Deep.
  Variable H : string -> string.

  Lemma set_case : forall f l1 l1' l2 o c,
      (forall a a', operm a a' -> dig H f a tt = dig H f a' tt) ->
      Forall2 operm l1 l1' -> compat l1 l1' -> keys_ok l1' -> Permutation l1' l2 ->
      match sorted_res vlt l1 with Err e => Err e | Ok sl => wrap_seq H f o c sl end =
      match sorted_res vlt l2 with Err e => Err e | Ok sl => wrap_seq H f o c sl end.
  Proof.
    intros f l1 l1' l2 o c IH HF Hc Hk Hp. rewrite <- (sorted_set_perm l1' l2 Hk Hp).
    apply (sorted_res_rel (F2_combine _ _ _ HF) (compat_lt l1 l1' Hc)). intros s s' Hs.
    unfold wrap_seq. rewrite (seq_contents_eq (dig H f) s s'); [reflexivity|].
    apply (F2_impl_in Hs). intros a a' _ _ Hin. apply IH. eapply F2_in_combine; eauto.
  Qed.

  Theorem dig_operm : forall f v1 v2, operm v1 v2 -> dig H f v1 tt = dig H f v2 tt.
  Proof.
    induction f as [|f IH]; intros v1 v2 Hr; [reflexivity|].
    cbn [dig]. enough (E : repr (dig H f) v1 tt = repr (dig H f) v2 tt) by now rewrite E.
    inversion Hr as [v|i j l1 l2 HF|i j l1 l2 HF|i j l1 l1' l2 HF Hc Hk Hp|i j l1 l1' l2 HF Hc Hk Hp
                     |i j kv1 kv' kv2 Hk Hp HF|i j c a1 a' a2 Hk Hp HF]; subst; [reflexivity| | | | | |].
    - cbn. rewrite (seq_contents_eq (dig H f) l1 l2); [reflexivity|].
      apply (F2_impl_in HF). intros a b _ _ Hab. now apply IH.
    - cbn. rewrite (seq_contents_eq (dig H f) l1 l2); [reflexivity|].
      apply (F2_impl_in HF). intros a b _ _ Hab. now apply IH.
    - exact (set_case f l1 l1' l2 "set:{" "}" IH HF Hc Hk Hp).
    - exact (set_case f l1 l1' l2 "frozenset:{" "}" IH HF Hc Hk Hp).
    - cbn [repr]. rewrite (mapping_eq (dig H f) kv1 kv' kv2 Hk Hp); [reflexivity|].
      apply (F2_impl_in HF). intros a b _ _ [Ek Hab]. split; auto.
    - cbn [repr].
      set (g := fun a : string * pyval => (VStr (fst a), snd a)).
      rewrite (mapping_eq (dig H f) (map g a1) (map g a') (map g a2)); [reflexivity| | |].
      + rewrite map_map. exact Hk.
      + now apply Permutation_map.
      + apply (Forall2_map HF). cbn. intros a b [Ek Hab]. split; [now rewrite Ek|now apply IH].
  Qed.
End Deep.

Lemma compat_refl : forall l, compat l l.
Proof. intros l. apply F2_refl. intros a. apply F2_refl. reflexivity. Qed.

Lemma operm_set_flat : forall i j l1 l2, keys_ok l1 -> Permutation l1 l2 -> operm (VSet i l1) (VSet j l2).
Proof. intros. apply op_set with (l1' := l1); auto; [apply F2_refl; apply op_refl|apply compat_refl]. Qed.
Lemma operm_fset_flat : forall i j l1 l2, keys_ok l1 -> Permutation l1 l2 -> operm (VFrozenset i l1) (VFrozenset j l2).
Proof. intros. apply op_fset with (l1' := l1); auto; [apply F2_refl; apply op_refl|apply compat_refl]. Qed.

Lemma reorder_operm : forall v1, sortable v1 -> forall v2, reorder v1 v2 -> operm v1 v2.
Proof.
  induction 1 as [v1 Hk _ IH]. intros v2 Hr.
  inversion Hr as [v|i j l1 l2 HF|i j l1 l2 HF|i j l1 l2 Hp|i j l1 l2 Hp|i j kv1 kv' kv2 Hp HF|i j c a1 a' a2 Hp HF];
    subst; cbn [subs] in IH.
  - apply op_refl.
  - apply op_list. apply (F2_impl_in HF). auto.
  - apply op_tuple. apply (F2_impl_in HF). auto.
  - now apply operm_set_flat.
  - now apply operm_fset_flat.
  - apply (op_dict i j kv1 kv' kv2 Hk Hp). apply (F2_impl_in HF). intros a b Ha _ [Ek Hab].
    split; [exact Ek|]. apply IH; [|exact Hab]. apply in_flat_map. exists a. split; [now rewrite Hp|].
    apply in_or_app. right. now left.
  - apply (op_obj i j c a1 a' a2 Hk Hp). apply (F2_impl_in HF). intros a b Ha _ [Ek Hab].
    split; [exact Ek|]. apply IH; [|exact Hab]. apply in_map. now rewrite Hp.
Qed.

Theorem dig_reorder : forall H f v1 v2, reorder v1 v2 -> sortable v1 -> dig H f v1 tt = dig H f v2 tt.
Proof. intros H f v1 v2 Hr Hs. apply dig_operm. now apply reorder_operm. Qed.

Definition session_variant_deep (f1 f2 : list (string * pyval)) : Prop :=
  Forall2 (fun a b : string * pyval => fst a = fst b /\ operm (snd a) (snd b)) f1 f2.

Theorem checksum_session_independent_deep : forall H env1 env2 ty f1 f2,
    session_variant_deep f1 f2 ->
    (forall kv, In kv f1 -> hashable_acyclic H env1 (snd kv)) ->
    (forall kv, In kv f2 -> hashable_acyclic H env2 (snd kv)) ->
    checksum H ty f1 = checksum H ty f2.
Proof.
  intros H env1 env2 ty f1 f2 Hv H1 H2.
  apply (checksum_only_sees_digests H env1 env2); auto.
  apply (F2_impl_in Hv). intros a b Ha Hb [Hn Hr]. split; [exact Hn|].
  destruct (H1 a Ha) as [_ [d1 D1]]. destruct (H2 b Hb) as [_ [d2 D2]].
  exact (dg_eq H _ _ d1 d2 (fun f => dig_operm H f _ _ Hr) D1 D2).
Qed.

Theorem checksum_session_independent : forall H env1 env2 ty f1 f2,
    session_variant f1 f2 ->
    (forall kv, In kv f1 -> sortable (snd kv) /\ hashable_acyclic H env1 (snd kv)) ->
    (forall kv, In kv f2 -> hashable_acyclic H env2 (snd kv)) ->
    checksum H ty f1 = checksum H ty f2.
Proof.
  intros H env1 env2 ty f1 f2 Hv H1 H2.
  apply (checksum_session_independent_deep H env1 env2); [|intros kv Hkv; now apply H1|exact H2].
  apply (F2_impl_in Hv). intros a b Ha _ [Hn Hr]. split; [exact Hn|].
  apply reorder_operm; [now apply H1|exact Hr].
Qed.

(* non-vacuity: nested frozensets, a chain under proper-subset order, re-ordered at both levels:
   {fs{1,2}, fs{1,2,3}} vs {fs{3,1,2}, fs{2,1}} *)
Definition nx_a1 : pyval := VFrozenset 2 [VInt 1; VInt 2].
Definition nx_b1 : pyval := VFrozenset 3 [VInt 1; VInt 2; VInt 3].
Definition nx_a2 : pyval := VFrozenset 5 [VInt 2; VInt 1].
Definition nx_b2 : pyval := VFrozenset 6 [VInt 3; VInt 1; VInt 2].
Definition nx_v1 : pyval := VFrozenset 1 [nx_a1; nx_b1].
Definition nx_v2 : pyval := VFrozenset 4 [nx_b2; nx_a2].

Definition nx_class (v : pyval) : Prop := v = nx_a2 \/ v = nx_b2.
Lemma nx_ordered : ordered_class nx_class.
Proof.
  constructor.
  - intros x y [->| ->] [->| ->]; eexists; vm_compute; reflexivity.
  - intros x y z [->| ->] [->| ->] [->| ->]; vm_compute; intros E1 E2; try discriminate; reflexivity.
  - intros x y [->| ->] [->| ->]; vm_compute; intros E1 E2; discriminate.
  - intros x y [->| ->] [->| ->] Hne; try (exfalso; apply Hne; reflexivity); [left|right]; vm_compute; reflexivity.
Qed.

Example nested_operm : operm nx_v1 nx_v2.
Proof.
  apply op_fset with (l1' := [nx_a2; nx_b2]).
  - constructor; [|constructor; [|constructor]].
    + apply operm_fset_flat; [apply keys_okb_sound; reflexivity|apply perm_swap].
    + apply operm_fset_flat; [apply keys_okb_sound; reflexivity|].
      apply perm_trans with [VInt 1; VInt 3; VInt 2]; [apply perm_skip; apply perm_swap|apply perm_swap].
  - unfold compat. repeat constructor; vm_compute; reflexivity.
  - split.
    + constructor; [intros [E|[]]; discriminate E|constructor; [intros []|constructor]].
    + exists nx_class. split; [exact nx_ordered|]. constructor; [now left|constructor; [now right|constructor]].
  - apply perm_swap.
Qed.
