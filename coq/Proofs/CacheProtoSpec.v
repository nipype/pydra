(* Proofs/CacheProtoSpec.v — the model's observations satisfy c10_spec and c12_spec; the toy codec meets the
   codec hypotheses (they are satisfiable); witnesses for the refuted C35 statement. *)
From Pydra Require Import Base.Prelude.
From Pydra Require Import Model.CacheProto Spec.CacheProto Proofs.CacheProto Proofs.CacheProtoC35 Proofs.CacheProtoC10 Proofs.CacheProtoC12.
Local Open Scope nat_scope.

Lemma toy_codec_ok : codec_ok toy_pickle toy_unpickle.
Proof.
  split; [|split].
  - intros [e o]. unfold toy_pickle, toy_unpickle. cbn. destruct e, o; reflexivity.
  - intros r n L. unfold toy_pickle in *. cbn in L.
    destruct n as [|[|[|[|n]]]]; try lia; reflexivity.
  - intros r. unfold toy_pickle. discriminate.
Qed.

Section Bridge.
  Variable pickle : res -> list nat.
  Variable unpickle : list nat -> option res.
  Variable bv : val.
  Hypothesis codec : codec_ok pickle unpickle.
  Notation run := (run pickle unpickle bv).
  Notation init := (init bv).

  Let unpickle_pickle := proj1 codec.
  Let prefix_rejected := proj1 (proj2 codec).
  Let pickle_nonempty := proj2 (proj2 codec).

  Theorem c10_model_meets_spec pre tr s pids :
    clean_trace tr = true -> run (init pre) tr = Some s ->
    c10_spec bv (observe_g s pids) (map (observe_p s) pids).
  Proof.
    intros C R. destruct (once pickle unpickle bv unpickle_pickle prefix_rejected pickle_nonempty _ _ _ C R) as (Le & Hr & Hk).
    split; [exact Le|]. intros o Hin r Er. apply in_map_iff in Hin. destruct Hin as (p & <- & _).
    cbn in Er.
    assert (Ed : pc (procs s p) = Done) by (eapply ret_done; eauto; congruence).
    split.
    - apply (Hr p r Er Ed).
    - cbn. apply (Hk p). now rewrite Ed.
  Qed.

  Theorem c12_model_meets_spec pre tr s p (asy : bool) :
    det_trace tr = true -> run (init pre) tr = Some s ->
    alive s p -> (pc (procs s p) = Idle \/ pc (procs s p) = Done) ->
    (forall r, r <> p -> alive s r -> holds (pc (procs s r)) = false) ->
    exists tr' s', (forall e, In e tr' -> fst e = p) /\ run s tr' = Some s' /\
                   c12_spec bv (runs (gl s)) (observe_g s' [p]) (observe_p s' p).
  Proof.
    intros D R Ap Hpc Oth.
    destruct (recover pickle unpickle bv unpickle_pickle prefix_rejected pickle_nonempty _ _ _ _ asy D R Ap Hpc Oth) as (tr' & s' & F1 & F2 & F3 & F4 & F5).
    exists tr', s'. split; [exact F1|]. split; [exact F2|]. split; [exact F4|exact F5].
  Qed.
End Bridge.

(* C35 at full strength fails: witnesses (evaluated with the toy codec; no result file is ever read) *)
Definition pre_hook_raises_trace : list event :=
  map (pair 0) [APreRun false false; AAcquire; AChecked; AInfoWritten; ADirCleared; ADirCreated;
                ASaveAcq; AJobBefore; AJobOpened; AJobDumped; AJobAfter; ASaveRel; AJobSaved; APopulated;
                ACwdChanged; APreHookRaise; ARelease; ARaisedOut].
Definition post_hook_raises_trace : list event :=
  map (pair 0) [APreRun false false; AAcquire; AChecked; AInfoWritten; ADirCleared; ADirCreated;
                ASaveAcq; AJobBefore; AJobOpened; AJobDumped; AJobAfter; ASaveRel; AJobSaved; APopulated;
                ACwdChanged; APreHook; AAuditStarted; ABodyEnter; ABodyLeft; AOutputs; APostHookRaise;
                ARelease; ARaisedOut].

Lemma pre_hook_witness :
  exists s, run toy_pickle toy_unpickle 7 (init 7 false) pre_hook_raises_trace = Some s /\
            pc (procs s 0) = Done /\ cwd (procs s 0) = InDir /\ infos (procs s 0) = 1 /\ resf (gl s) = Absent /\
            dead (gl s) 0 = false.
Proof. eexists. split; [vm_compute; reflexivity|]. vm_compute. auto 10. Qed.

Lemma post_hook_witness :
  exists s, run toy_pickle toy_unpickle 7 (init 7 false) post_hook_raises_trace = Some s /\
            pc (procs s 0) = Done /\ cwd (procs s 0) = InDir /\ infos (procs s 0) = 1 /\ resf (gl s) = Absent /\
            runs (gl s) = 1.
Proof. eexists. split; [vm_compute; reflexivity|]. vm_compute. auto 10. Qed.
