(* Proofs/SchedD.v — what is known of the jobs a poll returns, and the two predicates on the (reversed) event
   log that the loops maintain. *)
From Pydra Require Import Base.Prelude Base.SchedBase Model.Sched Spec.Sched Proofs.SchedA.
Local Open Scope nat_scope.

Lemma launches_of_app a b : launches_of (a ++ b) = launches_of a ++ launches_of b.
Proof. unfold launches_of. apply flat_map_app. Qed.
Lemma finishes_of_app a b : finishes_of (a ++ b) = finishes_of a ++ finishes_of b.
Proof. unfold finishes_of. apply flat_map_app. Qed.

Section Inv.
Variable V : Type.
Variable fails : job -> bool.
Variable g : graph.

Notation world := (world V).
Notation sstate := (sstate V).
Notation upstream_ok := (upstream_ok V g).

(* what is known of a job returned by a poll: a property of the world only *)
Definition task_ok (w : world) (j : job) : Prop :=
  upstream_ok w (fst j) /\ In j (all_jobs g) /\ tainted_b g fails (fst j) = false.

(* the node of j has been started and is not unrunnable *)
Definition runs (ss : sstate) (j : job) : Prop :=
  started_flag (nst ss (fst j)) = true /\ unrunnable (nst ss (fst j)) = false.

Lemma tasks_mono (w w' : world) ss (tasks : list job) :
  wle V w w' -> (forall j, In j tasks -> task_ok w j /\ runs ss j) -> forall j, In j tasks -> task_ok w' j /\ runs ss j.
Proof.
  intros H T j Hj. destruct (T j Hj) as [[A B] R]. split; [split; [eapply upstream_ok_mono; eauto|exact B]|exact R].
Qed.

Fixpoint safe_rev (tr : list event) : Prop :=
  match tr with
  | [] => True
  | e :: r => match e with
              | ELaunch j => forall q, In q (upstream_jobs g (fst j)) -> In (EFinish q true) r
              | EFinish _ _ => True
              end /\ safe_rev r
  end.

Fixpoint conc_rev (k : nat) (tr : list event) : Prop :=
  match tr with
  | [] => True
  | e :: r => count_launch (e :: r) <= count_finish (e :: r) + k /\ conc_rev k r
  end.

End Inv.

Lemma safe_rev_suffix g l r : safe_rev g (l ++ r) -> safe_rev g r.
Proof. induction l as [|e l IH]; cbn; [auto|]. intros [_ H]; auto. Qed.

Lemma safe_rev_spec g tr : safe_rev g tr -> starts_after_upstream g (rev tr).
Proof.
  intros S l1 j l2 E q Hq.
  assert (E2 : tr = rev l2 ++ ELaunch j :: rev l1).
  { rewrite <- (rev_involutive tr), E, rev_app_distr. cbn. rewrite <- app_assoc. reflexivity. }
  rewrite E2 in S. apply safe_rev_suffix in S. cbn in S. destruct S as [S _].
  apply in_rev. apply S. exact Hq.
Qed.

Lemma flat_map_rev_length {A B} (f : A -> list B) l :
  List.length (flat_map f (rev l)) = List.length (flat_map f l).
Proof.
  induction l as [|e l IH]; [reflexivity|].
  cbn [rev flat_map]. rewrite flat_map_app, !app_length, IH. cbn [flat_map]. rewrite app_nil_r. lia.
Qed.
Lemma count_launch_rev l : count_launch (rev l) = count_launch l.
Proof. apply flat_map_rev_length. Qed.
Lemma count_finish_rev l : count_finish (rev l) = count_finish l.
Proof. apply flat_map_rev_length. Qed.

Lemma conc_rev_suffix k l r : conc_rev k (l ++ r) -> conc_rev k r.
Proof. induction l as [|e l IH]; [auto|]. cbn [app conc_rev]. intros [_ H]; auto. Qed.

Lemma conc_rev_spec k tr : conc_rev k tr -> concurrency_bounded k (rev tr).
Proof.
  intros C l1 l2 E.
  assert (E2 : tr = rev l2 ++ rev l1).
  { rewrite <- (rev_involutive tr), E, rev_app_distr. reflexivity. }
  rewrite E2 in C. apply conc_rev_suffix in C.
  rewrite <- (count_launch_rev l1), <- (count_finish_rev l1).
  destruct (rev l1) as [|e r]; [cbn; lia|]. destruct C as [C _]. exact C.
Qed.
