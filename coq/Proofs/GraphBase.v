(* Proofs/GraphBase.v — list / dictionary lemmas of the DiGraph proofs.  A dictionary is read as its key list and a
   table of multiplicities ([tab]); each loop of DiGraph over a dictionary or a list is specified once: when it
   returns, and what it returns. *)
From Pydra Require Import Base.Prelude Model.Graph Proofs.ListFacts Proofs.Assoc.
From Coq Require Import Sorting.Permutation.
Local Open Scope nat_scope.
Local Open Scope list_scope.

Lemma bind_ok {A B} (r : result A) (f : A -> result B) b :
  bind r f = Ok b -> exists a, r = Ok a /\ f a = Ok b.
Proof. destruct r; cbn; [eauto|discriminate]. Qed.

Lemma of_opt_ok {A} e (o : option A) a : of_opt e o = Ok a -> o = Some a.
Proof. destruct o; cbn; congruence. Qed.

Lemma memb_In x l : memb x l = true <-> In x l.
Proof. exact (existsb_eqb_In Nat.eqb Nat.eqb_eq x l). Qed.
Lemma memb_false x l : memb x l = false <-> ~ In x l.
Proof. exact (existsb_eqb_notIn Nat.eqb Nat.eqb_eq x l). Qed.

Lemma has_dup_false l : has_dup l = false <-> NoDup l.
Proof. exact (has_dup_of_false Nat.eqb Nat.eqb_eq l). Qed.

Lemma edge_eqb_eq x y : edge_eqb x y = true <-> x = y.
Proof. exact (pair_eqb_ok Nat.eqb_eq Nat.eqb_eq x y). Qed.

Section RemoveOne.
  Context {A : Type} {eqb : A -> A -> bool} (eqb_eq : forall x y, eqb x y = true <-> x = y).

  Lemma eqb_dec (x y : A) : {x = y} + {x <> y}.
  Proof.
    destruct (eqb x y) eqn:E; [left; apply eqb_eq, E|right]. intros H. apply eqb_eq in H. congruence.
  Qed.

  Lemma remove_one_perm x l l' : remove_one eqb x l = Some l' -> Permutation l (x :: l').
  Proof.
    revert l'. induction l as [|y l IH]; cbn; intros l' H; [discriminate|].
    destruct (eqb x y) eqn:E.
    - apply eqb_eq in E. subst. inversion H; subst. reflexivity.
    - destruct (remove_one eqb x l) as [r|]; [|discriminate]. inversion H; subst.
      rewrite (IH r eq_refl). apply perm_swap.
  Qed.

  Lemma remove_one_In x l l' : remove_one eqb x l = Some l' -> In x l.
  Proof. intros H. apply remove_one_perm in H. eapply Permutation_in; [symmetry; exact H|left; reflexivity]. Qed.

  Lemma remove_one_incl x l l' y : remove_one eqb x l = Some l' -> In y l' -> In y l.
  Proof. intros H Hy. apply remove_one_perm in H. eapply Permutation_in; [symmetry; exact H|right; exact Hy]. Qed.

  Lemma remove_one_other x l l' y : remove_one eqb x l = Some l' -> y <> x -> In y l -> In y l'.
  Proof.
    intros H Hne Hy. apply remove_one_perm in H.
    eapply Permutation_in in Hy; [|exact H]. destruct Hy as [E|Hy]; [congruence|exact Hy].
  Qed.

  Lemma remove_one_some x l : In x l -> exists l', remove_one eqb x l = Some l'.
  Proof.
    induction l as [|y l IH]; cbn; intros H; [contradiction|].
    destruct (eqb x y) eqn:E; [eauto|].
    destruct H as [H|H]; [subst; assert (eqb x x = true) by (apply eqb_eq; reflexivity); congruence|].
    destruct (IH H) as [r ->]. eauto.
  Qed.

  Lemma remove_one_none x l : remove_one eqb x l = None -> ~ In x l.
  Proof. intros E H. destruct (remove_one_some x l H) as [l' E']. congruence. Qed.

  Lemma remove_one_nodup x l l' : remove_one eqb x l = Some l' -> NoDup l -> NoDup l' /\ ~ In x l'.
  Proof.
    intros H Hnd. apply remove_one_perm in H.
    assert (Hnd' : NoDup (x :: l')) by (eapply Permutation_NoDup; eauto).
    inversion Hnd'; auto.
  Qed.

  Variable dec : forall x y : A, {x = y} + {x <> y}.

  Lemma remove_one_count x l l' : remove_one eqb x l = Some l' ->
    forall y, count_occ dec l y = count_occ dec l' y + (if dec x y then 1 else 0).
  Proof.
    intros H y. apply remove_one_perm in H. rewrite (Permutation_count_occ dec) in H. rewrite H. cbn.
    destruct (dec x y); lia.
  Qed.

  (* for k in l: s.remove(h k) *)
  Lemma remove_each_spec {K} (h : K -> A) l : forall s,
    match foldM (fun s k => of_opt ERemove (remove_one eqb (h k) s)) l s with
    | Ok s' => Permutation s (map h l ++ s')
    | Err _ => ~ (forall y, count_occ dec (map h l) y <= count_occ dec s y)
    end.
  Proof.
    induction l as [|k l IH]; intros s; cbn [foldM map]; [reflexivity|].
    destruct (remove_one eqb (h k) s) as [s1|] eqn:R; cbn [of_opt bind].
    - pose proof (remove_one_count _ _ _ R) as C. specialize (IH s1). destruct (foldM _ l s1) as [s'|e].
      + rewrite (remove_one_perm _ _ _ R). cbn. constructor. exact IH.
      + intros H. apply IH. intros y. specialize (H y). rewrite (C y) in H. cbn in H. destruct (dec (h k) y); lia.
    - intros H. specialize (H (h k)). cbn in H. destruct (dec (h k) (h k)); [|congruence].
      apply remove_one_none, (count_occ_not_In dec) in R. lia.
  Qed.
End RemoveOne.

Lemma foldM_app {A S} (f : S -> A -> result S) l1 l2 s :
  foldM f (l1 ++ l2) s = (s' <- foldM f l1 s ;; foldM f l2 s').
Proof.
  revert s. induction l1 as [|x l1 IH]; intros s; cbn; [reflexivity|].
  destruct (f s x); cbn; [apply IH|reflexivity].
Qed.

Lemma foldM_map {A B S} (f : S -> B -> result S) (h : A -> B) l s :
  foldM (fun s x => f s (h x)) l s = foldM f (map h l) s.
Proof. revert s. induction l as [|x l IH]; intros s; cbn; [reflexivity|]. destruct (f s (h x)); cbn; auto. Qed.

Lemma foldM_pair {A S T} (f : S -> A -> result S) (g : T -> A -> result T) (h : S * T -> A -> result (S * T)) l :
  (forall s t x s', f s x = Ok s' -> h (s, t) x = (t' <- g t x ;; Ok (s', t'))) ->
  forall s t s' t', foldM f l s = Ok s' -> foldM g l t = Ok t' -> foldM h l (s, t) = Ok (s', t').
Proof.
  intros Hh. induction l as [|x l IH]; cbn; intros s t s' t' Hf Hg; [congruence|].
  apply bind_ok in Hf. destruct Hf as [s1 [F1 F]]. apply bind_ok in Hg. destruct Hg as [t1 [G1 G]].
  rewrite (Hh s t x s1 F1), G1. cbn. apply IH; assumption.
Qed.

Lemma foldM_unpair {A S T} (f : S -> A -> result S) (g : T -> A -> result T) (h : S * T -> A -> result (S * T)) l :
  (forall s t x, h (s, t) x = (s' <- f s x ;; t' <- g t x ;; Ok (s', t'))) ->
  forall s t s' t', foldM h l (s, t) = Ok (s', t') -> foldM f l s = Ok s' /\ foldM g l t = Ok t'.
Proof.
  intros Hh. induction l as [|x l IH]; cbn [foldM]; intros s t s' t' H; [inversion H; auto|].
  rewrite Hh in H. destruct (f s x) as [s1|]; [|discriminate]. destruct (g t x) as [t1|]; [|discriminate].
  apply IH, H.
Qed.

Lemma foldM_inv {A S} (f : S -> A -> result S) (P : S -> Prop) :
  (forall s x s', P s -> f s x = Ok s' -> P s') ->
  forall l s s', P s -> foldM f l s = Ok s' -> P s'.
Proof.
  intros Hstep. induction l as [|x l IH]; cbn; intros s s' Hp H.
  - inversion H; subst; assumption.
  - apply bind_ok in H. destruct H as [s1 [H1 H2]]. exact (IH s1 s' (Hstep s x s1 Hp H1) H2).
Qed.

(* dset and dkeys are convertible to Assoc's item assignment and keys at Nat.eqb; dget takes its arguments the other way round *)
Lemma dget_assoc d k : dget d k = assoc_get Nat.eqb k d.
Proof. induction d as [|[k' v'] d IH]; cbn; [reflexivity|]. now rewrite IH. Qed.

Lemma dget_dset d k v b : dget (dset d k v) b = if Nat.eqb b k then Some v else dget d b.
Proof. rewrite !dget_assoc. exact (assoc_get_set Nat.eqb Nat.eqb_eq d k v b). Qed.

Lemma dget_In_keys d k : (exists v, dget d k = Some v) <-> In k (dkeys d).
Proof.
  unfold dkeys. induction d as [|[k' v'] d IH]; cbn.
  - split; [intros [v H]; discriminate|contradiction].
  - destruct (Nat.eqb k k') eqn:E.
    + apply Nat.eqb_eq in E. subst. split; [auto|eauto].
    + apply Nat.eqb_neq in E. rewrite IH. split; [auto|intros [H|H]; [congruence|assumption]].
Qed.

Lemma dget_None_keys d k : dget d k = None <-> ~ In k (dkeys d).
Proof. rewrite dget_assoc. exact (assoc_get_none Nat.eqb Nat.eqb_eq k d). Qed.

Lemma dkeys_dset d k v : dkeys (dset d k v) = if memb k (dkeys d) then dkeys d else dkeys d ++ [k].
Proof. exact (assoc_keys_set Nat.eqb d k v). Qed.

Lemma dkeys_dset_mem d k v : In k (dkeys d) -> dkeys (dset d k v) = dkeys d.
Proof. intros H. apply memb_In in H. rewrite dkeys_dset, H. reflexivity. Qed.

Lemma dset_nodup_keys d k v : NoDup (dkeys d) -> NoDup (dkeys (dset d k v)).
Proof. exact (assoc_nodup_set Nat.eqb Nat.eqb_eq d k v). Qed.

Lemma dpop_spec d k d' :
  dpop d k = Some d' -> NoDup (dkeys d) ->
  (forall b, dget d' b = if Nat.eqb b k then None else dget d b) /\ NoDup (dkeys d').
Proof.
  unfold dkeys. revert d'. induction d as [|[k' v'] d IH]; cbn; intros d' H Hnd; [discriminate|].
  inversion Hnd as [|? ? Hnotin Hnd']; subst.
  destruct (Nat.eqb k k') eqn:E.
  - apply Nat.eqb_eq in E. subst. inversion H; subst. split; [|assumption].
    intros b. destruct (Nat.eqb b k') eqn:E2; [|reflexivity].
    apply Nat.eqb_eq in E2. subst. apply dget_None_keys. exact Hnotin.
  - destruct (dpop d k) as [r|] eqn:Hp; [|discriminate]. inversion H; subst.
    destruct (IH r eq_refl Hnd') as [Hget Hnd2]. split.
    + intros b. cbn. destruct (Nat.eqb b k') eqn:E2.
      * apply Nat.eqb_eq in E2. subst. rewrite Nat.eqb_sym, E. reflexivity.
      * apply Hget.
    + cbn. constructor; [|assumption]. intros Hin.
      apply dget_In_keys in Hin. destruct Hin as [v Hv]. rewrite Hget in Hv.
      destruct (Nat.eqb k' k); [discriminate|]. apply Hnotin. apply dget_In_keys. eauto.
Qed.

Lemma dpop_some d k : In k (dkeys d) -> exists d', dpop d k = Some d'.
Proof.
  unfold dkeys. induction d as [|[k' v'] d IH]; cbn; intros H; [contradiction|].
  destruct (Nat.eqb k k') eqn:E; [eauto|].
  apply Nat.eqb_neq in E. destruct H as [H|H]; [congruence|]. destruct (IH H) as [r ->]. eauto.
Qed.

Lemma dremove_inv d k x d' :
  dremove d k x = Ok d' ->
  exists v v', dget d k = Some v /\ remove_one Nat.eqb x v = Some v' /\ d' = dset d k v'.
Proof.
  unfold dremove. destruct (dget d k) as [v|]; [|discriminate].
  destruct (remove_one Nat.eqb x v) as [v'|] eqn:E; [|discriminate].
  intros H. inversion H; subst. eauto.
Qed.

Lemma dappend_inv d k x d' :
  dappend d k x = Ok d' -> exists v, dget d k = Some v /\ d' = dset d k (v ++ [x]).
Proof. unfold dappend. destruct (dget d k) as [v|]; [|discriminate]. intros H. inversion H; subst. eauto. Qed.

Lemma dappend_dkeys d k x d' : dappend d k x = Ok d' -> dkeys d' = dkeys d.
Proof. intros H. apply dappend_inv in H. destruct H as [v [Hg ->]]. apply dkeys_dset_mem, dget_In_keys. eauto. Qed.

(* connect_all runs two loops side by side, one appending to predecessors, one to successors *)
Lemma connect_all_split es pd sd ps : connect_all es pd sd = Ok ps ->
  foldM (fun d e => dappend d (snd e) (fst e)) es pd = Ok (fst ps) /\
  foldM (fun d e => dappend d (fst e) (snd e)) es sd = Ok (snd ps).
Proof. destruct ps as [pd' sd']. apply foldM_unpair. reflexivity. Qed.

Definition occ (a : node) (l : list node) : nat := count_occ Nat.eq_dec l a.

(* how often a is listed in d[b], a missing entry counting as an empty one *)
Definition tab (d : dict) (a b : node) : nat := occ a (plist d b).

Lemma tab_get d b l a : dget d b = Some l -> tab d a b = occ a l.
Proof. unfold tab, plist. intros ->. reflexivity. Qed.

Lemma tab_pos d a b : tab d a b > 0 <-> exists l, dget d b = Some l /\ In a l.
Proof.
  unfold tab, plist, occ. rewrite <- count_occ_In. destruct (dget d b) as [l|].
  - split; [eauto|]. intros [l' [E H]]. inversion E; subst. exact H.
  - split; [intros []|]. intros [l' [E _]]. discriminate.
Qed.

Lemma tab_nokey d a b : ~ In b (dkeys d) -> tab d a b = 0.
Proof. intros H. apply dget_None_keys in H. unfold tab, plist. rewrite H. reflexivity. Qed.

Lemma tab_dset d k v a b : tab (dset d k v) a b = if Nat.eqb b k then occ a v else tab d a b.
Proof. unfold tab, plist. rewrite dget_dset. destruct (Nat.eqb b k); reflexivity. Qed.

Lemma dremove_tab d k x :
  match dremove d k x with
  | Ok d' => dkeys d' = dkeys d /\
             forall a b, tab d a b = tab d' a b + (if Nat.eq_dec k b then if Nat.eq_dec x a then 1 else 0 else 0)
  | Err _ => tab d x k = 0
  end.
Proof.
  unfold dremove. destruct (dget d k) as [v|] eqn:G.
  - destruct (remove_one Nat.eqb x v) as [v'|] eqn:R.
    + split; [apply dkeys_dset_mem, dget_In_keys; eauto|].
      intros a b. rewrite tab_dset. destruct (Nat.eq_dec k b) as [<-|Hne].
      * rewrite Nat.eqb_refl, (tab_get _ _ _ _ G). apply (remove_one_count Nat.eqb_eq Nat.eq_dec _ _ _ R).
      * apply not_eq_sym, Nat.eqb_neq in Hne. rewrite Hne. lia.
    + rewrite (tab_get _ _ _ _ G). apply count_occ_not_In, (remove_one_none Nat.eqb_eq), R.
  - unfold tab, plist. rewrite G. reflexivity.
Qed.

(* for nd_in in sl: w[nd_in].remove(a) *)
Lemma release_list_tab a sl : forall w,
  match foldM (fun w b => dremove w b a) sl w with
  | Ok w' => dkeys w' = dkeys w /\ forall y b, tab w y b = tab w' y b + (if Nat.eq_dec a y then occ b sl else 0)
  | Err _ => exists b, tab w a b < occ b sl
  end.
Proof.
  unfold occ. induction sl as [|b0 sl IH]; intros w; cbn [foldM count_occ].
  - split; [reflexivity|]. intros y b. destruct (Nat.eq_dec a y); lia.
  - pose proof (dremove_tab w b0 a) as D. destruct (dremove w b0 a) as [w1|e]; cbn [bind].
    + destruct D as [K1 E1]. specialize (IH w1). destruct (foldM _ sl w1) as [w'|e].
      * destruct IH as [K E]. split; [congruence|]. intros y b. rewrite E1, E.
        destruct (Nat.eq_dec b0 b), (Nat.eq_dec a y); lia.
      * destruct IH as [b Hb]. exists b. rewrite (E1 a b).
        destruct (Nat.eq_dec b0 b), (Nat.eq_dec a a); congruence || lia.
    + exists b0. destruct (Nat.eq_dec b0 b0); [lia|congruence].
Qed.

(* release: every a in outs is taken out of w[b] once for each time successors[a] lists b.  It returns exactly
   when every released node has a successors entry and the table of w holds what is to be taken out. *)
Lemma release_tab sd outs : forall w,
  match release sd outs w with
  | Ok w' => dkeys w' = dkeys w /\ (forall y b, tab w y b = tab w' y b + occ y outs * tab sd b y)
  | Err _ => ~ ((forall y, In y outs -> In y (dkeys sd)) /\ forall y b, occ y outs * tab sd b y <= tab w y b)
  end.
Proof.
  unfold release, occ. induction outs as [|a outs IH]; intros w; cbn [foldM].
  - split; [reflexivity|]. intros y b. cbn. lia.
  - unfold release_one at 1. destruct (dget sd a) as [sl|] eqn:G; cbn [of_opt bind].
    + pose proof (release_list_tab a sl w) as R. destruct (foldM _ sl w) as [w1|e]; cbn [bind].
      * destruct R as [K1 E1]. specialize (IH w1). destruct (foldM _ outs w1) as [w'|e].
        -- destruct IH as [K E]. split; [congruence|]. intros y b. cbn [count_occ]. rewrite E1, E.
           destruct (Nat.eq_dec a y) as [<-|Hne]; [rewrite (tab_get _ _ _ b G); unfold occ|]; lia.
        -- intros [HK HT]. apply IH. split; [intros y Hy; apply HK; now right|]. intros y b.
           specialize (HT y b). cbn [count_occ] in HT. rewrite E1 in HT.
           destruct (Nat.eq_dec a y) as [<-|Hne]; [rewrite (tab_get _ _ _ b G) in *; unfold occ in *|]; lia.
      * destruct R as [b Hb]. intros [_ HT]. specialize (HT a b). cbn [count_occ] in HT.
        destruct (Nat.eq_dec a a); [|congruence]. rewrite (tab_get _ _ _ b G) in HT. unfold occ in *. lia.
    + intros [HK _]. apply dget_None_keys in G. apply G, HK. now left.
Qed.

Lemma dpop_tab d k d' :
  dpop d k = Some d' -> NoDup (dkeys d) ->
  NoDup (dkeys d') /\ (forall a b, tab d' a b = if Nat.eqb b k then 0 else tab d a b) /\
  (forall x, In x (dkeys d') <-> x <> k /\ In x (dkeys d)).
Proof.
  intros H N. destruct (dpop_spec _ _ _ H N) as [G N']. split; [exact N'|]. split.
  - intros a b. unfold tab, plist. rewrite G. destruct (Nat.eqb b k); reflexivity.
  - intros x. rewrite <- !dget_In_keys, G. destruct (Nat.eqb_spec x k) as [->|Hne].
    + split; [intros [v E]; discriminate|intros [E _]; congruence].
    + split; [auto|intros [_ E]; exact E].
Qed.
