(* Proofs/StateWfMain.v — C03: model_run = spec_run on the aligned class.  Starting one more node keeps the model's
   table and the spec's table in step, for any list P of upstream states that survive _add_state_history (Section
   Abs); separate origins (P = all of them) and a state with its relay (P = the state) are the two instances; the
   theorem `aligned` (C03_partial) is the induction over the node list.  `partial` (C03_separate_origins) is its case
   of separate origins only; aligned2 / partial2 read it on the normalized workflow (zip groups, both outputs), and
   partial3 on the observable functions of workflows without a pair node. *)
From Coq Require Import FinFun.
From Pydra Require Import Base.Prelude Model.StateWf Spec.StateWf Proofs.StateWfLists Proofs.StateWfInv
  Proofs.StateWfStep Proofs.ListFacts.

Local Open Scope nat_scope.

Section Node.
Variable wf : workflow.
Variables (T : list sentry) (mtab : list mnode) (stab ext : list sentry) (n : nat) (nd : node).
Hypothesis TO : tab_ok wf T mtab.
Hypothesis Hn : n = List.length stab.
Hypothesis Hm : List.length mtab = n.
Hypothesis Hnd : nth_error wf n = Some nd.
Local Definition se_n : sentry := spec_entry wf stab n nd.
(* the invariant and the class tests speak of the whole spec table, of which stab is the part built so far: what
   concerns the earlier nodes is read off T; only the new entry is built over stab *)
Hypothesis ET : T = stab ++ se_n :: ext.
Hypothesis NW : node_wf n se_n nd = true.
Hypothesis ZL : zip_ok_node nd = true.
(* the state-carrying inputs as the spec lists them *)
Local Definition U : list nat := ups T (n_fields nd).

Local Definition cur : list key := map (fun f => (n, f)) (n_split nd).
Lemma cur_fst k : In k cur -> fst k = n.
Proof. unfold cur. intros H. apply in_map_iff in H. destruct H as [f [<- _]]. reflexivity. Qed.
Lemma not_own f : ~ In f (n_split nd) -> ~ In (n, f) cur.
Proof. intros Hf H. apply in_map_iff in H. destruct H as [f' [E Hf']]. inversion E; subst. contradiction. Qed.

Record node_facts : Prop := {
  nw_up : forall j, In (BUp j) (n_fields nd) -> j < n;
  nw_cur : NoDup cur;
  nw_kind : forall f b, nth_error (n_fields nd) f = Some b ->
              match b with BSplit _ => In (leader_of nd f) (n_split nd) | _ => ~ In f (n_split nd) end;
  nw_zip : forall p, In p (n_zip nd) -> exists vs, nth_error (n_fields nd) (fst p) = Some (BSplit vs);
  nw_comb : incl (n_comb nd) (s_axes se_n)
}.
Lemma nw : node_facts.
Proof.
  pose proof NW as W. unfold node_wf in W.
  apply andb_prop in W. destruct W as [W W5]. apply andb_prop in W. destruct W as [W _].
  apply andb_prop in W. destruct W as [W W4]. apply andb_prop in W. destruct W as [W _].
  apply andb_prop in W. destruct W as [W W3]. apply andb_prop in W. destruct W as [W1 W2].
  rewrite forallb_forall in W1, W3, W4, W5. constructor.
  - intros j Hj. apply Nat.ltb_lt. exact (W1 _ Hj).
  - apply nodupk_NoDup. exact W2.
  - intros f b Hb. specialize (W3 (f, b) (nth_error_combine_seq _ _ _ 0 Hb)). cbn in W3.
    destruct b; [apply memn_false, negb_true_iff | apply memn_In | apply memn_false, negb_true_iff]; exact W3.
  - intros p Hp. specialize (W4 p Hp).
    destruct (nth_error (n_fields nd) (fst p)) as [[z|vs|j]|]; try discriminate W4. exists vs. reflexivity.
  - intros k Hk. apply memk_In. exact (W5 k Hk).
Qed.

Lemma leader_self f b : nth_error (n_fields nd) f = Some b -> (forall vs, b <> BSplit vs) -> leader_of nd f = f.
Proof.
  intros Hb Hnb. unfold leader_of. destruct (find (fun p => Nat.eqb (fst p) f) (n_zip nd)) as [p|] eqn:E; [|reflexivity].
  apply find_some in E. destruct E as [Hin E]. apply Nat.eqb_eq in E.
  destruct (nw_zip nw p Hin) as [vs Hvs]. rewrite E, Hb in Hvs. inversion Hvs as [Eb]. destruct (Hnb vs Eb).
Qed.
Lemma leader_flen f : flen nd (leader_of nd f) = flen nd f.
Proof.
  unfold leader_of. destruct (find (fun p => Nat.eqb (fst p) f) (n_zip nd)) as [p|] eqn:E; [|reflexivity].
  apply find_some in E. destruct E as [Hin E]. apply Nat.eqb_eq in E.
  pose proof ZL as Z. unfold zip_ok_node in Z. rewrite forallb_forall in Z. specialize (Z p Hin).
  apply Nat.eqb_eq in Z. rewrite <- E. symmetry. exact Z.
Qed.

Lemma key_len_flen f : key_len wf (n, f) = flen nd f.
Proof. unfold key_len, split_list, flen. cbn [fst snd]. rewrite Hnd. destruct (nth_error (n_fields nd) f) as [[z|vs|j]|]; reflexivity. Qed.

Lemma U_lt x : In x U -> x < n.
Proof. intros Hx. apply ups_in in Hx. exact (nw_up nw x (proj1 Hx)). Qed.
Lemma entry_at x : x < n ->
  exists mex sex, nth_error mtab x = Some mex /\ nth_error stab x = Some sex /\ s_faxes_of T x = s_faxes sex /\
                  entry_ok wf T x (node_at wf x) mex sex.
Proof.
  intros Hx.
  destruct (nth_error mtab x) as [mex|] eqn:E2; [|apply nth_error_None in E2; lia].
  destruct (nth_error stab x) as [sex|] eqn:E3; [|apply nth_error_None in E3; lia].
  assert (E4 : nth_error T x = Some sex) by (rewrite ET, nth_error_app1 by lia; exact E3).
  exists mex, sex. unfold s_faxes_of. rewrite E4. split; [reflexivity|]. split; [reflexivity|]. split; [reflexivity|].
  exact (TO x mex sex E2 E4).
Qed.

Lemma ent_rpnf_eq x : x < n -> ent_rpnf mtab x = s_faxes_of T x.
Proof.
  intros Hx. destruct (entry_at x Hx) as (mex & sex & E2 & E3 & EF & EO).
  rewrite EF. unfold ent_rpnf, ent. rewrite E2.
  destruct (s_axes sex) as [|k0 ax] eqn:EA.
  - rewrite (eo_stateless EO EA). symmetry. exact (eo_axes_nil_faxes wf EO EA).
  - destruct (eo_state EO) as (prev & other & -> & _); [rewrite EA; discriminate | reflexivity].
Qed.
Lemma up_faxes_nodup x : x < n -> NoDup (s_faxes_of T x).
Proof.
  intros Hx. destruct (entry_at x Hx) as (mex & sex & E2 & E3 & EF & EO).
  rewrite EF. exact (eo_faxes_nodup wf EO).
Qed.

(* a state-carrying input: the entry of an upstream node with open axes *)
Lemma up_state x : In x U ->
  exists sex prev other, ent mtab x = Some (tables wf x (node_at wf x) sex prev other) /\ s_faxes_of T x = s_faxes sex /\
    s_faxes sex <> [] /\ wired T (node_at wf x) prev other.
Proof.
  intros Hx. apply ups_in in Hx. destruct Hx as [Hb HF].
  destruct (entry_at x (nw_up nw x Hb)) as (mex & sex & E2 & E3 & EF & EO).
  rewrite EF in HF. destruct (eo_open wf EO HF) as (prev & other & -> & W).
  exists sex, prev, other. unfold ent. rewrite E2. auto.
Qed.
Lemma up_ent_indf x : In x U -> ent_indf mtab x = box_idx (map (key_len wf) (s_faxes_of T x)).
Proof.
  intros Hx. destruct (up_state x Hx) as (sex & prev & other & E & EF & HF & _). unfold ent_indf. rewrite E, EF.
  cbn [tables m_indf]. rewrite (proj2 (is_nil_false _) HF), andb_false_r. reflexivity.
Qed.
Lemma up_ent_keysf x : In x U -> ent_keysf mtab x = s_faxes_of T x.
Proof. intros Hx. destruct (up_state x Hx) as (sex & prev & other & E & EF & _). unfold ent_keysf. rewrite E, EF. reflexivity. Qed.
Lemma up_ent_nfinal x : In x U -> ent_nfinal mtab x = List.length (ent_indf mtab x).
Proof.
  intros Hx. destruct (up_state x Hx) as (sex & prev & other & E & _).
  unfold ent_nfinal, ent_indf. rewrite E. apply map_length.
Qed.
Lemma up_wired x : In x U -> wired T (node_at wf x) (ent_prev mtab x) (ent_other mtab x).
Proof.
  intros Hx. destruct (up_state x Hx) as (sex & prev & other & E & _ & _ & W).
  unfold ent_prev, ent_other. rewrite E. exact W.
Qed.

Local Definition other0 := upstream mtab (n_fields nd).
Lemma se_axes : s_axes se_n = up_axes T (n_fields nd) ++ cur.
Proof.
  unfold se_n, spec_entry, cur. cbn [s_axes]. f_equal. symmetry. apply up_axes_ext. intros x Hx.
  rewrite ET. apply s_faxes_of_app. rewrite <- Hn. exact (nw_up nw x Hx).
Qed.
Lemma inputs_rpnf x : In (BUp x) (n_fields nd) -> ent_rpnf mtab x = s_faxes_of T x.
Proof. intros Hx. exact (ent_rpnf_eq x (nw_up nw x Hx)). Qed.
Lemma other0_fst : map fst other0 = U.
Proof. unfold U. rewrite ups_pushes. exact (proj1 (upstream_from_spec mtab T _ 0 [] inputs_rpnf)). Qed.
Lemma other0_fields x : fields_of other0 x = fed T x 0 (n_fields nd).
Proof. exact (proj2 (upstream_from_spec mtab T _ 0 [] inputs_rpnf) x). Qed.
Lemma In_other0_fields x f :
  In f (fields_of other0 x) <-> nth_error (n_fields nd) f = Some (BUp x) /\ s_faxes_of T x <> [].
Proof.
  rewrite other0_fields.
  split; [intros H; apply In_fed in H; destruct H as [i [-> H]]; exact H | intros H; apply In_fed; exists f; auto].
Qed.
Lemma other0_fields_nodup x : NoDup (fields_of other0 x).
Proof. rewrite other0_fields. apply NoDup_fed. Qed.
Lemma other0_nil : other0 = [] <-> U = [].
Proof. rewrite <- other0_fst. split; [intros ->; reflexivity | apply map_eq_nil]. Qed.

(* everything below only needs to know which upstream states survive _add_state_history (P) and
   which fields each of them feeds afterwards (other') *)
Section Abs.
Variables (P : list nat) (other' : list (nat * list nat)).
Local Definition cf : nat -> list nat := fields_of other'.
Hypothesis HPc : connect mtab other0 = Some (P, other').
Hypothesis HPu : incl P U.
Hypothesis HPe : P = [] -> U = [].
Hypothesis HPa : up_axes T (n_fields nd) = flat_map (s_faxes_of T) P.
Hypothesis HPf1 : forall f x, nth_error (n_fields nd) f = Some (BUp x) -> s_faxes_of T x <> [] ->
                    exists p, In p P /\ In f (cf p) /\ s_faxes_of T x = s_faxes_of T p.
Hypothesis HPf2 : forall p f, In p P -> In f (cf p) ->
                    exists x, nth_error (n_fields nd) f = Some (BUp x) /\ s_faxes_of T x <> [].
Hypothesis HPfn : NoDup (flat_map cf P).
Hypothesis HPo : map fst other' = U.
Hypothesis HPs : List.length U <= 1 -> P = U.

(* K: the keys of states_ind (the spec's axes of the node, axes_eq); Kin: the keys of inputs_ind *)
Local Definition K : list key := flat_map (s_faxes_of T) P ++ cur.
Local Definition up_indf (x : nat) : list (list nat) := box_idx (map (key_len wf) (s_faxes_of T x)).
Local Definition curbox : list (list nat) := box_idx (map (key_len wf) cur).
Local Definition Kin : list key := keys_prev n other' P ++ cur.
(* both index tables of an upstream state x as images of the positions in its final list *)
Local Definition L (x : nat) : list nat := seq 0 (List.length (up_indf x)).
Local Definition kin (x : nat) : list key := map (fun f => (n, f)) (cf x).
Local Definition vin (x i : nat) : list nat := repeat i (List.length (cf x)).
Local Definition vst (x i : nat) : list nat := nth i (up_indf x) [].

Lemma axes_eq : s_axes se_n = K.
Proof. rewrite se_axes, HPa. reflexivity. Qed.
Lemma faxes_eq : s_faxes se_n = filter (fun k => negb (memk k (n_comb nd))) K.
Proof. rewrite <- axes_eq. reflexivity. Qed.

Lemma P_lt x : In x P -> x < n.
Proof. intros Hx. exact (U_lt x (HPu x Hx)). Qed.
Lemma up_key_lt k : In k (flat_map (s_faxes_of T) P) -> fst k < n.
Proof.
  intros H. apply in_flat_map in H. destruct H as [x [Hx Hk]]. apply P_lt in Hx.
  destruct (entry_at x Hx) as (mex & sex & _ & _ & EF & EO). rewrite EF in Hk.
  pose proof (eo_bound EO k (eo_faxes_incl wf EO k Hk)). lia.
Qed.
(* the open axes of the surviving states are up_axes, which is duplicate-free as it is built *)
Lemma up_keys_nodup : NoDup (flat_map (s_faxes_of T) P).
Proof. rewrite <- HPa. apply up_axes_nodup. Qed.
Lemma K_nodup : NoDup K.
Proof.
  apply NoDup_app_intro; [exact up_keys_nodup | exact (nw_cur nw) |].
  intros k Hk Hc. apply up_key_lt in Hk. apply cur_fst in Hc. lia.
Qed.
Lemma kin_nodup : NoDup (flat_map kin P).
Proof.
  unfold kin. rewrite <- map_flat_map. apply Injective_map_NoDup; [intros p q E; inversion E; reflexivity | exact HPfn].
Qed.
Lemma Kin_nodup : NoDup Kin.
Proof.
  apply NoDup_app_intro; [exact kin_nodup | exact (nw_cur nw) |].
  intros k Hk Hc. apply in_flat_map in Hk. destruct Hk as [y [Hy Hk]].
  apply in_map_iff in Hk. destruct Hk as [g [<- Hg]]. destruct (HPf2 y g Hy Hg) as [x' [Hg' _]].
  apply in_map_iff in Hc. destruct Hc as [g' [E Hg'']]. inversion E; subst g'.
  exact (nw_kind nw g _ Hg' Hg'').
Qed.

Lemma ind_product_box : prod2 (prods (map up_indf P)) curbox = box_idx (map (key_len wf) K).
Proof.
  unfold K, curbox, up_indf. rewrite map_app, box_idx_app, (prods_box_idx (fun x => map (key_len wf) (s_faxes_of T x))).
  rewrite map_flat_map. reflexivity.
Qed.
Lemma indf_eq : map (ent_indf mtab) P = map up_indf P.
Proof. apply map_ext_in. intros x Hx. apply up_ent_indf, HPu, Hx. Qed.
Lemma cols_eq : map (idx_cols mtab other') P = map (fun x => map (vin x) (L x)) P.
Proof.
  apply map_ext_in. intros x Hx. apply HPu in Hx.
  unfold idx_cols, L, vin, cf. rewrite (up_ent_nfinal x Hx), (up_ent_indf x Hx). reflexivity.
Qed.
Lemma vst_eq : map (fun x => map (vst x) (L x)) P = map up_indf P.
Proof. apply map_ext. intros x. apply map_nth_seq. Qed.
Lemma vst_len x i : In i (L x) -> List.length (vst x i) = List.length (s_faxes_of T x).
Proof.
  intros Hi. apply in_seq in Hi. rewrite <- (map_length (key_len wf)). apply box_idx_elem_length, nth_In, Hi.
Qed.
Lemma vin_len x i : In i (L x) -> List.length (vin x i) = List.length (kin x).
Proof. intros _. unfold vin, kin. rewrite repeat_length, map_length. reflexivity. Qed.

(* one job: an index vector (one index per surviving upstream state) and a tuple o of the own splitter *)
Section Elem.
Variables is o : list nat.
Hypothesis HS : Forall2 (fun x i => In i (L x)) P is.
Hypothesis Ho : In o curbox.
Local Definition rho : row := combine K (cat vst P is ++ o).
Local Definition din : row := combine Kin (cat vin P is ++ o).

Lemma rho_own f : In f (n_split nd) -> exists i, lookup rho (n, f) = Some i /\ i < key_len wf (n, f).
Proof.
  intros Hf. unfold rho, K.
  assert (Hc : In (n, f) cur) by (apply in_map; exact Hf).
  assert (L3 : List.length cur = List.length o) by (symmetry; rewrite <- (map_length (key_len wf) cur); exact (box_idx_elem_length _ _ Ho)).
  rewrite lookup_combine_app_r;
    [| symmetry; exact (cat_length _ vst _ vst_len P is HS) | intros H; exact (Nat.lt_irrefl _ (up_key_lt _ H))].
  destruct (lookup_combine_some cur o (n, f) Hc L3) as [i Hi]. exists i. split; [exact Hi|].
  eapply (lookup_lt wf); [|exact Hi]. apply box_idx_elem. exact Ho.
Qed.
Lemma rho_not_own f : ~ In f (n_split nd) -> lookup rho (n, f) = None.
Proof.
  intros Hf. apply lookup_combine_none. intros H. apply in_app_or in H.
  destruct H as [H|H]; [exact (Nat.lt_irrefl _ (up_key_lt _ H)) | exact (not_own f Hf H)].
Qed.
Lemma din_none f : (forall x, In x P -> ~ In f (cf x)) -> ~ In f (n_split nd) -> lookup din (n, f) = None.
Proof.
  intros Hcf Hf. apply lookup_combine_none. intros H. apply in_app_or in H. destruct H as [H|H]; [|exact (not_own f Hf H)].
  apply in_flat_map in H. destruct H as [x [Hx H]]. apply in_map_iff in H.
  destruct H as [f' [E Hf']]. inversion E; subst. exact (Hcf x Hx Hf').
Qed.

(* prepare_inputs: every field fed by p holds the index the vector has for p *)
Lemma din_fed p f : In p P -> In f (cf p) -> lookup din (n, f) = Some (pick P is p).
Proof.
  intros Hp Hf. assert (Hk : In (n, f) (kin p)) by (apply in_map; exact Hf).
  unfold din. change Kin with (flat_map kin P ++ cur).
  rewrite (lookup_cat kin vin _ vin_len P is HS kin_nodup cur o p _ Hp Hk).
  unfold vin. rewrite <- (map_length (fun f0 => (n, f0)) (cf p)). exact (lookup_repeat _ _ _ Hk).
Qed.

(* what LazyOutField._get_value hands to a field bound to node x: x's output at the job's coordinates *)
Lemma up_value f x : nth_error (n_fields nd) f = Some (BUp x) ->
  get_value_of mtab x (lookup din (n, f)) = Some (s_out_of stab x rho).
Proof.
  intros Hb. pose proof (nw_kind nw f _ Hb) as Hkind. cbn in Hkind.
  destruct (entry_at x (nw_up nw x (nth_error_In _ _ Hb))) as (mex & sex & E2 & E3 & EF & EO).
  unfold get_value_of, s_out_of. rewrite E2, E3.
  destruct (s_faxes sex) as [|k0 ks] eqn:EFX.
  - rewrite din_none; [exact (get_value_none_closed wf EO _ EFX) | | exact Hkind].
    intros y Hy Hfy. destruct (HPf2 y f Hy Hfy) as [x' [Hx' HFx']]. rewrite Hb in Hx'. inversion Hx'; subst x'. contradiction.
  - assert (HFX : s_faxes sex <> []) by (rewrite EFX; discriminate). rewrite <- EFX in *. clear EFX.
    destruct (HPf1 f x Hb ltac:(rewrite EF; exact HFX)) as [p [Hp [Hfp EFp]]]. rewrite EF in EFp.
    pose proof (pick_ok _ P is p HS Hp) as Hi. apply in_seq in Hi. destruct Hi as [_ Hi]. cbn in Hi.
    unfold up_indf in Hi. rewrite <- EFp in Hi.
    rewrite (din_fed p f Hp Hfp), (get_value_some wf EO _ HFX Hi). f_equal. rewrite (box_nth wf _ _ Hi).
    (* rho holds the i-th tuple of p's final list at p's open axes, which are those of x *)
    apply (eo_out_ext wf EO). apply agree_iff. intros k Hk. rewrite EFp in Hk |- *.
    symmetry. exact (lookup_cat (s_faxes_of T) vst _ vst_len P is HS up_keys_nodup cur o p k Hp Hk).
Qed.

(* one field: what the model hands to the task is what the spec evaluates *)
Lemma job_arg_ok f b : nth_error (n_fields nd) f = Some b ->
  job_args wf mtab n nd f [b] (mkdict Kin (cat vin P is ++ o)) (mkdict K (cat vst P is ++ o))
  = map Some (sem_args stab n nd f [b] rho).
Proof.
  intros Hb. cbn [job_args sem_args map]. rewrite (mkdict_nodup _ _ K_nodup), (mkdict_nodup _ _ Kin_nodup). fold rho din.
  pose proof (nw_kind nw f b Hb) as Hkind. f_equal.
  destruct b as [z|vs|x].
  - rewrite (leader_self f _ Hb) by (intros vs; discriminate). rewrite (rho_not_own f Hkind). reflexivity.
  - destruct (rho_own _ Hkind) as [i [Hi Hlt]]. rewrite Hi.
    rewrite key_len_flen, leader_flen in Hlt.
    assert (EL : flen nd f = List.length vs) by (unfold flen; rewrite Hb; reflexivity).
    rewrite EL in Hlt. rewrite (nth_error_nth' vs 0%Z Hlt). reflexivity.
  - rewrite (leader_self f _ Hb) by (intros vs; discriminate). rewrite (rho_not_own f Hkind), (up_value f x Hb). reflexivity.
Qed.
End Elem.

Lemma job_args_ok is o :
  Forall2 (fun x i => In i (L x)) P is -> In o curbox ->
  all_some (job_args wf mtab n nd 0 (n_fields nd) (mkdict Kin (cat vin P is ++ o)) (mkdict K (cat vst P is ++ o)))
  = Some (sem_args stab n nd 0 (n_fields nd) (rho is o)).
Proof.
  intros HS Ho. pattern 0, (n_fields nd). apply suffix_ind; [reflexivity|]. intros f b r Hb IH.
  pose proof (job_arg_ok is o HS Ho f b Hb) as E. cbn [job_args sem_args map] in E. injection E as E.
  cbn [job_args sem_args all_some]. rewrite E, IH. reflexivity.
Qed.

Lemma jobs_ok :
  all_some (map (job_of wf mtab n nd)
     (combine (map (mkdict Kin) (prod2 (prods (map (fun x => map (vin x) (L x)) P)) curbox))
              (map (mkdict K) (prod2 (prods (map up_indf P)) curbox))))
  = Some (map (s_sem se_n) (box wf K)).
Proof.
  change (box wf K) with (map (combine K) (box_idx (map (key_len wf) K))).
  (* inputs_ind and states_ind as images of one list of pairs (index vector, own tuple) *)
  rewrite <- ind_product_box, <- vst_eq, !prods_map, !prod2_map_l, !map_map, combine_map_diag, map_map.
  apply all_some_map. intros [is o] Hp. apply in_prod_iff in Hp. destruct Hp as [His Ho]. apply In_index_vectors in His.
  unfold job_of. cbn [fst snd].
  rewrite (job_args_ok is o His Ho). reflexivity.
Qed.

Lemma sem_args_ext r1 r2 : agree K r1 r2 = true ->
  sem_args stab n nd 0 (n_fields nd) r1 = sem_args stab n nd 0 (n_fields nd) r2.
Proof.
  intros HA. rewrite agree_iff in HA. pattern 0, (n_fields nd). apply suffix_ind; [reflexivity|]. intros f b r Hb IH.
  cbn [sem_args]. rewrite IH. f_equal. destruct b as [z|vs|x]; [reflexivity| |].
  - rewrite (HA (n, leader_of nd f)); [reflexivity|]. apply in_or_app. right. apply in_map. exact (nw_kind nw f _ Hb).
  - f_equal. pose proof (nth_error_In _ _ Hb) as Hin.
    destruct (entry_at x (nw_up nw x Hin)) as (mex & sex & E2 & E3 & EF & EO).
    unfold s_out_of. rewrite E3. apply (eo_out_ext wf EO). apply agree_iff. intros k Hk.
    apply HA. apply in_or_app. left. rewrite <- HPa. apply In_up_axes. exists x.
    rewrite EF. split; assumption.
Qed.

Lemma K_nil : K = [] -> n_split nd = [] /\ n_comb nd = [] /\ other0 = [].
Proof.
  intros E. pose proof (nw_comb nw) as Hc. rewrite axes_eq, E in Hc. apply app_eq_nil in E. destruct E as [E1 E2].
  split; [exact (map_eq_nil _ _ E2)|]. split; [exact (incl_l_nil Hc)|].
  apply other0_nil, HPe. destruct P as [|x l]; [reflexivity|]. exfalso.
  assert (Hx : In x U) by (apply HPu; left; reflexivity). apply ups_in in Hx.
  cbn in E1. apply app_eq_nil in E1. tauto.
Qed.

Lemma new_entry_common me :
  (K = [] -> me = MStateless (s_sem se_n [])) ->
  (K <> [] -> exists prev other, me = MState (tables wf n nd se_n prev other) /\ wired T nd prev other) ->
  entry_ok wf T n nd me se_n.
Proof.
  intros H1 H2. constructor.
  - rewrite axes_eq. exact K_nodup.
  - intros k Hk. rewrite axes_eq in Hk. apply in_app_or in Hk. destruct Hk as [Hk|Hk].
    + apply up_key_lt in Hk. lia.
    + apply cur_fst in Hk. lia.
  - exact (nw_up nw).
  - exact se_axes.
  - reflexivity.
  - exact (nw_comb nw).
  - intros r1 r2 HA. rewrite axes_eq in HA. unfold se_n, spec_entry. cbn [s_sem]. f_equal.
    exact (sem_args_ext r1 r2 HA).
  - intros rho0. reflexivity.
  - rewrite axes_eq. exact H1.
  - rewrite axes_eq. exact H2.
Qed.

Lemma build_state_new : build_state wf mtab n nd P other' = Some (MState (tables wf n nd se_n P other')).
Proof.
  set (R := tables wf n nd se_n P other'). unfold build_state. rewrite ZL. cbn [negb].
  rewrite (flat_map_ext_in (ent_rpnf mtab) (s_faxes_of T) P)
    by (intros x Hx; exact (ent_rpnf_eq x (P_lt x Hx))).
  rewrite (flat_map_ext_in (ent_keysf mtab) (s_faxes_of T) P) by (intros x Hx; apply up_ent_keysf, HPu, Hx).
  rewrite indf_eq, cols_eq. fold cur K Kin. change (box_idx (map (key_len wf) cur)) with curbox.
  assert (Hin : (if is_nil other' then map (mkdict K) (prod2 (prods (map up_indf P)) curbox)
                 else map (mkdict Kin) (prod2 (prods (map (fun x => map (vin x) (L x)) P)) curbox))
                = map (mkdict Kin) (prod2 (prods (map (fun x => map (vin x) (L x)) P)) curbox)).
  { destruct (is_nil other') eqn:E; [|reflexivity]. apply is_nil_true in E.
    assert (EP : P = []) by (apply incl_l_nil; rewrite <- HPo, E in HPu; exact HPu).
    unfold K, Kin. rewrite EP. reflexivity. }
  rewrite Hin, jobs_ok, ind_product_box. subst R. unfold tables. rewrite faxes_eq, axes_eq.
  (* states_ind is the box of K; without a combiner the filter over K is the identity, so both branches of
     keys_final and ind_l_final are what tables says *)
  rewrite (map_ext (mkdict K) (combine K)) by (intros t; apply mkdict_nodup, K_nodup).
  destruct (n_comb nd); [cbn [is_nil negb andb]; rewrite filter_all by reflexivity|]; reflexivity.
Qed.

Lemma step_abs : exists me, step wf mtab n nd = Some me /\ entry_ok wf T n nd me se_n.
Proof.
  unfold step. fold other0.
  destruct (is_nil (n_split nd) && is_nil (n_comb nd) && is_nil other0) eqn:EC.
  - apply andb_prop in EC. destruct EC as [EC E3]. apply andb_prop in EC. destruct EC as [E1 E2].
    apply is_nil_true in E1, E2, E3.
    assert (EP : P = []) by (apply incl_l_nil; rewrite <- (proj1 other0_nil E3); exact HPu).
    assert (Ecur : cur = []) by (unfold cur; rewrite E1; reflexivity).
    assert (EK : K = []) by (unfold K; rewrite EP, Ecur; reflexivity).
    exists (MStateless (s_sem se_n [])). split; [|apply new_entry_common; [reflexivity | intros H; contradiction]].
    assert (HS : Forall2 (fun x i => In i (L x)) P []) by (rewrite EP; constructor).
    assert (Ho : In [] curbox) by (unfold curbox; rewrite Ecur; left; reflexivity).
    pose proof (job_args_ok [] [] HS Ho) as G.
    unfold rho, Kin in G. rewrite EK, EP, Ecur in G. cbn [cat app flat_map keys_prev mkdict mkdict_from combine] in G.
    unfold resolve_all. rewrite G. reflexivity.
  - (* connect yields ([], []) on no other states: the test in step only saves the call *)
    replace (if is_nil other0 then Some ([], []) else connect mtab other0) with (connect mtab other0)
      by (destruct other0; reflexivity).
    rewrite HPc, build_state_new. eexists. split; [reflexivity|].
    apply new_entry_common; [|intros _; exists P, other'; split; [reflexivity | constructor; assumption]].
    intros E. apply K_nil in E. destruct E as [E1 [E2 E3]]. rewrite E1, E2, E3 in EC. discriminate EC.
Qed.
End Abs.

(* separate origins: nothing is removed, nothing merged *)
Section Sep.
Hypothesis SH : separate_ok wf T nd = true.

Lemma sep_spec x y : In x U -> In y U -> x <> y ->
  (forall k, In k (s_faxes_of T x) -> ~ In k (s_faxes_of T y)) /\ ~ In x (parents wf T y).
Proof.
  intros Hx Hy Hne. apply sep_ok_iff. exact (pairwise_spec _ _ SH x y Hx Hy Hne).
Qed.

Lemma up_axes_sep : up_axes T (n_fields nd) = flat_map (s_faxes_of T) U.
Proof.
  rewrite (up_axes_flat T id (fun x => In x U)), map_id, <- ups_pushes.
  - reflexivity.
  - intros x Hx. exact (up_faxes_nodup x (U_lt x Hx)).
  - intros x y Hx Hy Hne. exact (proj1 (sep_spec x y Hx Hy Hne)).
  - intros x Hx. split; [exact Hx | reflexivity].
Qed.

Lemma connect_sep : connect mtab other0 = Some (U, other0).
Proof.
  rewrite <- other0_fst. apply connect_id. rewrite other0_fst. intros el z Hel Hz HzU.
  apply (w_incl (up_wired el Hel)) in Hz.
  refine (proj2 (sep_spec z el HzU Hel _) Hz). intros ->.
  apply ups_in in Hz. destruct (entry_at el (U_lt el Hel)) as (mex & sex & _ & _ & _ & EO).
  exact (Nat.lt_irrefl _ (eo_lt EO el (proj1 Hz))).
Qed.

Lemma step_sep : exists me, step wf mtab n nd = Some me /\ entry_ok wf T n nd me se_n.
Proof.
  apply (step_abs U other0).
  - exact connect_sep.
  - apply incl_refl.
  - intros E. exact E.
  - exact up_axes_sep.
  - intros f x Hb HF. exists x. split; [apply ups_in; split; [eapply nth_error_In; exact Hb | exact HF]|].
    split; [apply In_other0_fields; split; assumption | reflexivity].
  - intros p f _ Hf. apply In_other0_fields in Hf. exists p. exact Hf.
  - apply NoDup_flat_map; [apply ups_nodup | intros p _; apply other0_fields_nodup |].
    intros p q f _ _ Hne Hp Hq. apply In_other0_fields in Hp. apply In_other0_fields in Hq. destruct Hp as [Hp _], Hq as [Hq _]. congruence.
  - exact other0_fst.
  - reflexivity.
Qed.
End Sep.

(* the one shared origin the code aligns: a state x and a node y that only hands x's state on *)
Section Relay.
Variables x y : nat.
Hypothesis relay_pair : U = [x; y] \/ U = [y; x].
Hypothesis HR : relays wf T x y = true.

Lemma relay_U j : In j U <-> j = x \/ j = y.
Proof. destruct relay_pair as [E|E]; rewrite E; cbn; (split; [intros [<-|[<-|[]]]; auto | intros [->| ->]; auto]). Qed.
Lemma relay_ne : Nat.eqb x y = false /\ Nat.eqb y x = false.
Proof.
  assert (Hne : x <> y).
  { intros E0. pose proof (ups_nodup T (n_fields nd)) as ND. fold U in ND.
    destruct relay_pair as [E|E]; rewrite E, E0 in ND; inversion ND as [|? ? H _]; apply H; left; reflexivity. }
  split; apply Nat.eqb_neq; congruence.
Qed.
Local Definition relay_x : In x U := proj2 (relay_U x) (or_introl eq_refl).
Local Definition relay_y : In y U := proj2 (relay_U y) (or_intror eq_refl).

Lemma relay_x_other : ent_other mtab x = [].
Proof.
  apply map_eq_nil with (f := fst). rewrite (w_other (up_wired x relay_x)). exact (proj1 (relays_spec wf T x y HR)).
Qed.
Lemma relay_y_state :
  ent_other mtab y <> [] /\ ent_cur mtab y = [] /\ ent_prev mtab y = [x].
Proof.
  destruct (up_state y relay_y) as (sey & prev & other & E & _ & _ & W).
  destruct (relays_spec wf T x y HR) as [_ [Hp [Hs _]]]. unfold parents in Hp.
  unfold ent_other, ent_cur, ent_prev. rewrite E. cbn [tables m_other m_cur m_prev]. split; [|split].
  - intros E0. pose proof (w_other W) as X. rewrite E0, Hp in X. discriminate X.
  - rewrite Hs. reflexivity.
  - rewrite (w_exact W), Hp; [reflexivity | rewrite Hp; cbn; lia].
Qed.

Lemma relay_faxes : s_faxes_of T y = s_faxes_of T x.
Proof.
  destruct (entry_at y (U_lt y relay_y)) as (mey & sey & _ & _ & EF & EO).
  destruct (relays_spec wf T x y HR) as [_ [Hp [Hs Hc]]]. unfold parents in Hp.
  rewrite EF at 1. rewrite (eo_comb_nil_faxes wf EO Hc), (eo_axes EO), Hs. cbn [map]. rewrite app_nil_r.
  apply up_axes_one; rewrite ?Hp.
  - exact (up_faxes_nodup x (U_lt x relay_x)).
  - discriminate.
  - intros j [<-|[]]. reflexivity.
Qed.

Local Definition other1 := add_fields other0 x (fields_of other0 y).

Lemma hist_relay l : l = [x; y] \/ l = [y; x] -> history mtab l other0 = Some ([x], other1).
Proof.
  (* x has no other states, y is the one relay (other states, no own splitter) and its previous state x is
     listed: y is removed and its fields go to x *)
  destruct relay_ne as [Exy Eyx]. destruct relay_y_state as [Y1 [Y2 Y3]].
  assert (Bx : is_nil (ent_other mtab x) = true) by (rewrite relay_x_other; reflexivity).
  assert (By : is_nil (ent_other mtab y) = false) by (apply is_nil_false; exact Y1).
  assert (Cy : is_nil (ent_cur mtab y) = true) by (rewrite Y2; reflexivity).
  intros [-> | ->]; unfold history; cbn [filter]; rewrite Bx, By, Cy; cbn [negb andb filter fold_left];
    rewrite Y3; cbn [filter memn existsb]; rewrite Nat.eqb_refl; cbn [orb is_nil forallb andb fold_left remove1];
    rewrite ?Exy, ?Eyx, ?Nat.eqb_refl; reflexivity.
Qed.

Lemma connect_relay : connect mtab other0 = Some ([x], other1).
Proof.
  (* Node._set_state leaves [x]; update_connections finds y missing, starts again from [y; x] and ends with [x] *)
  destruct relay_ne as [Exy Eyx]. unfold connect. rewrite other0_fst. rewrite (hist_relay U relay_pair).
  destruct relay_pair as [E|E]; rewrite E; cbn [filter memn existsb negb orb]; rewrite ?Exy, ?Eyx, ?Nat.eqb_refl; cbn [negb orb];
    apply hist_relay; right; reflexivity.
Qed.

Lemma step_relay : exists me, step wf mtab n nd = Some me /\ entry_ok wf T n nd me se_n.
Proof.
  assert (HFx : forall j, In j U -> s_faxes_of T j = s_faxes_of T x).
  { intros j Hj. apply relay_U in Hj. destruct Hj as [->| ->]; [reflexivity | exact relay_faxes]. }
  assert (Hcf : forall f, In f (fields_of other1 x) <-> In f (fields_of other0 x) \/ In f (fields_of other0 y)).
  { intros f. unfold other1. rewrite fields_of_add_fields, Nat.eqb_refl. apply in_app_iff. }
  assert (Hxo : In x (map fst other0)) by (rewrite other0_fst; exact relay_x).
  assert (HUne : U <> []) by (intros E; pose proof relay_x as Hx; rewrite E in Hx; exact Hx).
  apply (step_abs [x] other1).
  - exact connect_relay.
  - intros p [<-|[]]. exact relay_x.
  - discriminate.
  - cbn [flat_map]. rewrite app_nil_r.
    exact (up_axes_one T _ x (up_faxes_nodup x (U_lt x relay_x)) HUne HFx).
  - intros f j Hb HF. exists x. split; [left; reflexivity|].
    assert (Hju : In j U) by (apply ups_in; split; [eapply nth_error_In; exact Hb | exact HF]).
    split; [|exact (HFx j Hju)].
    apply Hcf. apply relay_U in Hju. destruct Hju as [->| ->]; [left | right]; apply In_other0_fields; split; assumption.
  - intros p f [<-|[]] Hf. apply Hcf in Hf. destruct Hf as [Hf|Hf]; apply In_other0_fields in Hf; [exists x | exists y]; exact Hf.
  - cbn [flat_map]. rewrite app_nil_r. unfold cf, other1. rewrite fields_of_add_fields, Nat.eqb_refl.
    apply NoDup_app_intro; [apply other0_fields_nodup | apply other0_fields_nodup |].
    intros f H1 H2. apply In_other0_fields in H1. apply In_other0_fields in H2. destruct H1 as [H1 _], H2 as [H2 _].
    destruct relay_ne as [Exy _]. apply Nat.eqb_neq in Exy. congruence.
  - unfold other1. rewrite add_fields_fst, (pushes_absorb Nat.eqb Nat.eqb_eq); [exact other0_fst|].
    intros z [<-|[]]. exact Hxo.
  - intros HL. exfalso. destruct relay_pair as [E|E]; rewrite E in HL; cbn in HL; lia.
Qed.
End Relay.

Lemma step_class : sharing_ok wf T nd = true -> exists me, step wf mtab n nd = Some me /\ entry_ok wf T n nd me se_n.
Proof.
  unfold sharing_ok. intros SH. apply orb_true_iff in SH. destruct SH as [SH|SH]; [exact (step_sep SH)|].
  destruct (ups T (n_fields nd)) as [|x [|y [|z l]]] eqn:EU; try discriminate SH.
  apply orb_true_iff in SH. destruct SH as [SH|SH].
  - exact (step_relay x y (or_introl EU) SH).
  - exact (step_relay y x (or_intror EU) SH).
Qed.
End Node.

Lemma spec_from_prefix wf : forall rest stab, exists ext, spec_from wf stab rest = stab ++ ext.
Proof.
  induction rest as [|nd rest IH]; intros stab; cbn [spec_from].
  - exists []. rewrite app_nil_r. reflexivity.
  - destruct (IH (stab ++ [spec_entry wf stab (List.length stab) nd])) as [ext E]. rewrite E, <- app_assoc. eexists. reflexivity.
Qed.

Section Main.
Variable wf : workflow.
Let T := spec_table wf.
Hypothesis DOM : c03_aligned wf = true.
Hypothesis ZLW : zip_len_ok wf = true.

(* one more node: its class condition, read off the whole table, is what the node step asks for *)
Lemma node_step mtab stab nd ext :
  tab_ok wf T mtab -> List.length mtab = List.length stab -> nth_error wf (List.length stab) = Some nd ->
  T = stab ++ spec_entry wf stab (List.length stab) nd :: ext ->
  exists me, step wf mtab (List.length stab) nd = Some me /\
             entry_ok wf T (List.length stab) nd me (spec_entry wf stab (List.length stab) nd).
Proof.
  intros TO Hm Hnd ET. set (n := List.length stab) in *. set (e := spec_entry wf stab n nd) in *.
  assert (HeT : nth_error T n = Some e) by (rewrite ET, nth_error_app2, Nat.sub_diag by lia; reflexivity).
  pose proof DOM as D. unfold c03_aligned in D. apply andb_true_iff in D. destruct D as [D1 D2].
  assert (ZL : zip_ok_node nd = true).
  { unfold zip_len_ok in ZLW. rewrite forallb_forall in ZLW. apply ZLW. eapply nth_error_In. exact Hnd. }
  pose proof (on_nodes_nth wf node_wf n nd e D1 Hnd HeT) as NW.
  pose proof (on_nodes_nth wf _ n nd e D2 Hnd HeT) as SH.
  exact (step_class wf T mtab stab ext n nd TO eq_refl Hm Hnd ET NW ZL SH).
Qed.

Definition runs_from (f : nat) (rest : list node) : Prop :=
  forall mtab stab, List.length stab = f -> List.length mtab = f -> tab_ok wf T mtab -> spec_from wf stab rest = T ->
  exists mtab', run_from wf mtab rest = Some mtab' /\ List.length mtab' = List.length T /\ tab_ok wf T mtab'.
Lemma main_ind : runs_from 0 wf.
Proof.
  apply suffix_ind.
  - intros f mtab stab Hs Hm TO HT. cbn in HT. subst stab. exists mtab. rewrite Hs, Hm. auto.
  - intros f nd rest Hnd IH mtab stab Hs Hm TO HT. subst f.
    cbn [spec_from] in HT. set (e := spec_entry wf stab (List.length stab) nd) in *.
    destruct (spec_from_prefix wf rest (stab ++ [e])) as [ext Eext].
    rewrite HT, <- app_assoc in Eext.
    destruct (node_step mtab stab nd ext TO Hm Hnd Eext) as [me [Hstep EOn]].
    cbn [run_from]. rewrite Hm, Hstep.
    apply (IH (mtab ++ [me]) (stab ++ [e])).
    + rewrite app_length. cbn. lia.
    + rewrite app_length, Hm. cbn. lia.
    + apply (tab_ok_snoc wf T mtab me e TO); rewrite Hm; [|unfold node_at; rewrite (nth_error_nth _ _ _ Hnd); exact EOn].
      rewrite Eext, nth_error_app2, Nat.sub_diag by lia. reflexivity.
    + exact HT.
Qed.

Theorem aligned : model_run wf = Some (spec_run wf).
Proof.
  destruct (main_ind [] []) as [mtab [Hrun [HL TO]]]; try reflexivity.
  - intros j me se H. destruct j; discriminate H.
  - unfold model_run. rewrite Hrun. unfold spec_run. fold T.
    apply all_some_map2; [exact HL|].
    intros i me se H1 H2. exact (get_value_output wf (TO i me se H1 H2)).
Qed.
End Main.

Theorem partial : forall wf, c03_domain wf = true -> zip_len_ok wf = true -> model_run wf = Some (spec_run wf).
Proof.
  intros wf H Z. apply aligned; [|exact Z]. unfold c03_domain in H. unfold c03_aligned.
  apply andb_true_iff in H. destruct H as [H1 H2]. rewrite H1.
  assert (S : share_class wf = true).
  { unfold share_class, separate_class, on_nodes in *. rewrite forallb_forall in H2. apply forallb_forall.
    intros z Hz. specialize (H2 z Hz). cbn beta in *. unfold sharing_ok. rewrite H2. reflexivity. }
  rewrite S. reflexivity.
Qed.

Lemma zip_len_normalize wf : zip_len_ok (normalize wf) = zip_len_ok wf.
Proof.
  unfold zip_len_ok, normalize. generalize wf at 1. intros w0. induction wf as [|nd wf IH]; [reflexivity|].
  cbn [map forallb]. rewrite IH. reflexivity.
Qed.
Lemma aligned2 wf : c03_aligned (normalize wf) = true -> zip_len_ok wf = true -> model_run2 wf = spec_run2 wf.
Proof.
  intros H1 H2. unfold model_run2, spec_run2. rewrite H2, (aligned (normalize wf) H1); [reflexivity|].
  rewrite zip_len_normalize. exact H2.
Qed.
Theorem partial2 : forall wf, c03_class2 wf = true -> model_run2 wf = spec_run2 wf.
Proof.
  intros wf H. unfold c03_class2 in H.
  apply andb_true_iff in H. destruct H as [H _]. apply andb_true_iff in H. destruct H as [H _].
  apply andb_true_iff in H. destruct H as [H1 H2]. exact (aligned2 wf H1 H2).
Qed.

(* on workflows without an explicit pairing node the observable functions used by the harness
   (model_run3 / spec_run3) are the ones of C03_partial2 *)
Lemma run_from3_nopair wf : forall nodes tab,
  run_from3 wf tab (combine nodes (repeat false (List.length nodes))) = run_from wf tab nodes.
Proof.
  induction nodes as [|nd nodes IH]; intros tab; cbn [List.length repeat combine run_from3 run_from]; [reflexivity|].
  destruct (step wf tab (List.length tab) nd); [apply IH | reflexivity].
Qed.
Lemma spec_from3_nopair wf : forall nodes tab,
  spec_from3 wf tab (combine nodes (repeat false (List.length nodes))) = spec_from wf tab nodes.
Proof. induction nodes as [|nd nodes IH]; intros tab; cbn [List.length repeat combine spec_from3 spec_from]; [reflexivity | apply IH]. Qed.
Lemma no_pair_flags (w3 : workflow3) :
  has_pair w3 = false -> map snd w3 = repeat false (List.length (normalize (map fst w3))).
Proof.
  unfold has_pair, normalize. rewrite !map_length. induction w3 as [|[nd b] w3 IH]; cbn; [reflexivity|]. intros H.
  apply orb_false_iff in H. destruct H as [-> H]. rewrite (IH H). reflexivity.
Qed.
Lemma forallb_nopair {A} (p : A -> bool) (l : list A) :
  forallb (fun x => negb (snd x) || p (fst x)) (combine l (repeat false (List.length l))) = true.
Proof. induction l as [|a l IH]; [reflexivity | exact IH]. Qed.

Lemma model_run3_nopair w3 : has_pair w3 = false -> model_run3 w3 = model_run2 (map fst w3).
Proof.
  intros HP. unfold model_run3, model_run2, model_run. rewrite (no_pair_flags w3 HP), run_from3_nopair.
  destruct (run_from (normalize (map fst w3)) [] (normalize (map fst w3))); reflexivity.
Qed.
Lemma spec_run3_nopair w3 : has_pair w3 = false -> spec_run3 w3 = spec_run2 (map fst w3).
Proof.
  intros HP. unfold spec_run3, spec_run2, on_pairs.
  rewrite (no_pair_flags w3 HP), spec_from3_nopair, forallb_nopair, andb_true_r, zip_len_normalize. reflexivity.
Qed.
Theorem partial3 : forall w3 : workflow3, c03_class3 w3 = true -> model_run3 w3 = spec_run3 w3.
Proof.
  intros w3 H. unfold c03_class3 in H. apply andb_true_iff in H. destruct H as [HP HC]. apply negb_true_iff in HP.
  rewrite (model_run3_nopair w3 HP), (spec_run3_nopair w3 HP). exact (partial2 (map fst w3) HC).
Qed.
