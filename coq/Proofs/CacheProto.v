(* Proofs/CacheProto.v — the step function as a list of rules (one inversion principle for all invariants),
   the two lock invariants (mutual exclusion on <checksum>.lock and on <checksum>_save.lock) for arbitrary
   traces, and the two lemmas that carry an assertion from the process that steps to the whole system:
   alive_inv_lstep (an assertion protected by the lock) and unless_at_step ("F unless some process is in T"). *)
From Pydra Require Import Base.Prelude.
From Pydra Require Import Model.CacheProto.
Local Open Scope nat_scope.

Lemma upd_same f p x : upd f p x p = x.
Proof. unfold upd. now rewrite Nat.eqb_refl. Qed.
Lemma upd_other f p x q : q <> p -> upd f p x q = f q.
Proof. unfold upd. intros H. apply Nat.eqb_neq in H. now rewrite H. Qed.

Lemma upd_all (P : proc -> Prop) f p x : (forall r, P (f r)) -> P x -> forall r, P (upd f p x r).
Proof. intros Hf Hx r. unfold upd. now destruct (Nat.eqb r p). Qed.

(* "F unless some process is in T" is kept by a step of p as soon as p alone keeps it *)
Lemma unless_at_step (T : proc -> bool) (F F' : Prop) f p q' :
  (F \/ T (f p) = true -> F' \/ T q' = true) ->
  F \/ (exists h, T (f h) = true) -> F' \/ exists h, T (upd f p q' h) = true.
Proof.
  intros Own [HF|(h & Th)]; [|destruct (Nat.eq_dec h p) as [->|Ne]; [|right; exists h; now rewrite upd_other]].
  all: destruct Own as [HF'|T']; [auto|now left|right; exists p; now rewrite upd_same].
Qed.

Lemma unlock_self p : unlock p (Some p) = None.
Proof. unfold unlock. now rewrite Nat.eqb_refl. Qed.
Lemma unlock_iff p m q : unlock p m = Some q <-> m = Some q /\ q <> p.
Proof.
  unfold unlock. destruct m as [r|]; [|split; [discriminate|now intros [[=] _]]].
  destruct (Nat.eqb_spec r p) as [->|Ne]; split; try discriminate.
  - intros [[= ->] N]. now elim N.
  - intros [= ->]. auto.
  - now intros [E _].
Qed.

(* case analysis on a program counter, down to the position inside save() *)
Ltac case_pc c :=
  destruct c as [| | | | | | | | |[] []| | | | | | | | | | | | | | | | | | | | | | | | | | | ].

Lemma holds_region c : holds c = match region_at c with ROut => false | _ => true end.
Proof. now case_pc c. Qed.
Lemma outside_holds_s c : holds c = false -> holds_s c = false.
Proof. now case_pc c. Qed.

Definition exc_glob (p : pid) (q : proc) (g : glob) : glob := snd (exc_target p q g).

(* the checkpoints that only move the pc (the clauses `go` of lstep) *)
Inductive moves : pcT -> action -> pcT -> Prop :=
| M_CacheHit : moves Hit0 AHit Hit1
| M_ResBefore : moves (Sv true SAcq) AResBefore (Sv true SRB)
| M_ResDumped : moves (Sv true SRO) AResDumped (Sv true SRD)
| M_JobBefore : moves (Sv false SAcq) AJobBefore (Sv false SJB)
| M_JobBeforeFin : moves (Sv true SRA) AJobBefore (Sv true SJB)
| M_JobDumped f : moves (Sv f SJO) AJobDumped (Sv f SJD)
| M_JobSaved : moves (Sv false SRel) AJobSaved Pop4
| M_Populated : moves Pop4 APopulated Pop5
| M_ErrBefore : moves Err0 AErrBefore Err1
| M_ErrDumped : moves Err2 AErrDumped Err3
| M_ErrRecorded : moves Err4 AErrRecorded ErrRec
| M_AuditFinal : moves Fin1 AAuditFinal Fin2
| M_ResultSaved : moves (Sv true SRel) AResultSaved Fin3
| M_LockReleased : moves RelOk ALockReleased Post1
| M_PostRun : moves Post1 APostRun Post2.

Lemma exc_target_hold p q g : region_at (pc q) = RPre \/ region_at (pc q) = RFinally ->
  exc_target p q g = (set_dirty (set_pc ExcHold q), exc_glob p q g).
Proof. unfold exc_glob, exc_target. intros [-> | ->]; reflexivity. Qed.

Lemma exc_glob_frame p q g :
  dead (exc_glob p q g) = dead g /\ lock (exc_glob p q g) = lock g /\
  slock (exc_glob p q g) = if holds_s (pc q) then unlock p (slock g) else slock g.
Proof.
  unfold exc_glob, exc_target.
  case_pc (pc q); cbn; auto.
Qed.

Section Rules.
  Variable pickle : res -> list nat.
  Variable unpickle : list nat -> option res.
  Variable bv : val.
  Notation lstep := (lstep pickle unpickle bv).
  Notation job_result := (job_result pickle unpickle).

  (* lstep read as a list of rules: at which pc (the index) which action is enabled under which guard, and what it does *)
  Inductive lstepR (p : pid) (q : proc) (g : glob) : pcT -> action -> proc -> glob -> Prop :=
  | S_PreRun c rr asy : c = Idle \/ c = Done ->
      lstepR p q g c (APreRun rr asy)
        (mkProc Waiting rr asy (cwd q) (infos q) None false false None false None
                (pre_calls q) (post_calls q) (execs q) (dirty q)) g
  | S_Move c a c' : moves c a c' -> lstepR p q g c a (set_pc c' q) g
  | S_Acquire : free (lock g) g = true ->
      lstepR p q g Waiting AAcquire (set_pc Locked q) (set_lock (Some p) g)
  | S_Hit r : rerun q = false -> job_result q g = Some r -> errored r = false ->
      lstepR p q g Locked AChecked (set_pc Hit0 (set_view (Some r) false q)) g
  | S_Miss : rerun q = false -> usable (job_result q g) = false ->
      lstepR p q g Locked AChecked (set_pc Miss (set_view (job_result q g) false q)) g
  | S_RelHit : lstepR p q g Hit1 ARelease (set_pc RelHit q) (set_lock (unlock p (lock g)) g)
  | S_InfoRerun : rerun q = true ->
      lstepR p q g Locked AInfoWritten (set_infos (S (infos q)) (set_pc Pop1 q)) g
  | S_Info : lstepR p q g Miss AInfoWritten (set_infos (S (infos q)) (set_pc Pop1 q)) g
  | S_DirCleared : dir g = true -> lstepR p q g Pop1 ADirCleared (set_pc Pop2 q) (rmtree g)
  | S_DirAbsent : dir g = false -> lstepR p q g Pop1 ADirCleared (set_pc Pop2 q) g
  | S_DirCreated : dir g = false -> lstepR p q g Pop2 ADirCreated (set_pc Pop3 q) (set_dir true g)
  | S_SaveAcq : free (slock g) g = true ->
      lstepR p q g Pop3 ASaveAcq (set_pc (Sv false SAcq) q) (set_dir true (set_slock (Some p) g))
  | S_SaveAcqFin : free (slock g) g = true ->
      lstepR p q g Fin2 ASaveAcq (set_pc (Sv true SAcq) q) (set_dir true (set_slock (Some p) g))
  | S_ResOpened : lstepR p q g (Sv true SRB) AResOpened (set_pc (Sv true SRO) q) (set_resf (Writing (the_result q) 0) g)
  | S_ResAfter : lstepR p q g (Sv true SRD) AResAfter (set_pc (Sv true SRA) q) (set_resf (Complete (the_result q)) g)
  | S_JobOpened f : lstepR p q g (Sv f SJB) AJobOpened (set_pc (Sv f SJO) q) (set_jobf (Writing tt 0) g)
  | S_JobAfter f : lstepR p q g (Sv f SJD) AJobAfter (set_pc (Sv f SJA) q) (set_jobf (Complete tt) g)
  | S_SaveRel f : lstepR p q g (Sv f SJA) ASaveRel (set_pc (Sv f SRel) q) (set_slock (unlock p (slock g)) g)
  | S_CwdChanged : is_async q = false -> lstepR p q g Pop5 ACwdChanged (set_cwd InDir (set_pc CwdCh q)) g
  | S_PreHookAsync : is_async q = true -> lstepR p q g Pop5 APreHook (inc_pre (set_pc PreHk q)) g
  | S_PreHook : lstepR p q g CwdCh APreHook (inc_pre (set_pc PreHk q)) g
  | S_PreHookRaiseAsync : is_async q = true ->
      lstepR p q g Pop5 APreHookRaise (set_dirty (inc_pre (set_pc ExcHold q))) g
  | S_PreHookRaise : lstepR p q g CwdCh APreHookRaise (set_dirty (inc_pre (set_pc ExcHold q))) g
  | S_AuditStarted : lstepR p q g PreHk AAuditStarted (set_cwd InDir (set_pc AudSt q)) g
  | S_BodyEnter : lstepR p q g AudSt ABodyEnter (inc_execs (set_pc BodyIn q)) g
  | S_BodyLeft : lstepR p q g BodyIn ABodyLeft (set_pc BodyOut q) (inc_runs g)
  | S_BodyRaise : lstepR p q g BodyIn ABodyRaise (mark_failed (set_pc Err0 q)) (inc_runs g)
  | S_Outputs : lstepR p q g BodyOut AOutputs (set_rout (Some bv) (set_pc OutsOk q)) g
  | S_ErrOpened : lstepR p q g Err1 AErrOpened (set_pc Err2 q) (set_errf (Writing tt 0) g)
  | S_ErrAfter : lstepR p q g Err3 AErrAfter (set_pc Err4 q) (set_errf (Complete tt) g)
  | S_PostHook c : c = OutsOk \/ c = Fin0 -> lstepR p q g c APostHook (inc_post (set_pc Fin1 q)) g
  | S_PostHookErr : lstepR p q g ErrRec APostHook (inc_post (set_raised true (set_pc Fin1 q))) g
  | S_PostHookRaise c : c = OutsOk \/ c = Fin0 ->
      lstepR p q g c APostHookRaise (set_dirty (inc_post (set_pc ExcHold q))) g
  | S_PostHookErrRaise : lstepR p q g ErrRec APostHookRaise (set_dirty (inc_post (set_raised true (set_pc ExcHold q)))) g
  | S_InfoRemoved k : infos q = S k -> lstepR p q g Fin3 AInfoRemoved (set_infos k (set_pc Fin4 q)) g
  | S_CwdRestored : lstepR p q g Fin4 ACwdRestored (set_cwd Home (set_pc Fin5 q)) g
  | S_Release : raised q = false ->
      lstepR p q g Fin5 ARelease (set_pc RelOk q) (set_lock (unlock p (lock g)) g)
  | S_ReleaseRaised : raised q = true ->
      lstepR p q g Fin5 ARelease (set_pc RelExc q) (set_lock (unlock p (lock g)) g)
  | S_ReleaseExc : lstepR p q g ExcHold ARelease (set_pc RelExc q) (set_lock (unlock p (lock g)) g)
  | S_Returned c : c = RelHit \/ c = Post2 ->
      lstepR p q g c AReturned
        (set_ret (Some (match job_result q g with Some r => Returned r | None => NoResult end)) (set_pc Done q)) g
  | S_RaisedOut : lstepR p q g RelExc ARaisedOut (set_ret (Some Raised) (set_pc Done q)) g
  | S_ReturnedErr r : job_result q g = Some r ->
      lstepR p q g RelExc AReturned (set_ret (Some (Returned r)) (set_pc Done q)) g
  | S_Chdir c : c = BodyIn \/ c = Fin1 -> lstepR p q g c AChdir (set_cwd Elsewhere q) g
  | S_ProgressRes c n : c = Sv true SRO \/ c = Sv true SRD -> grows (resf g) n = true ->
      lstepR p q g c (AProgress n) q (set_resf (Writing (the_result q) n) g)
  | S_ProgressJob c f n : c = Sv f SJO \/ c = Sv f SJD -> grows (jobf g) n = true ->
      lstepR p q g c (AProgress n) q (set_jobf (Writing tt n) g)
  | S_ProgressErr c n : c = Err2 \/ c = Err3 -> grows (errf g) n = true ->
      lstepR p q g c (AProgress n) q (set_errf (Writing tt n) g)
  | S_ExcOut c : c = Waiting \/ c = Post1 \/ c = Post2 -> lstepR p q g c AExc (set_pc RelExc q) g
  | S_ExcTry c : c = BodyIn \/ c = BodyOut \/ c = OutsOk -> lstepR p q g c AExc (mark_failed (set_pc Err0 q)) g
  | S_ExcHandler c : c = Err0 \/ c = Err1 \/ c = Err2 \/ c = Err4 \/ c = ErrRec ->
      lstepR p q g c AExc (set_raised true (set_pc Fin0 q)) g
  | S_ExcErr3 : lstepR p q g Err3 AExc (set_raised true (set_pc Fin0 q)) (set_errf (Complete tt) g)
  | S_ExcHold c : region_at c = RPre \/ region_at c = RFinally -> c <> ExcHold ->
      lstepR p q g c AExc (set_dirty (set_pc ExcHold q)) (exc_glob p q g).

  Lemma lstep_is_rule p q g a :
    match lstep p q g a with Some (q', g') => lstepR p q g (pc q) a q' g' | None => True end.
  Proof.
    unfold lstep, CacheProto.lstep, go. remember (pc q) as c eqn:E. symmetry in E.
    case_pc c; destruct a; try exact I.
    (* AExc: before the try and in the finally block the target is ExcHold, elsewhere exc_target computes *)
    all: try (rewrite exc_target_hold by (rewrite E; cbn; auto)).
    all: unfold exc_target; try rewrite E; cbn [region_at holds_s].
    (* the guards of the clause: one goal per outcome, those without a step are closed *)
    all: repeat match goal with
                | |- match (if ?c then _ else _) with _ => _ end => destruct c eqn:?; try exact I
                | |- match (match ?c with _ => _ end) with _ => _ end => destruct c eqn:?; try exact I
                | _ => progress cbv zeta
                end.
    (* AChecked with a usable result: S_Hit wants the result and `errored r = false` *)
    all: try match goal with U : usable ?o = true |- _ =>
               destruct o eqn:?; cbn in U; [apply negb_true_iff in U; rewrite U|discriminate U] end.
    (* an `if` left inside the new state: ADirCleared at Pop1 (dir g), ARelease at Fin5 (raised q) *)
    all: try match goal with |- context [if ?c then _ else _] => destruct c eqn:? end.
    (* each remaining goal is one rule at the pc of its case; its side conditions are in the context *)
    all: solve [econstructor; solve [eassumption | constructor | auto 6 | cbn; auto; discriminate]].
  Qed.

  Lemma lstep_inv p q g a q' g' : lstep p q g a = Some (q', g') -> lstepR p q g (pc q) a q' g'.
  Proof. intros H. pose proof (lstep_is_rule p q g a) as R. now rewrite H in R. Qed.

End Rules.

(* lstep_rules: one goal per rule that can have produced the step; `pc q` is abstracted first, so that the elimination puts
   the rule's pc in its place in hypotheses and goal (Epc keeps `pc q = ` that pc).  lstep_pcs: the rules that start from
   several pcs, one goal per pc (a caller that can exclude rules by their action does so in between); S_ExcHold, which knows
   its pc by the region only, gets `pc q` back.  `set_cwd` is unfolded for S_Chdir, which keeps the pc:
   `pc (set_cwd Elsewhere q)` becomes `pc q`, and that is rewritten by Epc, as is the `pc q` of the AProgress rules.
   A proof that goes through all rules of lstepR by lstep_cases is what the comments of the CacheProto files call a walk. *)
Ltac lstep_rules H :=
  apply lstep_inv in H;
  match type of H with lstepR _ _ _ _ ?q _ _ _ _ _ =>
    let c := fresh "c" in let E := fresh "Epc" in remember (pc q) as c eqn:E in *; symmetry in E; destruct H end.
Ltac lstep_pcs :=
  try match goal with M : moves _ _ _ |- _ => destruct M end;
  repeat match goal with E : _ \/ _ |- _ => destruct E end;
  try match goal with Ep : pc _ = ?c, E : ?c = _ |- _ => is_var c; revert Ep; subst c; intro Ep end;
  try match goal with E : pc _ = ?c |- _ => is_var c; subst c end;
  try match goal with E : pc _ = Sv ?f _ |- _ => is_var f; destruct f end;
  cbn [pc set_cwd] in *;
  try match goal with E : pc _ = _ |- _ => rewrite E end.
Ltac lstep_cases H := lstep_rules H; lstep_pcs.

Definition alive (s : state) (p : pid) : Prop := dead (gl s) p = false.

Lemma alive_kill s p r : alive (mkState (procs s) (kill p (gl s))) r -> alive s r.
Proof. unfold alive. cbn. now destruct (Nat.eqb r p). Qed.

(* how one step of p moves a marker m (m' afterwards) when h / h' say whether p is inside before / after:
   not at all, p takes it, p lets go of it *)
Definition marker_step (p : pid) (g : glob) (m m' : option pid) (h h' : bool) : Prop :=
  (m' = m /\ h' = h) \/ (h' = true /\ free m g = true /\ m' = Some p) \/ (h' = false /\ m' = unlock p m).

Definition same_files (g g' : glob) : Prop :=
  dir g' = dir g /\ jobf g' = jobf g /\ resf g' = resf g /\ errf g' = errf g.

Definition marker_inv (m : glob -> option pid) (h : pcT -> bool) (s : state) : Prop :=
  forall p, alive s p -> (h (pc (procs s p)) = true <-> m (gl s) = Some p).

Definition lock_inv (s : state) : Prop := marker_inv lock holds s /\ marker_inv slock holds_s s.

Lemma marker_inv_kill m h s p : (forall g, m (kill p g) = m g) -> marker_inv m h s ->
  marker_inv m h (mkState (procs s) (kill p (gl s))).
Proof. intros Hm I r Ar. cbn [procs gl]. rewrite Hm. apply I. exact (alive_kill _ _ _ Ar). Qed.

Lemma marker_inv_lstep m h s p q' g' :
  marker_inv m h s -> dead g' = dead (gl s) ->
  marker_step p (gl s) (m (gl s)) (m g') (h (pc (procs s p))) (h (pc q')) ->
  marker_inv m h (mkState (upd (procs s) p q') g').
Proof.
  intros I Dd Hm r Ar. unfold alive in *. cbn [procs gl] in *. rewrite Dd in Ar. specialize (I r Ar).
  destruct (Nat.eq_dec r p) as [->|Ne]; [rewrite upd_same|rewrite upd_other by assumption].
  - destruct Hm as [[-> ->]|[(-> & _ & ->)|(-> & ->)]]; [exact I|tauto|].
    rewrite unlock_iff. split; [discriminate|now intros [_ N]].
  - rewrite I. destruct Hm as [[-> _]|[(_ & F & ->)|(_ & ->)]]; [reflexivity| |rewrite unlock_iff; tauto].
    (* p could take the marker: it did not name the live process r *)
    split; [intros E; rewrite E in F; cbn in F|]; congruence.
Qed.

Lemma marker_unique m h s p q : marker_inv m h s ->
  alive s p -> alive s q -> h (pc (procs s p)) = true -> h (pc (procs s q)) = true -> p = q.
Proof. intros I Ap Aq Hp Hq. apply (I p Ap) in Hp. apply (I q Aq) in Hq. congruence. Qed.

(* a marker left behind does not block when every live process is outside: it names a dead one *)
Lemma marker_unheld m h s : marker_inv m h s -> (forall r, alive s r -> h (pc (procs s r)) = false) ->
  free (m (gl s)) (gl s) = true.
Proof.
  intros I Out. destruct (m (gl s)) as [x|] eqn:E; [cbn|reflexivity].
  destruct (dead (gl s) x) eqn:D; [reflexivity|]. apply (I x D) in E. now rewrite Out in E.
Qed.

Lemma unlocked_outside s p : lock_inv s -> lock (gl s) = None -> alive s p -> holds (pc (procs s p)) = false.
Proof.
  intros [I _] LN Ap. destruct (holds (pc (procs s p))) eqn:Hp; [|reflexivity]. apply (I p Ap) in Hp. congruence.
Qed.

Section System.
  Variable pickle : res -> list nat.
  Variable unpickle : list nat -> option res.
  Variable bv : val.
  Notation lstep := (lstep pickle unpickle bv).
  Notation step := (step pickle unpickle bv).
  Notation run := (run pickle unpickle bv).
  Notation init := (init bv).

  Lemma run_inv_on (P : event -> Prop) (I : state -> Prop) :
    (forall s e s', I s -> step s e = Some s' -> P e -> I s') ->
    forall tr s s', I s -> (forall e, In e tr -> P e) -> run s tr = Some s' -> I s'.
  Proof.
    intros Hstep. induction tr as [|e tr IH]; cbn; intros s s' Hs Htr H.
    - inversion H; subst; assumption.
    - destruct (step s e) as [s1|] eqn:E; [|discriminate]. apply (IH s1); eauto.
  Qed.

  Lemma run_inv_all (I : state -> Prop) :
    (forall s e s', I s -> step s e = Some s' -> I s') ->
    forall tr s s', I s -> run s tr = Some s' -> I s'.
  Proof. intros Hstep tr s s' Hs. apply (run_inv_on (fun _ => True)); eauto. Qed.

  Lemma lstep_markers {p q g a q' g'} : lstep p q g a = Some (q', g') ->
    dead g' = dead g /\ marker_step p g (lock g) (lock g') (holds (pc q)) (holds (pc q')) /\
    marker_step p g (slock g) (slock g') (holds_s (pc q)) (holds_s (pc q')).
  Proof.
    intros H. lstep_cases H; unfold marker_step; cbn.
    (* S_ExcHold: the pc is known by its region only *)
    all: try (rewrite holds_region; match goal with R : region_at _ = _ |- _ => rewrite R end;
              destruct (exc_glob_frame p q g) as (-> & -> & ->); destruct (holds_s (pc q))).
    all: auto 10.
  Qed.

  Inductive stepR (s : state) : event -> state -> Prop :=
  | St_Kill p : alive s p -> stepR s (p, ACrash) (mkState (procs s) (kill p (gl s)))
  | St_Own p a q' g' : alive s p -> lstep p (procs s p) (gl s) a = Some (q', g') ->
      stepR s (p, a) (mkState (upd (procs s) p q') g').

  Lemma step_cases s e s' : step s e = Some s' -> stepR s e s'.
  Proof.
    destruct e as [p a]. unfold step, CacheProto.step. destruct (dead (gl s) p) eqn:Dp; [discriminate|].
    destruct a; try (destruct (lstep p (procs s p) (gl s) _) as [[q' g']|] eqn:L; [|discriminate]).
    all: intros [= <-]; now constructor.
  Qed.

  Lemma step_own s p a q' g' : alive s p -> lstep p (procs s p) (gl s) a = Some (q', g') ->
    exists s', step s (p, a) = Some s' /\ procs s' p = q' /\ gl s' = g' /\
               (forall r, r <> p -> procs s' r = procs s r) /\ dead (gl s') = dead (gl s).
  Proof.
    intros Ap L. exists (mkState (upd (procs s) p q') g'). cbn [procs gl].
    split; [|split; [apply upd_same|split; [reflexivity|split; [intros r; apply upd_other|apply (lstep_markers L)]]]].
    unfold step, CacheProto.step, alive in *. rewrite Ap. destruct a; try now rewrite L.
    (* a kill is no step of the process's own *)
    unfold lstep, CacheProto.lstep in L. case_pc (pc (procs s p)); discriminate L.
  Qed.

  Lemma others_untouched p tr s s' :
    run s tr = Some s' -> (forall e, In e tr -> fst e = p) ->
    forall r, r <> p -> procs s' r = procs s r.
  Proof.
    intros R F r Ne. revert R.
    apply (run_inv_on (fun e => fst e = p) (fun s1 => procs s1 r = procs s r)); [|reflexivity|exact F].
    intros s1 e s2 E H Ep. rewrite <- E.
    apply step_cases in H. destruct H as [p0 _|p0 a q' g' _ _]; cbn in *; [reflexivity|apply upd_other; congruence].
  Qed.

  Lemma lstep_outside {p q g a q' g'} : lstep p q g a = Some (q', g') -> holds (pc q) = false ->
     g' = g \/ g' = set_lock (Some p) g.
  Proof.
    intros H Hh. lstep_cases H; try discriminate Hh; cbn; auto.
    (* S_ExcHold: the pc is known by its region only *)
    all: rewrite holds_region in Hh; match goal with R : region_at _ = _ |- _ => rewrite R in Hh end; discriminate Hh.
  Qed.

  Lemma outside_same_files {p q g a q' g'} : lstep p q g a = Some (q', g') -> holds (pc q) = false -> same_files g g'.
  Proof. intros L Hh. destruct (lstep_outside L Hh) as [-> | ->]; repeat split. Qed.

  Lemma lock_inv_init pre : lock_inv (init pre).
  Proof. split; intros p _; destruct pre; cbn; split; discriminate. Qed.

  Lemma lock_inv_step s e s' : lock_inv s -> step s e = Some s' -> lock_inv s'.
  Proof.
    intros [I1 I2] H. apply step_cases in H. destruct H as [p Dp|p a q' g' Dp L].
    - split; apply marker_inv_kill; auto.
    - destruct (lstep_markers L) as (Dd & Hl & Hs).
      split; eapply marker_inv_lstep; eauto.
  Qed.

  Lemma lock_inv_reachable pre tr s : run (init pre) tr = Some s -> lock_inv s.
  Proof. apply run_inv_all; [apply lock_inv_step|apply lock_inv_init]. Qed.

  (* Lifting an assertion J on (own state, shared state) to all live processes.  J does not look at
     <checksum>.lock and survives the steps of a process outside its with block; the only process inside is
     then disturbed by nobody, and its own steps are all there is to check. *)
  Lemma alive_inv_lstep (J : proc -> glob -> Prop) s p a q' g' :
    lock_inv s -> alive s p -> lstep p (procs s p) (gl s) a = Some (q', g') ->
    (forall q x, J q (gl s) -> J q (set_lock x (gl s))) ->
    (forall q, holds (pc q) = false -> J q (gl s) -> J q g') ->
    (forall r, alive s r -> J (procs s r) (gl s)) -> J q' g' ->
    forall r, alive (mkState (upd (procs s) p q') g') r -> J (upd (procs s) p q' r) g'.
  Proof.
    intros [LI _] Dp L Jl Jo HJ Jq r Ar. destruct (lstep_markers L) as [Dd _].
    unfold alive in Ar. cbn in Ar. rewrite Dd in Ar.
    destruct (Nat.eq_dec r p) as [->|Ne]; [now rewrite upd_same|rewrite upd_other by assumption].
    destruct (holds (pc (procs s r))) eqn:Hr; [|now apply Jo, HJ].
    assert (Hp : holds (pc (procs s p)) = false).
    { destruct (holds (pc (procs s p))) eqn:Hp; [|reflexivity]. elim Ne. eapply marker_unique; eauto. }
    destruct (lstep_outside L Hp) as [-> | ->]; auto.
  Qed.

  Theorem mutex pre tr s p q :
    run (init pre) tr = Some s ->
    alive s p -> alive s q ->
    holds (pc (procs s p)) = true -> holds (pc (procs s q)) = true -> p = q.
  Proof. intros R. apply marker_unique with (m := lock). apply (lock_inv_reachable _ _ _ R). Qed.

  Theorem mutex_save pre tr s p q :
    run (init pre) tr = Some s ->
    alive s p -> alive s q ->
    holds_s (pc (procs s p)) = true -> holds_s (pc (procs s q)) = true -> p = q.
  Proof. intros R. apply marker_unique with (m := slock). apply (lock_inv_reachable _ _ _ R). Qed.
End System.
