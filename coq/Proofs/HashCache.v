(* Proofs/HashCache.v — C06: the result cache keyed by the checksum returns what running the task would return
   exactly when the checksum separates tasks that compute different things; what the checksum does not see. *)
From Coq Require Import Sorting.Permutation.
From Pydra Require Import Base.Prelude Model.Hash.
Local Open Scope list_scope.
Local Open Scope string_scope.

Section CacheFacts.
  Context {T O : Type}.
  Variable ident : T -> string.
  Variable run : T -> O.

  (* every stored entry was produced by running a task with that identity *)
  Definition store_inv (done : list T) (s : store) : Prop :=
    forall d o, find d s = Some o -> exists t, In t done /\ ident t = d /\ o = run t.

  Lemma submit_inv : forall done s t, store_inv done s -> store_inv (t :: done) (snd (submit ident run s t)).
  Proof.
    intros done s t HI d o Hf. unfold submit in Hf. destruct (find (ident t) s) as [o'|] eqn:E; cbn in Hf.
    - destruct (HI d o Hf) as (t' & Hin & Hid & Ho). exists t'. split; [now right|auto].
    - destruct (String.eqb_spec (ident t) d) as [<-|Hne].
      + inversion Hf; subst. exists t. split; [now left|auto].
      + destruct (HI d o Hf) as (t' & Hin & Hid & Ho). exists t'. split; [now right|auto].
  Qed.

  Theorem cache_sound_or : forall (C : Prop) ts done s,
      store_inv done s ->
      (forall t1 t2, In t1 (done ++ ts) -> In t2 (done ++ ts) -> ident t1 = ident t2 -> run t1 = run t2 \/ C) ->
      fst (submit_all ident run s ts) = map run ts \/ C.
  Proof.
    intros C. induction ts as [|t ts IH]; intros done s HI Hsep; [now left|].
    cbn [submit_all]. pose proof (submit_inv done s t HI) as HI'.
    destruct (submit ident run s t) as [o s1] eqn:Es. cbn [snd] in HI'.
    assert (Ho : o = run t \/ C).
    { unfold submit in Es. destruct (find (ident t) s) as [o'|] eqn:Ef; inversion Es; subst; [|now left].
      destruct (HI _ _ Ef) as (t' & Hin & Hid & ->). apply Hsep; auto using in_elt. apply in_or_app. now left. }
    destruct Ho as [->|Hc]; [|now right].
    destruct (IH (t :: done) s1 HI') as [E|Hc]; [|left|now right].
    - intros t1 t2 H1 H2. apply Hsep; rewrite <- Permutation_middle; assumption.
    - destruct (submit_all ident run s1 ts) as [os s2]. cbn in *. now rewrite E.
  Qed.

  Theorem cache_sound : forall ts done s,
      store_inv done s ->
      (forall t1 t2, In t1 (done ++ ts) -> In t2 (done ++ ts) -> ident t1 = ident t2 -> run t1 = run t2) ->
      fst (submit_all ident run s ts) = map run ts.
  Proof.
    intros ts done s HI Hsep. destruct (cache_sound_or False ts done s HI) as [E|[]]; [|exact E].
    intros t1 t2 H1 H2 E. left. now apply Hsep.
  Qed.

  Theorem cache_stale : forall t1 t2, ident t1 = ident t2 -> run t1 <> run t2 ->
      fst (submit_all ident run [] [t1; t2]) <> map run [t1; t2].
  Proof.
    intros t1 t2 Hid Hr. cbn. unfold submit. cbn [find]. rewrite <- Hid, String.eqb_refl. cbn.
    intros E. inversion E. contradiction.
  Qed.
End CacheFacts.

Definition ident_of (H : string -> string) (t : taskdef) : string :=
  match identity H t with Ok s => s | Err _ => "" end.

(* the closure cells / globals of a function value are not part of its bytes *)
Lemma field_hashes_ignores_hidden : forall H pre post n i src h1 h2 m,
    field_hashes H (pre ++ (n, VFunc i src h1) :: post) m = field_hashes H (pre ++ (n, VFunc i src h2) :: post) m.
Proof.
  induction pre as [|[k v] pre IH]; intros post n i src h1 h2 m; cbn [app field_hashes].
  - reflexivity.
  - destruct (hash_object H v m) as [[d m']|]; [|reflexivity]. now rewrite (IH post n i src h1 h2 m').
Qed.

Theorem identity_ignores_closure : forall H ty meta pre post n i src h1 h2,
    identity H {| t_type := ty; t_fields := pre ++ (n, VFunc i src h1) :: post; t_meta := meta |} =
    identity H {| t_type := ty; t_fields := pre ++ (n, VFunc i src h2) :: post; t_meta := meta |}.
Proof.
  intros. unfold identity, checksum, compute_hash. cbn [t_type t_fields].
  now rewrite (field_hashes_ignores_hidden H pre post n i src h1 h2 []).
Qed.

Definition fn_src : list string := ["arguments([], [arg('x')], None, [], [], None, [])"; "Return(BinOp(Name('x', Load()), Add(), Name('k', Load())))"].
Definition task_closure (k : Z) : taskdef :=
  {| t_type := "python";
     t_fields := [("x", VInt 1); ("function", VFunc 5 fn_src [("closure:k", VInt k)]); ("Outputs", VOpaque 6 "type:(outputs)")];
     t_meta := [] |}.
Definition task_argstr (a : string) : taskdef :=
  {| t_type := "shell";
     t_fields := [("a", VStr "x"); ("append_args", VList 3 []); ("executable", VStr "echo"); ("Outputs", VOpaque 6 "type:(outputs)")];
     t_meta := [("a.argstr", a); ("a.position", "1")] |}.

Lemma closure_witness : forall H, ident_of H (task_closure 1) = ident_of H (task_closure 100) /\ task_closure 1 <> task_closure 100.
Proof.
  intros H. split; [|intros E; inversion E].
  unfold ident_of.
  assert (E : identity H (task_closure 1) = identity H (task_closure 100)); [|now rewrite E].
  exact (identity_ignores_closure H "python" [] [("x", VInt 1)] [("Outputs", VOpaque 6 "type:(outputs)")]
                                  "function" 5 fn_src [("closure:k", VInt 1)] [("closure:k", VInt 100)]).
Qed.

Lemma argstr_witness : forall H, ident_of H (task_argstr "-a") = ident_of H (task_argstr "-b") /\ task_argstr "-a" <> task_argstr "-b".
Proof. intros H. split; [reflexivity|intros E; inversion E]. Qed.

(* after the repair of bytes_repr_numpy: arrays with one buffer but different shape or dtype have different bytes
   (so their digests, and the checksums of tasks taking them as input, differ unless blake2b collides) *)
Definition nd_zeros (dt : string) (sh : list nat) : pyval :=
  VNd 1 "numpyndarray" dt sh (hx "000000000000000000000000000000000000000000000000000000000000000000000000000000000000000000000000").
(* the two sides differ in the dtype / shape header, which precedes the buffer: the buffer stays a variable *)
Lemma array_shape_dtype_separated : forall H b, let nd dt sh := VNd 1 "numpyndarray" dt sh b in
    preimage H (nd "float64" [2; 3]) <> preimage H (nd "float64" [3; 2]) /\
    preimage H (nd "float64" [6]) <> preimage H (nd "int64" [6]) /\
    preimage H (nd "float64" [6]) <> preimage H (nd "float64" [2; 3]).
Proof. intros H b. repeat split; vm_compute; intros E; discriminate E. Qed.
