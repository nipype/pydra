(* Proofs/GraphEdges.v — from the predecessors dictionary to the list of edges: as long as
   add_nodes is only given nodes that are not marked for removal and that no recorded edge points
   to, predecessors[b] lists a exactly as often as (a, b) occurs in edges; hence the order is
   valid for the edges. *)
From Pydra Require Import Base.Prelude Model.Graph Proofs.GraphBase Proofs.GraphInv Proofs.ListFacts.
From Coq Require Import Sorting.Permutation.
Local Open Scope nat_scope.
Local Open Scope list_scope.

Definition edge_dec : forall x y : edge, {x = y} + {x <> y}.
Proof. decide equality; apply Nat.eq_dec. Qed.
Definition cnt (a : node) (l : list node) : nat := count_occ Nat.eq_dec l a.
Definition ecnt (e : edge) (l : list edge) : nat := count_occ edge_dec l e.

Definition counts_ok (pd : dict) (es : list edge) : Prop :=
  forall b pl, dget pd b = Some pl -> forall a, cnt a pl = ecnt (a, b) es.

Definition inv2 (g : graph) : Prop :=
  inv g /\
  (forall n, In n (g_nodes g) -> In n (dkeys (g_preds g))) /\
  (forall x, In x (g_wip g) -> ~ In x (g_nodes g)) /\
  counts_ok (g_preds g) (g_edges g).

(* what inv2 adds to inv: inv2 g is [inv g /\ rest_ok g] written out, and is taken apart and put together as that pair *)
Definition rest_ok (g : graph) : Prop :=
  (forall n, In n (g_nodes g) -> In n (dkeys (g_preds g))) /\
  (forall x, In x (g_wip g) -> ~ In x (g_nodes g)) /\
  counts_ok (g_preds g) (g_edges g).

Lemma cnt_pos_In a l : cnt a l > 0 <-> In a l.
Proof. unfold cnt. symmetry. apply count_occ_In. Qed.
Lemma ecnt_pos_In e l : ecnt e l > 0 <-> In e l.
Proof. unfold ecnt. symmetry. apply count_occ_In. Qed.

(* the edges [mk nd k] for k in l: [mk x k] is (x, k) or (k, x) *)
Lemma ecnt_map_mk (mk : node -> node -> edge) :
  (forall x k x' k', mk x k = mk x' k' -> x = x' /\ k = k') ->
  forall nd l x k, ecnt (mk x k) (map (mk nd) l) = if Nat.eqb x nd then occ k l else 0.
Proof.
  intros inj nd l x k. unfold ecnt, occ. destruct (Nat.eqb_spec x nd) as [->|Hne].
  - symmetry. apply count_occ_map. intros a b E. apply (inj _ _ _ _ E).
  - apply count_occ_not_In. intros Hi. apply in_map_iff in Hi. destruct Hi as [k' [E _]].
    apply Hne. symmetry. apply (inj _ _ _ _ E).
Qed.

Lemma ecnt_perm_app es l1 l2 e : Permutation es (l1 ++ l2) -> ecnt e es = ecnt e l1 + ecnt e l2.
Proof. intros P. unfold ecnt. rewrite (proj1 (Permutation_count_occ edge_dec _ _) P e). apply count_occ_app. Qed.

Lemma count_occ_snoc {A} (dec : forall x y : A, {x = y} + {x <> y}) l x y :
  count_occ dec (l ++ [x]) y = count_occ dec l y + (if dec x y then 1 else 0).
Proof. rewrite count_occ_app. cbn. destruct (dec x y); reflexivity. Qed.

Lemma edge_dec_same x y a : (if edge_dec (x, y) (a, y) then 1 else 0) = if Nat.eq_dec x a then 1 else 0.
Proof. destruct (edge_dec (x, y) (a, y)), (Nat.eq_dec x a); congruence. Qed.
Lemma edge_dec_other x y a b : b <> y -> (if edge_dec (x, y) (a, b) then 1 else 0) = 0.
Proof. intros H. destruct (edge_dec (x, y) (a, b)); congruence. Qed.

Lemma counts_ok_dset pd es k v v' es' :
  counts_ok pd es -> dget pd k = Some v ->
  (forall a, cnt a v' + ecnt (a, k) es = cnt a v + ecnt (a, k) es') ->
  (forall a b, b <> k -> ecnt (a, b) es' = ecnt (a, b) es) ->
  counts_ok (dset pd k v') es'.
Proof.
  intros Hc Hv Hk Ho b pl Hb a. rewrite dget_dset in Hb. destruct (Nat.eqb_spec b k) as [->|Hne].
  - inversion Hb; subst pl. specialize (Hk a). rewrite (Hc k v Hv a) in Hk. lia.
  - rewrite (Ho a b Hne). exact (Hc b pl Hb a).
Qed.

Lemma counts_ok_append_all new : forall pd pd' es,
  foldM (fun d e => dappend d (snd e) (fst e)) new pd = Ok pd' -> counts_ok pd es -> counts_ok pd' (es ++ new).
Proof.
  induction new as [|[x y] new IH]; cbn [foldM]; intros pd pd' es H Hc.
  - inversion H; subst. rewrite app_nil_r. exact Hc.
  - apply bind_ok in H. destruct H as [p1 [Hp H]]. cbn [fst snd] in Hp.
    change (counts_ok pd' (es ++ [(x, y)] ++ new)). rewrite app_assoc.
    apply (IH p1 pd' _ H). clear IH H.
    apply dappend_inv in Hp. destruct Hp as [v [Hv ->]].
    apply (counts_ok_dset pd es y v); [exact Hc|exact Hv| |]; unfold cnt, ecnt.
    + intros a. rewrite !count_occ_snoc, edge_dec_same. lia.
    + intros a b Hb. rewrite count_occ_snoc, edge_dec_other by exact Hb. lia.
Qed.

Lemma counts_ok_connect_all new pd sd ps es :
  connect_all new pd sd = Ok ps -> counts_ok pd es -> counts_ok (fst ps) (es ++ new).
Proof. intros H. exact (counts_ok_append_all _ _ _ _ (proj1 (connect_all_split _ _ _ _ H))). Qed.

Lemma dget_empty ns b : dget (map (fun n => (n, @nil node)) ns) b = if memb b ns then Some [] else None.
Proof.
  induction ns as [|n ns IH]; cbn; [reflexivity|].
  destruct (Nat.eqb b n); cbn; [reflexivity|exact IH].
Qed.

Lemma counts_ok_empty ns : counts_ok (map (fun n => (n, [])) ns) [].
Proof. intros b pl Hb a. rewrite dget_empty in Hb. destruct (memb b ns); inversion Hb. reflexivity. Qed.

Lemma init_inv2 ns es g : init ns es = Ok g -> inv2 g.
Proof.
  intros H. split; [eapply init_inv; eauto|]. destruct (init_frame _ _ _ H) as [_ [_ [ps [Hc ->]]]].
  cbn [g_nodes g_preds g_edges g_wip]. split; [|split; [contradiction|]].
  - rewrite (proj1 (connect_all_dkeys _ _ _ _ Hc)), dkeys_empty. auto.
  - apply (counts_ok_connect_all _ _ _ _ [] Hc), counts_ok_empty.
Qed.

Lemma dget_fold_dset new : forall d b,
  dget (fold_left (fun d n => dset d n []) new d) b = if memb b new then Some [] else dget d b.
Proof.
  induction new as [|n new IH]; intros d b; cbn; [reflexivity|].
  rewrite IH, dget_dset. destruct (Nat.eqb b n) eqn:E; cbn; [|reflexivity].
  destruct (memb b new); reflexivity.
Qed.

Lemma dkeys_fold_dset new d x :
  In x (dkeys (fold_left (fun d n => dset d n []) new d)) <-> In x new \/ In x (dkeys d).
Proof.
  rewrite <- !dget_In_keys. rewrite dget_fold_dset. destruct (memb x new) eqn:E.
  - apply memb_In in E. split; [auto|eauto].
  - apply memb_false in E. split; [auto|intros [H|H]; [contradiction|exact H]].
Qed.

Lemma counts_ok_fold_dset new pd es :
  counts_ok pd es -> (forall a b, In b new -> ~ In (a, b) es) ->
  counts_ok (fold_left (fun d n => dset d n []) new pd) es.
Proof.
  intros Hc Hf b pl Hb a. rewrite dget_fold_dset in Hb. destruct (memb b new) eqn:E; [|apply Hc, Hb].
  inversion Hb; subst pl. apply memb_In in E. symmetry. apply count_occ_not_In, (Hf a b E).
Qed.

Lemma set_sorted_fields g s :
  g_nodes (set_sorted g s) = g_nodes g /\ g_edges (set_sorted g s) = g_edges g /\
  g_preds (set_sorted g s) = g_preds g /\ g_succs (set_sorted g s) = g_succs g /\
  g_wip (set_sorted g s) = g_wip g.
Proof. repeat split. Qed.

Lemma set_sorted_id g : g = set_sorted g (g_sorted g).
Proof. destruct g; reflexivity. Qed.

Lemma sorting_frame g pres g' : sorting g pres = Ok g' -> exists l, g' = set_sorted g (Some l).
Proof. intros H. destruct (sorting_sound _ _ _ H) as [l [E _]]. eauto. Qed.

Lemma add_nodes_frame g new g' : add_nodes g new = Ok g' ->
  NoDup (g_nodes g ++ new) /\
  exists o, g' = mkG (g_nodes g ++ new) (g_edges g) (fold_left (fun d n => dset d n []) new (g_preds g))
                     (fold_left (fun d n => dset d n []) new (g_succs g)) o (g_wip g).
Proof.
  unfold add_nodes. destruct (nonempty _ && has_dup _) eqn:Hd; [discriminate|]. intros H.
  split; [apply check_dup_nodup, Hd|]. destruct (g_sorted g); [apply sorting_frame in H; destruct H as [l0 ->]|inversion H]; eexists; reflexivity.
Qed.

Lemma add_edges_frame g new g' : add_edges g new = Ok g' ->
  (forall a b, In (a, b) (g_edges g ++ new) -> In a (g_nodes g) /\ In b (g_nodes g)) /\
  exists ps o, connect_all new (g_preds g) (g_succs g) = Ok ps /\
               g' = mkG (g_nodes g) (g_edges g ++ new) (fst ps) (snd ps) o (g_wip g).
Proof.
  unfold add_edges. destruct (nonempty _ && negb _) eqn:He; [discriminate|]. intros H.
  split; [apply check_edges, He|]. apply bind_ok in H. destruct H as [ps [Hc H]]. exists ps.
  destruct (g_sorted g); [apply sorting_frame in H; destruct H as [l0 ->]|inversion H]; eexists; (split; [exact Hc|reflexivity]).
Qed.

Lemma remove_nodes_frame g l c g' : remove_nodes g l c = Ok g' ->
  exists g1 o, foldM (mark_removed c) l g = Ok g1 /\ g' = set_sorted g1 o.
Proof.
  unfold remove_nodes. intros H. apply bind_ok in H. destruct H as [g1 [Hm H]]. exists g1.
  destruct (g_sorted g1) eqn:E; [unfold finish_remove in H; destruct (list_eqb _ _ _)|].
  - inversion H; subst g'. eexists. split; [exact Hm|reflexivity].
  - apply bind_ok in H. destruct H as [s' [_ H]]. apply sorting_frame in H. destruct H as [l1 ->].
    eexists. split; [exact Hm|reflexivity].
  - inversion H; subst g'. exists None. rewrite <- E. split; [exact Hm|apply set_sorted_id].
Qed.

Lemma sorted_nodes_frame g g' s : sorted_nodes g = Ok (g', s) -> g' = set_sorted g (Some s).
Proof.
  unfold sorted_nodes. destruct (g_sorted g) eqn:E; intros H.
  - inversion H; subst. rewrite <- E. apply set_sorted_id.
  - apply bind_ok in H. destruct H as [g1 [H1 H]]. apply sorting_frame in H1. destruct H1 as [l ->].
    inversion H. reflexivity.
Qed.

Definition order_op (o : op) : bool := match o with Sort | GetSorted | Copy => true | _ => false end.

Lemma order_only_step g o g' : order_op o = true -> step g o = Ok g' -> exists s, g' = set_sorted g s.
Proof.
  destruct o; try discriminate; intros _ H; cbn in H.
  - apply sorting_frame in H. destruct H as [l ->]. eauto.
  - apply bind_ok in H. destruct H as [[g1 s] [H1 H]]. inversion H; subst g'. apply sorted_nodes_frame in H1. eauto.
  - inversion H. unfold copy_graph. destruct (g_sorted g) as [[|x s]|] eqn:E; [eauto| |];
      exists (g_sorted g); apply set_sorted_id.
Qed.

Lemma rest_ok_set_sorted g s : rest_ok g -> rest_ok (set_sorted g s).
Proof. exact (fun H => H). Qed.

Lemma add_nodes_rest g new g' :
  rest_ok g -> fresh_for g new = true -> add_nodes g new = Ok g' -> rest_ok g'.
Proof.
  intros [Hk [Hw Hc]] Hf H. destruct (add_nodes_frame _ _ _ H) as [_ [o ->]].
  unfold fresh_for in Hf. rewrite forallb_forall in Hf.
  assert (Hf' : forall n, In n new -> ~ In n (g_wip g) /\ forall a, ~ In (a, n) (g_edges g)).
  { intros n Hn. specialize (Hf n Hn). apply andb_true_iff in Hf. destruct Hf as [F1 F2].
    apply negb_true_iff in F1, F2. split; [apply memb_false, F1|]. intros a Hin.
    assert (existsb (fun e => Nat.eqb (snd e) n) (g_edges g) = true); [|congruence].
    apply existsb_exists. exists (a, n). split; [exact Hin|apply Nat.eqb_refl]. }
  split; [|split]; cbn.
  - intros n Hn. apply dkeys_fold_dset. apply in_app_or in Hn. destruct Hn; auto.
  - intros x Hx Hn. apply in_app_or in Hn. destruct Hn as [Hn|Hn]; [eapply Hw; eauto|exact (proj1 (Hf' x Hn) Hx)].
  - apply counts_ok_fold_dset; [exact Hc|]. intros a b Hb. apply (Hf' b Hb).
Qed.

Lemma add_edges_rest g new g' : rest_ok g -> add_edges g new = Ok g' -> rest_ok g'.
Proof.
  intros [Hk [Hw Hc]] H. destruct (add_edges_frame _ _ _ H) as [_ [ps [o [Hca ->]]]].
  split; [|split]; cbn [g_nodes g_preds g_edges g_wip].
  - rewrite (proj1 (connect_all_dkeys _ _ _ _ Hca)). exact Hk.
  - exact Hw.
  - eapply counts_ok_connect_all; eauto.
Qed.

Lemma remove_nodes_rest g l c g' :
  NoDup (g_nodes g) -> rest_ok g -> remove_nodes g l c = Ok g' -> rest_ok g'.
Proof.
  intros Hnd [Hk [Hw Hc]] H. destruct (remove_nodes_frame _ _ _ _ H) as [g1 [o [Hm ->]]].
  destruct (mark_removed_all _ _ _ _ Hm) as [ns1 [Pn ->]].
  assert (Hnd1 : NoDup (l ++ ns1)) by (eapply Permutation_NoDup; eauto).
  split; [|split; [|exact Hc]]; cbn.
  - intros n Hn. apply Hk. eapply Permutation_in; [symmetry; exact Pn|apply in_or_app; auto].
  - intros x Hx Hn. apply in_app_or in Hx. destruct Hx as [Hx|Hx].
    + apply (Hw x Hx). eapply Permutation_in; [symmetry; exact Pn|apply in_or_app; auto].
    + eapply NoDup_app_disj; eauto.
Qed.

Lemma counts_ok_tab pd es :
  counts_ok pd es <-> forall b, In b (dkeys pd) -> forall a, tab pd a b = ecnt (a, b) es.
Proof.
  split.
  - intros H b Hb a. apply dget_In_keys in Hb. destruct Hb as [pl E]. rewrite (tab_get _ _ _ _ E). apply (H b pl E).
  - intros H b pl E a. rewrite <- (H b); [symmetry; apply (tab_get _ _ _ _ E)|apply dget_In_keys; eauto].
Qed.

Lemma pop_rest (fwd : bool) g nd g' :
  NoDup (dkeys (g_preds g)) -> rest_ok g ->
  (if fwd then remove_connections_one else remove_previous_one) g nd = Ok g' -> rest_ok g'.
Proof.
  intros NP [Hk [Hw Hc]] H. destruct (pop_frame fwd g nd g' H NP) as (l & En & _ & Ew & P & _ & I & T).
  rewrite counts_ok_tab in Hc. split; [|split]; rewrite ?En.
  - intros n Hn. apply I. split; [|apply Hk, Hn]. intros ->. apply (Hw nd); [|exact Hn].
    eapply (remove_one_In Nat.eqb_eq); eauto.
  - intros x Hx. apply Hw. eapply (remove_one_incl Nat.eqb_eq); eauto.
  - apply counts_ok_tab. intros b Hb a. apply I in Hb. destruct Hb as [Hb Hkb].
    specialize (T a b Hb). rewrite (Hc b Hkb a), (ecnt_perm_app _ _ _ _ P) in T.
    (* the edges taken out are those from nd to l (forwards) or those into nd (backwards) *)
    destruct fwd; cbn [andb] in T.
    + rewrite (ecnt_map_mk pair) in T by (intros x k x' k' E; inversion E; auto). lia.
    + rewrite (ecnt_map_mk (fun x k => (k, x))) in T by (intros x k x' k' E; inversion E; auto).
      apply Nat.eqb_neq in Hb. rewrite Hb in T. lia.
Qed.

Lemma remove_nodes_connections_inv2 g l g' : inv2 g -> remove_nodes_connections g l = Ok g' -> inv2 g'.
Proof.
  apply (foldM_inv remove_connections_one inv2). intros s x s' [I R] H.
  split; [exact (pop_inv true _ _ _ I H)|exact (pop_rest true _ _ _ (proj1 (proj2 I)) R H)].
Qed.

Lemma remove_previous_connections_inv2 g l g' : inv2 g -> remove_previous_connections g l = Ok g' -> inv2 g'.
Proof.
  apply (foldM_inv remove_previous_one inv2). intros s x s' [I R] H.
  split; [exact (pop_inv false _ _ _ I H)|exact (pop_rest false _ _ _ (proj1 (proj2 I)) R H)].
Qed.

Lemma remove_nodes_inv2 g l c g' : inv2 g -> remove_nodes g l c = Ok g' -> inv2 g'.
Proof.
  intros [I R] H. split; [eapply remove_nodes_inv; eauto|exact (remove_nodes_rest _ _ _ _ (proj1 I) R H)].
Qed.

Lemma step_inv2 g o g' : inv2 g -> dom_ok g o = true -> step g o = Ok g' -> inv2 g'.
Proof.
  intros H2 Hd H. pose proof H2 as [I R]. pose proof (step_inv _ _ _ I H) as I'.
  destruct (order_op o) eqn:O; [destruct (order_only_step g o g' O H) as [s ->]; exact (conj I' R)|].
  destruct o; try discriminate O; cbn [step dom_ok] in H, Hd.
  - split; [exact I'|]. eapply add_nodes_rest; eauto.
  - split; [exact I'|]. eapply add_edges_rest; eauto.
  - eapply remove_nodes_inv2; eauto.
  - eapply remove_nodes_connections_inv2; eauto.
  - eapply remove_previous_connections_inv2; eauto.
  - exact (remove_successors_nodes_keeps inv2 remove_nodes_connections_inv2 remove_nodes_inv2
             remove_previous_connections_inv2 _ _ _ H2 H).
Qed.

(* a history checked call by call ([chk] is run_dom or run_build) keeps what every checked step keeps *)
Lemma run_guarded_inv (chk : graph -> list op -> bool) (ok : graph -> op -> bool) (P : graph -> Prop) :
  (forall g o r, chk g (o :: r) = ok g o && match step g o with Ok g' => chk g' r | Err _ => true end) ->
  (forall g o g', P g -> ok g o = true -> step g o = Ok g' -> P g') ->
  forall ops g g', P g -> chk g ops = true -> run g ops = Ok g' -> P g'.
Proof.
  intros Hchk Hstep. unfold run. induction ops as [|o ops IH]; cbn [foldM]; intros g g' Hp Hd H.
  - inversion H; subst. exact Hp.
  - apply bind_ok in H. destruct H as [g1 [H1 H]]. rewrite Hchk, H1 in Hd.
    apply andb_true_iff in Hd. destruct Hd as [Hd1 Hd2]. eapply IH; [|exact Hd2|exact H]. eapply Hstep; eauto.
Qed.

Lemma run_inv2 ops : forall g g', inv2 g -> run_dom g ops = true -> run g ops = Ok g' -> inv2 g'.
Proof. revert ops. apply (run_guarded_inv run_dom dom_ok inv2); [reflexivity|apply step_inv2]. Qed.
