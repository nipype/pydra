(* Proofs/SchedO.v — the asynchronous loop with empty (zero-job) nodes: a poll that returns nothing while
   nothing is pending and not everything is done has started a node with ZERO jobs (SchedK.poll_makes_progress); hence
   the ten-poll stall detector cannot fire when the graph has fewer than ten empty nodes, and (no failing job)
   the run ends Finished. *)
From Pydra Require Import Base.Prelude Base.SchedBase Model.Sched Spec.Sched Proofs.SchedA Proofs.SchedJ Proofs.SchedF Proofs.SchedK Proofs.SchedTermA.
Local Open Scope nat_scope.

Section ZeroAsync.
Variable V : Type.
Variable body : nat -> nat -> list (list (option V)) -> V.
Variable fails : job -> bool.
Variable vr : variant.
Hypothesis F14 : fix14 vr = true.
Variable g : graph.
Hypothesis WF : wf_graph g.
Variable kmax : option nat.
Hypothesis NF : forall j, fails j = false.
Hypothesis KP : forall k, kmax = Some k -> 1 <= k.

Notation world := (world V).
Notation lstate := (lstate V).
Notation LInv := (LInv V body fails vr g kmax).
Notation PInv2 := (PInv2 V).
Notation PrePoll := (PrePoll V fails g).

Notation newly_started_zero := (newly_started_zero V g).

(* zpend st: how many zero-job nodes are not yet started in st; nempty: how many zero-job nodes g has *)
Definition zpend (st : nstates V) : nat :=
  List.length (filter (fun nd => (njobs nd =? 0) && negb (started_flag (st (nid nd)))) g).
Definition nempty : nat := List.length (filter (fun nd => njobs nd =? 0) g).

Lemma zpend_le st : zpend st <= nempty.
Proof. apply filter_len_mono. intros nd _ H. apply andb_true_iff in H. tauto. Qed.
Lemma zpend_pred_mono st st' nd :
  flag_mono V st st' -> (njobs nd =? 0) && negb (started_flag (st' (nid nd))) = true ->
  (njobs nd =? 0) && negb (started_flag (st (nid nd))) = true.
Proof.
  intros M H. apply andb_true_iff in H. destruct H as [A B]. rewrite A. cbn.
  apply negb_true_iff in B. apply negb_true_iff.
  destruct (started_flag (st (nid nd))) eqn:E; [rewrite (M _ E) in B; discriminate|reflexivity].
Qed.
Lemma zpend_mono st st' : flag_mono V st st' -> zpend st' <= zpend st.
Proof. intros M. apply filter_len_mono. intros nd _. apply zpend_pred_mono, M. Qed.
Lemma zpend_strict st st' : flag_mono V st st' -> newly_started_zero st st' -> zpend st' < zpend st.
Proof.
  intros M [nd [A [Z [B C]]]]. apply (filter_len_strict _ _ g nd); [intros y _; apply zpend_pred_mono, M|exact A| |].
  - rewrite C. apply andb_false_r.
  - rewrite Z, B. reflexivity.
Qed.
(* every poll that leaves the condition true has started an empty node, so zpend falls; + 2: the last poll of the block
   raises whatever it returns, so one poll must be left over when the empty nodes run out *)
Lemma stall_loop_not_stalled (w : world) fut : forall n ss tasks,
  PrePoll w ss fut [] ->
  (is_nil tasks && any_not_done vr g w ss = true -> zpend (nst ss) + 2 <= S n) ->
  snd (stall_loop vr g kmax (S n) w ss tasks) = false.
Proof.
  induction n as [|n IH]; intros ss tasks P Z; cbn [stall_loop];
    (destruct (is_nil tasks && any_not_done vr g w ss && negb (raised ss)) eqn:C; [|reflexivity]);
    apply andb_true_iff in C; destruct C as [C _]; specialize (Z C); [lia|].
  destruct (poll vr g kmax w ss) as [ss1 t1] eqn:EP.
  pose proof (proj1 (poll_mono V fails vr F14 g WF kmax w ss ss1 t1 (pp_g _ _ _ _ _ _ _ P) (pp_w _ _ _ _ _ _ _ P) EP)) as FM.
  pose proof (PrePoll_progress V fails vr F14 g WF kmax KP NF w ss fut ss1 t1 P EP) as PP.
  apply IH; [apply (PrePoll_poll V fails vr F14 g WF kmax w ss fut [] ss1 t1 P EP)|].
  intros C1. apply andb_true_iff in C1. destruct C1 as [C1 C2]. apply is_nil_true in C1.
  destruct PP as [X|[X|X]]; [congruence|congruence|].
  pose proof (zpend_strict _ _ FM X). lia.
Qed.

Hypothesis EZ : nempty + 2 <= 11.     (* fewer than ten empty nodes: the stall detector allows ten empty polls *)

Lemma async_step_not_stalled o (ls : lstate) :
  LInv ls -> PInv2 ls -> forall ls', async_step body fails vr g kmax o ls <> Stop Stalled ls'.
Proof.
  intros I P ls'. pose proof (PInv2_PrePoll V body fails vr g kmax ls I P) as P0.
  destruct (async_step_case V body fails vr g kmax o ls) as [| | |ss1 tasks1 R C ES R1|]; try discriminate.
  exfalso. destruct (stall_part_stalled V vr g kmax ls _ _ ES) as [_ [NE ES1]]. rewrite NE in P0.
  assert (S1 : snd (stall_loop vr g kmax 11 (ls_w ls) (ls_ss ls) (ls_tasks ls)) = false); [|rewrite ES1 in S1; discriminate].
  apply (stall_loop_not_stalled _ _ 10 _ _ P0). intros _. pose proof (zpend_le (nst (ls_ss ls))). lia.
Qed.

Lemma run_loop_never_stalled fuel orc (ls : lstate) :
  LInv ls -> PInv2 ls -> o_status (run_loop body fails vr g kmax fuel orc ls) <> Stalled.
Proof.
  intros I P.
  apply (run_loop_ind V body fails vr g kmax (fun ls => LInv ls /\ PInv2 ls) (fun st _ => st <> Stalled)); [|discriminate|auto].
  clear ls I P. intros o ls [I P].
  pose proof (async_step_spec V body fails vr F14 g WF kmax o ls I) as S1.
  pose proof (async_step_prog2 V body fails vr F14 g WF kmax KP o ls I P) as S2.
  pose proof (async_step_not_stalled o ls I P) as S3.
  destruct (async_step body fails vr g kmax o ls) as [ls'|st ls']; [split; [exact S1|apply S2]|].
  intros E. subst st. apply (S3 ls'). reflexivity.
Qed.

(* fewer than ten empty nodes, no failing job: for every oracle the asynchronous loop ends by itself *)
Theorem async_terminates_bounded_empty orc fuel :
  List.length (all_jobs g) + 2 <= fuel -> o_status (run_async V body fails vr g kmax orc fuel) = Finished.
Proof.
  intros B. destruct (async_terminates_full V body fails vr F14 g WF kmax KP orc fuel B) as [S|S]; [exact S|].
  exfalso. revert S. unfold run_async. apply run_loop_never_stalled.
  - apply LInv_init; assumption.
  - apply (PInv2_init V fails vr F14 g WF kmax).
Qed.

End ZeroAsync.
