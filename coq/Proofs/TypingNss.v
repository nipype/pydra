(* Proofs/TypingNss.v — C20: which string <-> collection conversions coercion can perform.
   Main result: under a computable condition on the tables (true of the live ones), every accepted coercion
   is related to its input by [nss A] ("no string split"): apart from the tolerated class pairs A (none, for the
   live tables) no string is split into a collection and no collection is joined into a string. *)
From Pydra Require Import Base.Prelude Model.Typing Spec.Typing Proofs.Typing.
Local Open Scope string_scope.

Section ValInd.
Variable P : val -> Prop.
Hypothesis step : forall v, Forall P (children v) -> P v.

Fixpoint val_nested_ind (v : val) : P v :=
  let go := fix go (l : list val) : Forall P l :=
              match l with [] => Forall_nil P | a :: r => Forall_cons a (val_nested_ind a) (go r) end in
  step v
    match v return Forall P (children v) with
    | VList _ l | VTuple _ l | VSet _ _ l => go l
    | VDict _ kv =>
        proj2 (Forall_app P (map fst kv) (map snd kv))
          (conj ((fix gk (l : list (val * val)) : Forall P (map fst l) :=
                    match l with [] => Forall_nil P | (a, _) :: r => Forall_cons a (val_nested_ind a) (gk r) end) kv)
                ((fix gx (l : list (val * val)) : Forall P (map snd l) :=
                    match l with [] => Forall_nil P | (_, b) :: r => Forall_cons b (val_nested_ind b) (gx r) end) kv))
    | _ => Forall_nil P
    end.
End ValInd.

Section Rules.
Variable T : tables.
Variable A : cls -> cls -> bool.

Lemma nss_allowed v v' : A (class_of T v) (class_of T v') = true -> nss T A v v' = true.
Proof. intros H. destruct v'; cbn [nss]; rewrite H; reflexivity. Qed.

Lemma nss_scalar v v' : is_coll v' = false -> (is_coll v && is_strlike v') = false -> nss T A v v' = true.
Proof.
  intros Hc Hs. destruct v'; cbn in Hc; try discriminate; cbn [nss is_coll]; rewrite Hs; cbn; apply orb_true_r.
Qed.

Lemma nss_wrap v k x : nss T A v x = true -> nss T A v (VList k [x]) = true.
Proof. intros H. cbn [nss is_coll]. rewrite H. cbn. apply orb_true_r. Qed.

Definition has_source (v : val) (x' : val) : Prop := exists x, In x (children v) /\ nss T A x x' = true.

Lemma nss_coll v v' :
  is_coll v = true -> is_coll v' = true -> Forall (has_source v) (children v') -> nss T A v v' = true.
Proof.
  intros Hc Hc' HF.
  assert (forall x', In x' (children v') -> existsb (fun x => nss T A x x') (children v) = true) as Hb.
  { rewrite Forall_forall in HF. intros x' Hx'. apply existsb_exists, HF, Hx'. }
  destruct v' as [| | | | | | | |k l|k l|k fr l|k kv]; try discriminate Hc'; cbn [nss is_coll children] in *; rewrite Hc;
    (rewrite (proj2 (forallb_forall _ _)); [cbn; repeat (rewrite ?orb_true_r; cbn); reflexivity|]); try exact Hb.
  intros [k' x'] Hp.
  now rewrite (Hb k' (in_or_app _ _ _ (or_introl (in_map fst _ _ Hp)))), (Hb x' (in_or_app _ _ _ (or_intror (in_map snd _ _ Hp)))).
Qed.

Lemma nss_items o v k l : is_coll v = true -> Forall (has_source v) l -> nss T A v (seq_value o k l) = true.
Proof. intros Hc HF. apply nss_coll; [exact Hc|now destruct o|now destruct o]. Qed.

Lemma nss_refl : forall v, nss T A v v = true.
Proof.
  induction v as [v IH] using val_nested_ind.
  destruct (is_coll v) eqn:Hc; [|apply nss_scalar; [exact Hc|now rewrite Hc]].
  apply nss_coll; [exact Hc|exact Hc|]. rewrite Forall_forall in *. intros x Hx. exists x. auto.
Qed.
End Rules.

Definition strlike_shapes : list cls := [CStr; CBytes].
Definition scalar_bases : list cls :=
  [KAny; CNone; CBool; CInt; CFloat; CStr; CBytes; CPath; CFile FFile; CFile FText; CFile FDir].

(* the classes that values of the shapes bs can have: the builtins themselves and the registered classes of those shapes *)
Definition classes_of_shapes (T : tables) (bs : list cls) : list cls :=
  filter (fun kv => existsb (cls_eqb (shape_of_class T kv)) bs) (value_classes T).

Lemma class_in_shapes T v bs : In (base_class v) bs -> In (class_of T v) (classes_of_shapes T bs).
Proof. intros H. apply filter_In. split; [apply class_of_value|]. rewrite shape_class. apply In_cls, H. Qed.

Definition res_ok {A} (r : result A) : bool := match r with Ok _ => true | Err _ => false end.
(* check_type_coercible(a, b) does not raise *)
Definition ctc_ok (T : tables) (sac : bool) (a b : cls) : bool := res_ok (check_type_coercible T sac a b).

(* Whenever the tables let a value of str/bytes shape be coerced to a container class, or a value of container shape
   to str/bytes, the pair is one of A; a str/bytes-shaped value is an instance of str or bytes (so MultiInputObj
   wraps it) and never of a container class; neither the containers nor str/bytes are FileSets. *)
Definition tables_nss (A : cls -> cls -> bool) (T : tables) : bool :=
  forallb (fun sac =>
    forallb (fun s => forallb (fun o => implb (ctc_ok T sac s o) (A s o)) container_classes)
            (classes_of_shapes T strlike_shapes)
    && forallb (fun o => forallb (fun s => implb (ctc_ok T sac o s) (A o s)) strlike_shapes)
               (classes_of_shapes T container_classes))
    [false; true]
  && forallb (fun s => (is_subclass T s CStr || is_subclass T s CBytes)
                       && forallb (fun o => negb (is_subclass T s o)) container_classes)
             (classes_of_shapes T strlike_shapes)
  && forallb (fun c => negb (sub T c KFileSet)) (strlike_shapes ++ container_classes).

(* [crossing_tolerated] and [strlike_instances] read [TN : tables_nss A T = true] as a conjunction ([unfold tables_nss
   in H]), so at their [Qed] the kernel compares [tables_nss A T] with a boolean conjunction; this makes it unfold
   [tables_nss] first: left to its own order it unfolds [andb] and evaluates the sweeps as far as the class lists are
   known *)
Strategy expand [tables_nss].

(* the base classes of the annotation grammar: scalars only *)
Fixpoint scalar_based (t : ty) : bool :=
  match t with
  | TBase c => existsb (cls_eqb c) scalar_bases
  | TList a | TTupleVar a | TSet _ a | TMulti a => scalar_based a
  | TTuple ts | TUnion ts => forallb scalar_based ts
  | TDict k x => scalar_based k && scalar_based x
  end.

Lemma is_coll_shape v : is_coll v = true <-> In (base_class v) container_classes.
Proof. rewrite In_cls. destruct v as [| | | | | | |f| | |k fr|]; try destruct fr; reflexivity. Qed.

Lemma scalar_base_not_coll v : In (base_class v) scalar_bases -> is_coll v = false.
Proof. rewrite In_cls. destruct v as [| | | | | | |f| | |k fr|]; try reflexivity; try destruct fr; discriminate. Qed.

Lemma is_strlike_shape v : is_strlike v = true <-> In (base_class v) strlike_shapes.
Proof. rewrite In_cls. destruct v as [| | | | | | |f| | |k fr|]; try destruct fr; reflexivity. Qed.

Lemma coll_class T v : is_coll v = true -> In (class_of T v) (classes_of_shapes T container_classes).
Proof. intros H. apply class_in_shapes, is_coll_shape, H. Qed.

Lemma strlike_class T v : is_strlike v = true -> In (class_of T v) (classes_of_shapes T strlike_shapes).
Proof. intros H. apply class_in_shapes, is_strlike_shape, H. Qed.

Lemma iter_children v items : iter v = Ok items -> is_coll v = true -> incl items (children v).
Proof.
  destruct v; cbn; try discriminate; intros H _; inversion H; subst; try apply incl_refl.
  intros x Hx. apply in_or_app. now left.
Qed.

Lemma iter_kinds v items : iter v = Ok items -> is_strlike v = true \/ is_coll v = true.
Proof. destruct v; cbn; try discriminate; auto. Qed.

Section Nss.
Variable T : tables.
Variable A : cls -> cls -> bool.
Variable W : world.
Variable sac : bool.
Hypothesis WF : tables_wf T = true.
Hypothesis TN : tables_nss A T = true.

(* a conversion between a str / bytes(-like) value and a container class, either way, passes check_coercible for
   the tolerated pairs only *)
Lemma crossing_tolerated v c :
  (is_strlike v = true /\ In c container_classes) \/ (is_coll v = true /\ In c strlike_shapes) ->
  enter T sac c v = Ok false -> A (class_of T v) c = true.
Proof.
  intros Hvc E. unfold enter in E. destruct (is_instance T v c); [discriminate|].
  destruct (check_coercible T sac v c) as [u|] eqn:Ec; [clear E|discriminate].
  pose proof TN as H. unfold tables_nss in H. rewrite !andb_true_iff in H. destruct H as [[H1 _] H3].
  assert (In sac [false; true]) as Hsac by (destruct sac; cbn; auto).
  apply (forallb_In H1), andb_true_iff in Hsac. destruct Hsac as [Ha Hb].
  (* the target is not a FileSet, so check_coercible is check_type_coercible on the classes *)
  assert (ctc_ok T sac (class_of T v) c = true) as Hctc.
  { assert (In c (strlike_shapes ++ container_classes)) as Hc by (apply in_or_app; tauto).
    apply (forallb_In H3), negb_true_iff in Hc.
    unfold check_coercible in Ec. rewrite Hc, andb_false_r in Ec. cbn [andb] in Ec. unfold ctc_ok. now rewrite Ec. }
  destruct Hvc as [[Hv Hc]|[Hv Hc]].
  - pose proof (forallb_In (forallb_In Ha (strlike_class T v Hv)) Hc) as H. cbn beta in H.
    now rewrite Hctc in H.
  - pose proof (forallb_In (forallb_In Hb (coll_class T v Hv)) Hc) as H. cbn beta in H.
    now rewrite Hctc in H.
Qed.

Lemma strlike_instances v :
  is_strlike v = true -> is_vstr T v = true /\ forall o, In o container_classes -> is_instance T v o = false.
Proof.
  intros Hv. pose proof TN as H. unfold tables_nss in H. rewrite !andb_true_iff in H. destruct H as [[_ H2] _].
  apply (strlike_class T), (forallb_In H2), andb_true_iff in Hv. destruct Hv as [Hs1 Hs2].
  split; [exact Hs1|]. intros o Ho. apply negb_true_iff, (forallb_In Hs2 Ho).
Qed.

Lemma enter_strlike o v inst :
  In o container_classes -> is_strlike v = true -> enter T sac o v = Ok inst ->
  inst = false /\ A (class_of T v) o = true.
Proof.
  intros Ho Hs He. assert (inst = false) as ->.
  { destruct inst; [|reflexivity]. apply enter_true in He. now rewrite (proj2 (strlike_instances v Hs) o Ho) in He. }
  split; [reflexivity|exact (crossing_tolerated v o (or_introl (conj Hs Ho)) He)].
Qed.

Lemma map_res_sources (f : val -> result val) v items l :
  (forall x y, f x = Ok y -> nss T A x y = true) ->
  incl items (children v) -> map_res f items = Ok l -> Forall (has_source T A v) l.
Proof.
  intros Hf Hin H. apply (map_res_forall H). intros x y Hx Hxy.
  exists x. split; [apply Hin, Hx|apply Hf, Hxy].
Qed.

Lemma build_nss o v inst items l v' :
  In o seq_classes -> enter T sac o v = Ok inst -> iter v = Ok items ->
  (is_coll v = true -> Forall (has_source T A v) l) -> build o v inst (Ok l) = Ok v' ->
  nss T A v v' = true.
Proof.
  intros Ho He Hi HF Hb. destruct (build_shape T WF sac _ _ _ _ _ Ho He Hb) as [_ [-> _]].
  destruct (iter_kinds _ _ Hi) as [Hs|Hcoll].
  - destruct (enter_strlike o v inst (seq_classes_container o Ho) Hs He) as [-> HA].
    apply nss_allowed. now rewrite seq_value_class.
  - exact (nss_items T A o _ _ _ Hcoll (stored_forall _ o l (HF Hcoll))).
Qed.

Lemma coerce_seq_nss o f v v' :
  In o seq_classes ->
  (forall x y, f x = Ok y -> nss T A x y = true) ->
  coerce_seq T sac o f v = Ok v' -> nss T A v v' = true.
Proof.
  intros Ho Hf. unfold coerce_seq.
  destruct (enter T sac o v) as [inst|] eqn:E; [|discriminate].
  destruct (iter v) as [items|] eqn:Ei; [|discriminate]. intros H.
  destruct (map_res f items) as [l|] eqn:El; [|discriminate].
  eapply build_nss; try eassumption. intros Hcoll.
  exact (map_res_sources f v items l Hf (iter_children _ _ Ei Hcoll) El).
Qed.

Lemma coerce_basic_nss c v v' :
  existsb (cls_eqb c) scalar_bases = true -> coerce_basic T W sac c v = Ok v' -> nss T A v v' = true.
Proof.
  intros Hc. rewrite coerce_basic_enter. destruct (enter T sac c v) as [[|]|] eqn:Ec; [| |discriminate].
  - intros [= <-]. apply nss_refl.
  - intros H.
    pose proof (construct_class T _ _ _ _ H) as Hcls. apply construct_shape in H. destruct H as [Hb _].
    apply In_cls in Hc.
    destruct (is_coll v && is_strlike v') eqn:Ecs.
    + apply andb_true_iff in Ecs. destruct Ecs as [H1 H2].
      apply is_strlike_shape in H2. rewrite Hb in H2.
      apply nss_allowed. rewrite Hcls. exact (crossing_tolerated v c (or_intror (conj H1 H2)) Ec).
    + apply nss_scalar; [|exact Ecs]. apply scalar_base_not_coll. now rewrite Hb.
Qed.

Theorem coerce_nss :
  forall t, scalar_based t = true -> forall v v', coerce T W sac t v = Ok v' -> nss T A v v' = true.
Proof.
  induction t as [c|a IHa|ts IHts|a IHa|k x IHk IHx|fr a IHa|ts IHts|a IHa] using ty_nested_ind;
    intros U v v' H; cbn [coerce] in H; cbn [scalar_based] in U; try destruct fr;
    try (eapply coerce_seq_nss; [|apply IHa, U|exact H]; cbn; tauto).
  - eapply coerce_basic_nss; eassumption.
  - (* fixed-length tuple: a sequence of (pattern, item) pairs *)
    unfold coerce_tuple in H.
    destruct (enter T sac CTuple v) as [inst|] eqn:E; [|discriminate].
    destruct (iter v) as [items|] eqn:Ei; [|discriminate].
    destruct (Nat.eqb _ _); [|discriminate].
    destruct (zip_res (map (coerce T W sac) ts) items) as [l|] eqn:Hl; [|discriminate].
    rewrite zip_res_combine in Hl.
    eapply (build_nss CTuple); try eassumption; [cbn; tauto|]. intros Hcoll.
    apply (map_res_forall Hl). intros p y Hp Hy. rewrite (surjective_pairing p) in Hp.
    pose proof (in_combine_l _ _ _ _ Hp) as Hpt. exists (snd p). split.
    + exact (iter_children _ _ Ei Hcoll _ (in_combine_r _ _ _ _ Hp)).
    + rewrite forallb_forall in U. rewrite Forall_forall in IHts. exact (IHts _ Hpt (U _ Hpt) _ _ Hy).
  - apply andb_true_iff in U. destruct U as [Uk Ux].
    destruct (coerce_dict_shape T WF sac _ _ _ _ H) as [_ [g0 [kv [g [d [-> [Hd ->]]]]]]].
    apply nss_coll; [reflexivity|reflexivity|]. cbn [children].
    assert (Forall (fun p => has_source T A (VDict g0 kv) (fst p) /\ has_source T A (VDict g0 kv) (snd p)) d) as HF.
    { eapply dict_res_forall; [| |constructor|exact Hd].
      + intros a a' Ha Hc. exists a. split; [apply in_or_app; now left|exact (IHk Uk _ _ Hc)].
      + intros b b' Hb Hc. exists b. split; [apply in_or_app; now right|exact (IHx Ux _ _ Hc)]. }
    apply Forall_app. split; apply Forall_map; (eapply Forall_impl; [|exact HF]); intros p Hp; apply Hp.
  - apply first_ok_ok in H. destruct H as [a [Ha Hc]].
    rewrite forallb_forall in U. rewrite Forall_forall in IHts. eapply IHts; eauto.
  - destruct (coerce_multi_shape T _ _ _ H) as [[x [Hx ->]]|[Evs [items [l [Ei [Hl ->]]]]]].
    + apply nss_wrap. exact (IHa U _ _ Hx).
    + destruct (iter_kinds _ _ Ei) as [Hs|Hcoll].
      * (* a str/bytes(-like) value is an instance of str or bytes: it is wrapped, not iterated *)
        destruct (strlike_instances v Hs) as [Hin _]. congruence.
      * apply (nss_items T A CList _ None l Hcoll).
        exact (map_res_sources _ v items l (IHa U) (iter_children _ _ Ei Hcoll) Hl).
Qed.

End Nss.
