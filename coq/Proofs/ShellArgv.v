(* Proofs/ShellArgv.v — [argv_in_domain]: inside [c22_in_domain] the vector built by define + _command_args is the
   reference vector: the order theorem instantiated with what each field contributes ([contrib_ok]), an unset field
   contributing nothing on either side. *)
From Pydra Require Import Base.Prelude Base.Shlex Model.Shell Spec.Shell
  Proofs.ShellAssign Proofs.ShellOrderThm Proofs.ShellContrib Proofs.ListFacts.
Local Open Scope list_scope.

Lemma present_lookup vals nm : forall F, is_present (drop_unset F vals) nm = true ->
  lookup (drop_unset F vals) nm = lookup vals nm /\ lookup vals nm <> VNone.
Proof.
  induction F as [|g F IH]; [discriminate|]. unfold drop_unset in *. cbn [flat_map].
  destruct (is_unset g (lookup vals (f_name g))) eqn:Eu; cbn [app]; [exact IH|].
  unfold is_present. cbn [existsb fst lookup]. destruct (la_eqb (f_name g) nm) eqn:En.
  - intros _. apply la_eqb_eq in En. subst nm. split; [reflexivity|]. intros E. rewrite E in Eu. discriminate.
  - cbn [orb]. exact IH.
Qed.

Lemma present_drop vals nm F : is_present (drop_unset F vals) nm
  = existsb (fun g => negb (is_unset g (lookup vals (f_name g))) && la_eqb (f_name g) nm) F.
Proof.
  unfold drop_unset, is_present. induction F as [|g F IH]; [reflexivity|]. cbn [flat_map existsb]. rewrite existsb_app, IH.
  f_equal. destruct (is_unset g (lookup vals (f_name g))); [reflexivity|apply orb_false_r].
Qed.

Lemma absent_iff vals nm : forall F, is_present (drop_unset F vals) nm = false <->
  (forall g, In g F -> f_name g = nm -> is_unset g (lookup vals nm) = true).
Proof.
  intros F. rewrite present_drop, existsb_false_In. split; intros H g Hin.
  - intros <-. specialize (H g Hin). rewrite la_eqb_refl, andb_true_r in H. now apply negb_false_iff.
  - destruct (la_eqb (f_name g) nm) eqn:En; [|apply andb_false_r]. apply la_eqb_eq in En. subst nm. now rewrite (H g Hin eq_refl).
Qed.

Lemma drop_unset_sassign vals fs free :
  drop_unset (map to_field (sassign fs free)) vals = drop_unset (map to_field fs) vals.
Proof.
  unfold drop_unset. rewrite !flat_map_concat_map, !map_map. f_equal. now apply sassign_map.
Qed.

Lemma spec_contrib_indep f f' vals : sf_name f' = sf_name f -> sf_ty f' = sf_ty f -> sf_argstr f' = sf_argstr f ->
  sf_sep f' = sf_sep f -> spec_contrib f' vals = spec_contrib f vals.
Proof. destruct f, f'. cbn. intros -> -> -> ->. reflexivity. Qed.

Lemma spec_contrib_unset f vals : is_unset (to_field f) (lookup vals (sf_name f)) = true -> spec_contrib f vals = [].
Proof.
  unfold is_unset, spec_contrib. cbn [to_field f_ty].
  destruct (sf_argstr f); [reflexivity|]. destruct (lookup vals (sf_name f)) as [| | |[|a l]]; try discriminate; [reflexivity|].
  destruct (optional_type (sf_ty f)); try discriminate. reflexivity.
Qed.

Lemma ents_flat (g : sfield -> option (list la)) L :
  flat_map (fun o : option entry => match o with Some x => [x] | None => [] end)
           (map (fun f => match g f with Some x => Some (sf_pos f, x) | None => None end) L) = ents g L.
Proof. unfold ents. induction L as [|f0 L0 IH]; [reflexivity|]. cbn [map flat_map]. rewrite IH. destruct (g f0); reflexivity. Qed.

Section Kept.
Variables (F : list field) (vals : vals_t).

(* what a field contributes to the vector: nothing if _command_args dropped it as unset or if it has no argstr *)
Definition kept_contrib (f : sfield) : option (list la) :=
  if is_present (drop_unset F vals) (sf_name f)
  then match sf_argstr f with SANone => None | SA _ _ => Some (spec_contrib f vals) end
  else None.

Lemma entry_ok f : field_ok f vals = true ->
  (if is_present (drop_unset F vals) (sf_name f) then command_pos_args (to_field f) (drop_unset F vals) else Good None)
  = Good (match kept_contrib f with Some x => Some (sf_pos f, x) | None => None end).
Proof.
  intros Hok. unfold kept_contrib. destruct (is_present (drop_unset F vals) (sf_name f)) eqn:Ep; [|reflexivity].
  destruct (present_lookup vals (sf_name f) F Ep) as [Elk Hnn].
  destruct (sf_argstr f) as [|ws dots] eqn:Ea.
  - unfold command_pos_args, to_field. cbn. now rewrite Ea.
  - exact (contrib_ok f _ vals ws dots Ea Hok Elk Hnn).
Qed.

Lemma payload_kept f : In (to_field f) F -> payload kept_contrib f = spec_contrib f vals.
Proof.
  intros Hin. unfold payload, kept_contrib. destruct (is_present (drop_unset F vals) (sf_name f)) eqn:Ep.
  - destruct (sf_argstr f) eqn:Ea; [|reflexivity]. unfold spec_contrib. now rewrite Ea.
  - symmetry. apply spec_contrib_unset. exact (proj1 (absent_iff vals _ F) Ep (to_field f) Hin eq_refl).
Qed.
End Kept.

Theorem argv_in_domain : forall e fs vals app,
  c22_in_domain Functional e fs vals = true ->
  task_argv Functional e (map to_field fs) vals (AppList app) = Good (spec_argv e fs vals app).
Proof.
  intros e fs vals app H. unfold c22_in_domain in H.
  apply andb_true_iff in H as [H Hf]. apply andb_true_iff in H as [H Hord]. apply andb_true_iff in H as [_ Hdup].
  apply negb_true_iff in Hdup.
  unfold task_argv. rewrite (define_sassign fs Hdup). cbn [bind append_args_conv]. unfold command_args. rewrite drop_unset_sassign.
  set (F := map to_field fs). set (g := kept_contrib F vals).
  rewrite map_result_map, (map_result_good _ (fun f => match g f with Some x => Some (sf_pos f, x) | None => None end)).
  2: { (* field_ok does not read the position, so it carries over from fs to the assigned fields *)
       intros f Hin. apply entry_ok. apply (in_map (fun f => field_ok f vals)) in Hin.
       rewrite (sassign_map (fun f => field_ok f vals) (fun _ _ => eq_refl)) in Hin. apply in_map_iff in Hin as (f' & <- & Hin).
       rewrite forallb_forall in Hf. exact (Hf f' Hin). }
  cbn [bind]. rewrite ents_flat, (order_theorem g) by (assumption || (intros f p; reflexivity)).
  unfold spec_argv. rewrite <- app_assoc.
  enough (E : map (payload g) (spec_order fs) = map (fun f => spec_contrib f vals) (spec_order fs)) by now rewrite E.
  apply map_ext_in. intros f Hin. apply payload_kept, in_map, spec_order_In, Hin.
Qed.
