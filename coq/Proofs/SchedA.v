(* Proofs/SchedA.v — basic facts about the scheduler model (async and sequential loops), the per-node invariant,
   and what NodeExecution.update_status does to a node. *)
From Pydra Require Import Base.Prelude Base.SchedBase Model.Sched Spec.Sched Proofs.ListFacts.
From Coq Require Import Permutation.
Local Open Scope nat_scope.

Lemma job_eqb_eq a b : job_eqb a b = true <-> a = b.
Proof. exact (pair_eqb_ok Nat.eqb_eq Nat.eqb_eq a b). Qed.
Lemma job_eqb_refl a : job_eqb a a = true.
Proof. apply job_eqb_eq; reflexivity. Qed.
Lemma job_eqb_neq a b : job_eqb a b = false <-> a <> b.
Proof. exact (eqtest_neq job_eqb job_eqb_eq a b). Qed.
Lemma mem_job_In j l : mem_job j l = true <-> In j l.
Proof. exact (existsb_eqb_In job_eqb job_eqb_eq j l). Qed.
Lemma mem_nat_In x l : mem_nat x l = true <-> In x l.
Proof. exact (existsb_eqb_In Nat.eqb Nat.eqb_eq x l). Qed.
Lemma is_nil_true {A} (l : list A) : is_nil l = true <-> l = [].
Proof. destruct l; cbn; split; congruence. Qed.
Lemma is_nil_false {A} (l : list A) : is_nil l = false <-> l <> [].
Proof. destruct l; cbn; split; congruence. Qed.

Lemma filter_len_mono {A} (f f' : A -> bool) l :
  (forall x, In x l -> f x = true -> f' x = true) -> List.length (filter f l) <= List.length (filter f' l).
Proof.
  induction l as [|x l IH]; intros H; cbn; [lia|].
  assert (IH' := IH (fun y Hy => H y (or_intror Hy))).
  destruct (f x) eqn:E; [rewrite (H x (or_introl eq_refl) E); cbn; lia|destruct (f' x); cbn; lia].
Qed.
Lemma filter_len_strict {A} (f f' : A -> bool) l x :
  (forall y, In y l -> f y = true -> f' y = true) -> In x l -> f x = false -> f' x = true ->
  List.length (filter f l) < List.length (filter f' l).
Proof.
  induction l as [|y l IH]; intros H Hx Fx F'x; [destruct Hx|]. cbn.
  assert (M := filter_len_mono f f' l (fun z Hz => H z (or_intror Hz))).
  destruct Hx as [->|Hx].
  - rewrite Fx, F'x. cbn. lia.
  - assert (S := IH (fun z Hz => H z (or_intror Hz)) Hx Fx F'x).
    destruct (f y) eqn:E; [rewrite (H y (or_introl eq_refl) E); cbn; lia|destruct (f' y); cbn; lia].
Qed.

Lemma filter_len_le {A} (f : A -> bool) l : List.length (filter f l) <= List.length l.
Proof. induction l as [|x l IH]; cbn; [lia|]. destruct (f x); cbn; lia. Qed.

Lemma NoDup_filter {A} (f : A -> bool) l : NoDup l -> NoDup (filter f l).
Proof. apply List.NoDup_filter. Qed.

Lemma nil_of_no_mem {A} (l : list A) : (forall i, ~ In i l) -> l = [].
Proof. destruct l as [|x l]; [reflexivity|]. intros H. exfalso. apply (H x). left; reflexivity. Qed.

Lemma count_filter (f : nat -> bool) l i :
  count_occ Nat.eq_dec (filter f l) i = if f i then count_occ Nat.eq_dec l i else 0.
Proof.
  induction l as [|x l IH]; cbn; [destruct (f i); reflexivity|].
  destruct (f x) eqn:Fx; cbn; destruct (Nat.eq_dec x i) as [->|Ne]; try rewrite Fx; rewrite IH;
    destruct (f i); auto; congruence.
Qed.

(* the four sets after update_status hold every index as often as the four sets before: each queued or
   running index goes to exactly one of them, according to the one probe (ok / er / no) that holds of it *)
Lemma count_update (ok er no vis : nat -> bool) (q r su e : list nat) i :
  (ok i = true /\ er i = false /\ no i = false) \/ (ok i = false /\ er i = true /\ no i = false)
  \/ (ok i = false /\ er i = false /\ no i = true) ->
  count_occ Nat.eq_dec
    (filter (fun i => no i && negb (vis i)) q ++ filter no (r ++ filter (fun i => no i && vis i) q)
     ++ ((su ++ filter ok q) ++ filter ok (r ++ filter (fun i => no i && vis i) q))
     ++ ((e ++ filter er q) ++ filter er (r ++ filter (fun i => no i && vis i) q))) i
  = count_occ Nat.eq_dec (q ++ r ++ su ++ e) i.
Proof.
  intros H. rewrite !count_occ_app, !count_filter, !count_occ_app, !count_filter.
  destruct H as [[-> [-> ->]]|[[-> [-> ->]]|[-> [-> ->]]]]; destruct (vis i); cbn; lia.
Qed.

Lemma find_node_some g n nd : find_node g n = Some nd -> In nd g /\ nid nd = n.
Proof.
  induction g as [|x g IH]; cbn; [discriminate|].
  destruct (nid x =? n) eqn:E.
  - intros H; inversion H; subst. apply Nat.eqb_eq in E. auto.
  - intros H. destruct (IH H); auto.
Qed.

Lemma topo_b_split seen pre nd rest :
  topo_b seen (pre ++ nd :: rest) = true ->
  (forall p, In p (npreds nd) -> In p seen \/ In p (map nid pre))
  /\ ~ In (nid nd) seen /\ ~ In (nid nd) (map nid pre).
Proof.
  revert seen. induction pre as [|x pre IH]; intros seen; cbn.
  - rewrite !andb_true_iff, forallb_forall, negb_true_iff. intros [[H1 H2] _]. repeat split.
    + intros p Hp. left. apply mem_nat_In. auto.
    + intros H. apply mem_nat_In in H. congruence.
    + tauto.
  - rewrite !andb_true_iff. intros [[_ Hx] H3]. destruct (IH _ H3) as [A [B C]]. repeat split.
    + intros p Hp. destruct (A p Hp) as [[->|]|]; auto.
    + intros H. apply B. right; auto.
    + intros [H|H]; [apply B; left; auto|contradiction].
Qed.

Lemma topo_b_find seen g nd :
  topo_b seen g = true -> In nd g -> find_node g (nid nd) = Some nd.
Proof.
  revert seen. induction g as [|x g IH]; intros seen; cbn; [tauto|].
  rewrite !andb_true_iff. intros [[_ Hx] H3] [->|Hin].
  - rewrite Nat.eqb_refl. reflexivity.
  - destruct (nid x =? nid nd) eqn:E.
    + exfalso. apply Nat.eqb_eq in E.
      apply in_split in Hin. destruct Hin as [l1 [l2 ->]].
      destruct (topo_b_split _ _ _ _ H3) as [_ [B _]]. apply B. left; auto.
    + eapply IH; eauto.
Qed.

Section Inv.
Variable V : Type.
Variable fails : job -> bool.
Variable vr : variant.
Hypothesis F14 : fix14 vr = true.
Variable g : graph.

Notation world := (world V).
Notation nstate := (nstate V).

Definition wle (w w' : world) : Prop :=
  forall j v, lookup j (results w) = Some v -> lookup j (results w') = Some v.
Lemma wle_refl (w : world) : wle w w. Proof. intros j v H; exact H. Qed.
Lemma wle_trans (a b c : world) : wle a b -> wle b c -> wle a c.
Proof. intros H1 H2 j v H. auto. Qed.
Lemma lookup_app j (r : list (job * option V)) j' v :
  lookup j (r ++ [(j', v)]) =
  match lookup j r with Some x => Some x | None => if job_eqb j j' then Some v else None end.
Proof.
  induction r as [|[a b] r IH]; cbn.
  - destruct (job_eqb j j'); reflexivity.
  - destruct (job_eqb j a); [reflexivity|exact IH].
Qed.
Lemma wle_app (w : world) j v vis : wle w (mkW (results w ++ [(j, v)]) vis).
Proof. intros j0 v0 H. cbn. rewrite lookup_app, H. reflexivity. Qed.
Lemma wle_vis (w : world) vis : wle w (mkW (results w) vis).
Proof. intros j v H; exact H. Qed.

Lemma is_ok_mono (w w' : world) j : wle w w' -> is_ok w j = true -> is_ok w' j = true.
Proof.
  unfold is_ok, probe_job. intros H. destruct (lookup j (results w)) as [[x|]|] eqn:E; try discriminate.
  rewrite (H _ _ E). auto.
Qed.
Lemma is_err_mono (w w' : world) j : wle w w' -> is_err w j = true -> is_err w' j = true.
Proof.
  unfold is_err, probe_job. intros H. destruct (lookup j (results w)) as [[x|]|] eqn:E; try discriminate.
  rewrite (H _ _ E). auto.
Qed.
Lemma is_none_false_mono (w w' : world) j : wle w w' -> is_none w j = false -> is_none w' j = false.
Proof.
  unfold is_none, probe_job. intros H. destruct (lookup j (results w)) as [x|] eqn:E; [|discriminate].
  rewrite (H _ _ E). destruct x; reflexivity.
Qed.
Lemma is_none_anti (w w' : world) j : wle w w' -> is_none w' j = true -> is_none w j = true.
Proof. intros H N. destruct (is_none w j) eqn:E; [reflexivity|]. rewrite (is_none_false_mono w w' j H E) in N. discriminate. Qed.
Lemma probe_job_app (w : world) vis j v q :
  probe_job (mkW (results w ++ [(j, v)]) vis) q =
  match probe_job w q with
  | PNone => if job_eqb q j then match v with Some _ => POk | None => PErr end else PNone
  | p => p
  end.
Proof.
  unfold probe_job. cbn [results]. rewrite lookup_app. destruct (lookup q (results w)) as [[x|]|]; try reflexivity.
  destruct (job_eqb q j); [destruct v|]; reflexivity.
Qed.
Lemma is_none_new (w : world) vis j v : is_none (mkW (results w ++ [(j, v)]) vis) j = false.
Proof.
  unfold is_none. rewrite probe_job_app, job_eqb_refl. destruct (probe_job w j); [destruct v| |]; reflexivity.
Qed.
Lemma has_result_not_none (w : world) j : is_ok w j = true \/ is_err w j = true -> is_none w j = false.
Proof. unfold is_ok, is_err, is_none. destruct (probe_job w j); intros [H|H]; congruence. Qed.
Lemma probe_cases (w : world) j :
  (is_ok w j = true /\ is_err w j = false /\ is_none w j = false)
  \/ (is_ok w j = false /\ is_err w j = true /\ is_none w j = false)
  \/ (is_ok w j = false /\ is_err w j = false /\ is_none w j = true).
Proof. unfold is_ok, is_err, is_none. destruct (probe_job w j); auto. Qed.

Definition upstream_ok (w : world) (n : nat) : Prop :=
  forall q, In q (upstream_jobs g n) -> is_ok w q = true.
Lemma upstream_ok_mono (w w' : world) n : wle w w' -> upstream_ok w n -> upstream_ok w' n.
Proof. intros H U q Hq. eapply is_ok_mono; eauto. Qed.

Definition members (s : nstate) : list nat := queued s ++ running s ++ successful s ++ errored s.

Definition inputs_from (w : world) (nd : node) : list (list (option V)) :=
  map (fun p => map (fun i => value_of w (p, i)) (seq 0 (njobs_of g p))) (npreds nd).

Record NInv (w : world) (n : nat) (s : nstate) : Prop := {
  ni_succ : forall i, In i (successful s) -> is_ok w (n, i) = true;
  ni_err : forall i, In i (errored s) -> is_err w (n, i) = true;
  ni_blocked : blocked s = [];
  ni_noflag : started_flag s = false -> members s = [] /\ unrunnable s = false;
  ni_unr : unrunnable s = true -> members s = [];
  ni_part : started_flag s = true -> unrunnable s = false ->
            forall i, i < njobs_of g n -> In i (members s);
  ni_range : forall i, In i (members s) -> i < njobs_of g n;
  ni_upstream : started_flag s = true -> unrunnable s = false -> upstream_ok w n;
  ni_inputs : started_flag s = true -> unrunnable s = false ->
              forall nd, find_node g n = Some nd -> ninputs s = inputs_from w nd;
  ni_nodup : NoDup (members s);
  ni_taint_unr : unrunnable s = true -> tainted_b g fails n = true;
  ni_taint_run : started_flag s = true -> unrunnable s = false -> tainted_b g fails n = false
}.

Lemma value_of_mono (w w' : world) j : wle w w' -> is_ok w j = true -> value_of w' j = value_of w j.
Proof.
  unfold is_ok, probe_job, value_of. intros H. destruct (lookup j (results w)) as [[x|]|] eqn:E; try discriminate.
  rewrite (H _ _ E). auto.
Qed.

Lemma upstream_jobs_in n nd p i :
  find_node g n = Some nd -> In p (npreds nd) -> i < njobs_of g p -> In (p, i) (upstream_jobs g n).
Proof.
  intros F Hp Hi. unfold upstream_jobs. rewrite F. apply in_flat_map. exists p. split; [exact Hp|].
  unfold node_jobs. apply in_map_iff. exists i. split; [reflexivity|]. apply in_seq. lia.
Qed.

Lemma inputs_from_mono (w w' : world) n nd :
  wle w w' -> find_node g n = Some nd -> upstream_ok w n -> inputs_from w' nd = inputs_from w nd.
Proof.
  intros H F U. unfold inputs_from. apply map_ext_in. intros p Hp. apply map_ext_in. intros i Hi.
  apply in_seq in Hi. apply value_of_mono; [exact H|]. apply U. eapply upstream_jobs_in; eauto. lia.
Qed.

Lemma NInv_mono (w w' : world) n s : wle w w' -> NInv w n s -> NInv w' n s.
Proof.
  intros H [Isucc Ierr Iblk Inoflag Iunr Ipart Irange Iup Iin Ind Itu Itr]. constructor; auto.
  - intros i Hi. eapply is_ok_mono; eauto.
  - intros i Hi. eapply is_err_mono; eauto.
  - intros Fl U. eapply upstream_ok_mono; eauto.
  - intros Fl U nd Fn. rewrite (Iin Fl U nd Fn). symmetry. eapply inputs_from_mono; eauto.
Qed.

Lemma NInv_ns0 (w : world) n : NInv w n (ns0 V).
Proof.
  constructor; cbn; try tauto; try discriminate; auto.
  constructor.
Qed.

Lemma members_nil (s : nstate) :
  members s = [] -> queued s = [] /\ running s = [] /\ successful s = [] /\ errored s = [].
Proof.
  unfold members. intros H.
  apply app_eq_nil in H. destruct H as [Hq H]. apply app_eq_nil in H. destruct H as [Hr H].
  apply app_eq_nil in H. tauto.
Qed.

Lemma queued_started (w : world) n (s : nstate) i :
  NInv w n s -> In i (queued s) -> started_flag s = true /\ unrunnable s = false.
Proof.
  intros I Hi. split.
  - destruct (started_flag s) eqn:E; [reflexivity|]. destruct (ni_noflag _ _ _ I E) as [M _].
    destruct (members_nil s M) as [Hq _]. rewrite Hq in Hi. destruct Hi.
  - destruct (unrunnable s) eqn:E; [|reflexivity]. pose proof (ni_unr _ _ _ I E) as M.
    destruct (members_nil s M) as [Hq _]. rewrite Hq in Hi. destruct Hi.
Qed.

(* update_status would change nothing: queued jobs have no result and no lock file, running jobs no result *)
Definition Updated (w : world) (n : nat) (s : nstate) : Prop :=
  (forall i, In i (queued s) -> is_none w (n, i) = true /\ mem_job (n, i) (visible w) = false)
  /\ (forall i, In i (running s) -> is_none w (n, i) = true).

Lemma flag_is_started (s : nstate) : started_flag s = true -> is_started s = true.
Proof. unfold is_started. intros ->. apply orb_true_r. Qed.

Lemma NInv_started (w : world) n (s : nstate) : NInv w n s -> is_started s = started_flag s.
Proof.
  intros I. destruct (started_flag s) eqn:E; [apply flag_is_started, E|].
  destruct (ni_noflag _ _ _ I E) as [M U]. destruct (members_nil s M) as [Hq [_ [Hs He]]].
  unfold is_started. rewrite Hq, Hs, He, U, E. reflexivity.
Qed.

Lemma NInv_done (w : world) n (s : nstate) :
  NInv w n s -> done_ns s = true <-> started_flag s = true /\ queued s = [] /\ running s = [].
Proof.
  intros I. unfold done_ns. rewrite (NInv_started w n s I), (ni_blocked _ _ _ I), !andb_true_iff, !is_nil_true. tauto.
Qed.

Lemma filter_split3 (w : world) n (l : list nat) i :
  In i l ->
  In i (filter (fun i => is_ok w (n, i)) l) \/ In i (filter (fun i => is_err w (n, i)) l)
  \/ In i (filter (fun i => is_none w (n, i)) l).
Proof.
  intros H. destruct (probe_cases w (n, i)) as [[A _]|[[_ [A _]]|[_ [_ A]]]].
  - left. apply filter_In; auto.
  - right; left. apply filter_In; auto.
  - right; right. apply filter_In; auto.
Qed.

Lemma update_ns_members (w : world) n (s : nstate) : Permutation (members (fst (update_ns vr w n s))) (members s).
Proof.
  unfold update_ns. destruct (negb (is_started s)); [reflexivity|]. rewrite F14.
  apply (Permutation_count_occ Nat.eq_dec). intros i.
  exact (count_update (fun i => is_ok w (n, i)) (fun i => is_err w (n, i)) (fun i => is_none w (n, i))
           (fun i => mem_job (n, i) (visible w)) (queued s) (running s) (successful s) (errored s) i
           (probe_cases w (n, i))).
Qed.

Lemma update_ns_flag (w : world) n (s : nstate) : started_flag (fst (update_ns vr w n s)) = started_flag s.
Proof. unfold update_ns. destruct (negb (is_started s)); [reflexivity|]. rewrite F14. reflexivity. Qed.
Lemma update_ns_unr (w : world) n (s : nstate) : unrunnable (fst (update_ns vr w n s)) = unrunnable s.
Proof. unfold update_ns. destruct (negb (is_started s)); [reflexivity|]. rewrite F14. reflexivity. Qed.

Lemma update_ns_spec (w : world) n (s s' : nstate) r :
  NInv w n s -> update_ns vr w n s = (s', r) -> r = false /\ NInv w n s' /\ Updated w n s'.
Proof.
  intros I E. pose proof (update_ns_members w n s) as P.
  pose proof (update_ns_flag w n s) as Fl. pose proof (update_ns_unr w n s) as Un.
  rewrite E in P, Fl, Un. cbn [fst] in P, Fl, Un. unfold update_ns in E. destruct (negb (is_started s)) eqn:St.
  - (* not started: nothing is queued or running *)
    injection E as <- <-. split; [reflexivity|split; [exact I|]]. apply negb_true_iff in St.
    rewrite (NInv_started w n s I) in St. destruct (members_nil s (proj1 (ni_noflag _ _ _ I St))) as [Hq [Hr _]].
    split; intros i Hi; [rewrite Hq in Hi|rewrite Hr in Hi]; destruct Hi.
  - rewrite F14 in E. injection E as E <-. split; [reflexivity|].
    assert (Hnil : members s = [] -> members s' = []).
    { intros M. rewrite M in P. apply Permutation_nil. symmetry. exact P. }
    destruct I as [Isucc Ierr Iblk Inoflag Iunr Ipart Irange Iup Iin Ind Itu Itr]. split.
    + constructor; rewrite ?Fl, ?Un.
      * rewrite <- E. cbn. intros i. rewrite !in_app_iff, !filter_In. intros [[H|[_ H]]|[_ H]]; auto.
      * rewrite <- E. cbn. intros i. rewrite !in_app_iff, !filter_In. intros [[H|[_ H]]|[_ H]]; auto.
      * rewrite <- E. exact Iblk.
      * intros F. destruct (Inoflag F) as [M U]. auto.
      * intros U. apply Hnil, Iunr, U.
      * intros F U i Hi. apply (Permutation_in _ (Permutation_sym P)), (Ipart F U i Hi).
      * intros i Hi. apply Irange, (Permutation_in _ P), Hi.
      * exact Iup.
      * rewrite <- E. exact Iin.
      * apply (Permutation_NoDup (Permutation_sym P)), Ind.
      * exact Itu.
      * exact Itr.
    + rewrite <- E. split; cbn; intros i Hi; apply filter_In in Hi; destruct Hi as [_ Hi]; [|exact Hi].
      apply andb_true_iff in Hi. destruct Hi as [A B]. apply negb_true_iff in B. auto.
Qed.

Lemma update_ns_idem (w : world) n (s : nstate) : Updated w n s -> update_ns vr w n s = (s, false).
Proof.
  intros [Fq Fr]. unfold update_ns. destruct (negb (is_started s)); [reflexivity|]. rewrite F14.
  assert (N : forall l, (forall i, In i l -> is_none w (n, i) = true) ->
              filter (fun i => is_ok w (n, i)) l = [] /\ filter (fun i => is_err w (n, i)) l = []
              /\ filter (fun i => is_none w (n, i)) l = l).
  { intros l H. repeat split; [apply filter_nil|apply filter_nil|apply filter_all]; intros i Hi; specialize (H i Hi);
      destruct (probe_cases w (n, i)) as [[_ [_ C]]|[[_ [_ C]]|[A [B _]]]]; congruence. }
  destruct (N (queued s) (fun i Hi => proj1 (Fq i Hi))) as [-> [-> _]]. destruct (N (running s) Fr) as [Ro [Re Rn]].
  rewrite (filter_nil (fun i => is_none w (n, i) && mem_job (n, i) (visible w)) (queued s))
    by (intros i Hi; destruct (Fq i Hi) as [_ ->]; apply andb_false_r).
  rewrite (filter_all (fun i => is_none w (n, i) && negb (mem_job (n, i) (visible w))) (queued s))
    by (intros i Hi; destruct (Fq i Hi) as [-> ->]; reflexivity).
  rewrite !app_nil_r, Ro, Re, Rn, !app_nil_r. destruct s; reflexivity.
Qed.

End Inv.

Arguments ni_succ {V fails g w n s}.
Arguments ni_err {V fails g w n s}.
Arguments ni_blocked {V fails g w n s}.
Arguments ni_noflag {V fails g w n s}.
Arguments ni_unr {V fails g w n s}.
Arguments ni_part {V fails g w n s}.
Arguments ni_range {V fails g w n s}.
Arguments ni_upstream {V fails g w n s}.
Arguments ni_inputs {V fails g w n s}.
Arguments ni_taint_unr {V fails g w n s}.
Arguments ni_taint_run {V fails g w n s}.
