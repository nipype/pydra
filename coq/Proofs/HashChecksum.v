(* Proofs/HashChecksum.v — the Merkle argument carried through Task._compute_hashes + _checksum: equal checksums
   of two tasks whose field values lie in inj_dom mean the same task type and, field by field (matched by name),
   equal values up to set/dict order or an explicit collision of H between two byte strings hashed on the way —
   or a collision inside the outer hash of the sorted (name, hex digest) items. *)
From Coq Require Import Sorting.Permutation.
From Pydra Require Import Base.Prelude Model.Hash Spec.Hash Proofs.HashCtx Proofs.HashInjStr Proofs.HashInj
     Proofs.HashTask Proofs.HashCache Proofs.HashDom.
Local Open Scope list_scope.
Local Open Scope string_scope.

Lemma hexval_hexdigit : forall a, a < 16 -> hexval (hexdigit a) = a.
Proof. intros a Ha. do 16 (destruct a as [|a]; [reflexivity|]). lia. Qed.

Lemma hx_hex : forall s, hx (hex s) = s.
Proof.
  induction s as [|c s IH]; [reflexivity|]. pose proof (nat_ascii_bounded c) as Bc. cbn [hex hx].
  rewrite IH, !hexval_hexdigit by (try apply Nat.div_lt_upper_bound; try apply Nat.mod_upper_bound; lia).
  rewrite <- Nat.div_mod by lia. now rewrite ascii_nat_embedding.
Qed.

Lemma hex_inj : forall a b, hex a = hex b -> a = b.
Proof. intros a b E. rewrite <- (hx_hex a), <- (hx_hex b). now rewrite E. Qed.

Lemma hex_len : forall s, String.length (hex s) = 2 * String.length s.
Proof. induction s as [|c s IH]; cbn; [reflexivity|]. rewrite IH. lia. Qed.

Definition item_pair (v : pyval) : string * string :=
  match v with VTuple _ [VStr k; VStr h] => (k, h) | _ => (EmptyString, EmptyString) end.
Definition is_item (v : pyval) : Prop := exists n k h, v = VTuple (S n) [VStr k; VStr h].

Lemma items_val_item : forall (fh : list (string * string)) n t, In t (items_val (S n) fh) -> is_item t.
Proof.
  induction fh as [|[k h] fh IH]; intros n t Hin; cbn in Hin; [contradiction|].
  destruct Hin as [<-|Hin]; [exists n, k, h; reflexivity|exact (IH (S n) t Hin)].
Qed.

Lemma item_pair_items_val : forall (fh : list (string * string)) n, map item_pair (items_val n fh) = fh.
Proof. induction fh as [|[k h] fh IH]; intros n; cbn; [reflexivity|]. now rewrite IH. Qed.

Lemma items_val_ids : forall (fh : list (string * string)) n,
    map node_id (items_val n fh) = map Some (seq n (List.length fh)).
Proof. induction fh as [|[k h] fh IH]; intros n; cbn; [reflexivity|]. now rewrite IH. Qed.

Definition env_of (nodes : list pyval) (i : nat) : option pyval :=
  List.find (fun v => match node_id v with Some j => Nat.eqb i j | None => false end) nodes.

Lemma env_of_unique : forall nodes v i,
    NoDup (map node_id nodes) -> In v nodes -> node_id v = Some i -> env_of nodes i = Some v.
Proof.
  induction nodes as [|x nodes IH]; intros v i Hnd Hin Hid; [contradiction|].
  cbn. inversion Hnd as [|? ? Hnin Hnd']; subst.
  destruct Hin as [->|Hin].
  - rewrite Hid, Nat.eqb_refl. reflexivity.
  - destruct (node_id x) as [j|] eqn:Ex; [|now apply IH].
    destruct (Nat.eqb_spec i j) as [->|Hne]; [|now apply IH].
    exfalso. apply Hnin. rewrite <- Hid. now apply in_map.
Qed.

Section Outer.
  Variable H : string -> string.

  Lemma dig_S : forall f v, dig H (S f) v tt =
      match repr (dig H f) v tt with Err e => Err e | Ok (s, _) => Ok (D H s, tt) end.
  Proof. reflexivity. Qed.

  Lemma dig_item_ok : forall t, is_item t -> exists d, dig H 2 t tt = Ok (d, tt).
  Proof. intros t (n & k & h & ->). eexists. reflexivity. Qed.

  Lemma dig_items_ok : forall items, (forall t, In t items -> is_item t) ->
      exists d, dig H 3 (VList 0 items) tt = Ok (d, tt).
  Proof.
    intros items Hall.
    assert (E : exists s, seq_contents (dig H 2) items tt = Ok (s, tt)).
    { induction items as [|t items IH]; [eexists; reflexivity|].
      destruct (dig_item_ok t (Hall t (or_introl eq_refl))) as [d Ed].
      destruct IH as [s Es]; [intros x Hx; apply Hall; now right|].
      cbn [seq_contents]. rewrite Ed, Es. eexists; reflexivity. }
    destruct E as [s Es]. rewrite dig_S. unfold repr, repr_flat. cbn [atom_bytes]. rewrite Es. eexists; reflexivity.
  Qed.

  Lemma outer_acyclic : forall items,
      (forall t, In t items -> is_item t) -> NoDup (map node_id items) ->
      hashable_acyclic H (env_of (VList 0 items :: items)) (VList 0 items).
  Proof.
    intros items Hall Hnd. split.
    - constructor; [discriminate| |].
      + intros i E. inversion E; subst. split; [reflexivity|intros []].
      + cbn [node_id subs]. intros t Ht. destruct (Hall t Ht) as (n & k & h & ->).
        apply (wf_flat _ _ _ (S n)); [reflexivity| |intros [E|[]]; discriminate E|discriminate|repeat constructor].
        change (env_of (VList 0 items :: items) (S n)) with (env_of items (S n)).
        now apply (env_of_unique items).
    - (* one item is enough for S (vdepth (VList 0 items)) >= 3, the fuel of dig_items_ok *)
      destruct items as [|t items'] eqn:Ei; [eexists; reflexivity|]. rewrite <- Ei in *.
      destruct (dig_items_ok items Hall) as [d Ed]. exists d. apply digest_dig. apply (dig_mono H 3); [|exact Ed].
      subst items. destruct (Hall t (or_introl eq_refl)) as (n & k & h & ->). cbn [vdepth fold_right]. lia.
  Qed.
End Outer.

Lemma item_veq : forall g t1 t2, is_item t1 -> is_item t2 -> veqb g t1 t2 = true -> item_pair t1 = item_pair t2.
Proof.
  intros [|[|g]] t1 t2 (n1 & k1 & h1 & ->) (n2 & k2 & h2 & ->) E; cbn in E; try discriminate E.
  apply andb_true_iff in E. destruct E as [E1 E2]. apply andb_true_iff in E2. destruct E2 as [E2 _].
  apply String.eqb_eq in E1, E2. cbn. now subst.
Qed.

Lemma items_veq : forall g l1 l2, (forall t, In t l1 -> is_item t) -> (forall t, In t l2 -> is_item t) ->
    list_eqb (veqb g) l1 l2 = true -> map item_pair l1 = map item_pair l2.
Proof.
  induction l1 as [|t1 l1 IH]; intros [|t2 l2] A1 A2 E; cbn in E; try discriminate; [reflexivity|].
  apply andb_true_iff in E. destruct E as [E1 E2]. cbn [map]. f_equal.
  - apply (item_veq g); auto; [apply A1|apply A2]; now left.
  - apply IH; auto; intros t Ht; [apply A1|apply A2]; now right.
Qed.

Lemma outer_inj_dom : forall items, (forall t, In t items -> is_item t) -> inj_dom (VList 0 items).
Proof.
  intros items Hall. constructor; [exact Logic.I|]. cbn [subs]. intros t Ht.
  destruct (Hall t Ht) as (n & k & h & ->). constructor; [exact Logic.I|]. cbn [subs].
  intros x [<-|[<-|[]]]; (constructor; [exact Logic.I|intros y []]).
Qed.

Section Checksum.
  Variable H : string -> string.

  Definition field_ok (env : nat -> option pyval) (kv : string * pyval) : Prop :=
    inj_dom (snd kv) /\ hashable_acyclic H env (snd kv).

  (* every field of the first task has a field of the same name in the second whose value is the same value
     (sets as sets, dicts as maps) or exhibits a collision of H between two byte strings hashed for them *)
  Definition fields_match (f1 f2 : list (string * pyval)) : Prop :=
    forall a, In a f1 -> exists b, In b f2 /\ fst a = fst b /\
      (veq (snd a) (snd b) \/ collision H (S (vdepth (snd a))) (snd a) (S (vdepth (snd b))) (snd b)).

  (* the list of (name, hex digest) tuples that _compute_hashes hashes last *)
  Definition outer_value (fields : list (string * pyval)) : res pyval :=
    match field_hashes H fields [] with
    | Err e => Err e
    | Ok fh => match sorted_res vlt (items_val 1 fh) with Err e => Err e | Ok items => Ok (VList 0 items) end
    end.

  Lemma compute_hash_outer : forall fields,
      compute_hash H fields =
      match outer_value fields with
      | Err e => Err e
      | Ok l => match hash_object H l [] with Ok (d, _) => Ok (hex d) | Err e => Err e end
      end.
  Proof.
    intros fields. unfold compute_hash, outer_value. destruct (field_hashes H fields []) as [fh|]; [|reflexivity].
    destruct (sorted_res vlt (items_val 1 fh)); reflexivity.
  Qed.

  Lemma match_from_perm : forall env1 env2 f1 f2,
      (forall kv, In kv f1 -> field_ok env1 kv) -> (forall kv, In kv f2 -> field_ok env2 kv) ->
      Permutation (fh_of H f1) (fh_of H f2) -> fields_match f1 f2.
  Proof.
    intros env1 env2 f1 f2 O1 O2 P a Ha.
    assert (Hfa : In (fst a, hex (dg H (snd a))) (fh_of H f2)) by (rewrite <- P; unfold fh_of; apply in_map_iff; eauto).
    unfold fh_of in Hfa. apply in_map_iff in Hfa. destruct Hfa as (b & Eb & Hb).
    inversion Eb as [[En Eh]]. exists b. split; [exact Hb|]. split; [now rewrite En|].
    apply hex_inj in Eh.
    destruct (O1 a Ha) as [Ia [_ [da Da]]]. destruct (O2 b Hb) as [Ib [_ [db Db]]].
    unfold dg in Eh. rewrite Da, Db in Eh. subst db.
    exact (ser_injective H (snd a) (snd b) da Ia Ib Da Db).
  Qed.

  Lemma checksum_outer : forall env ty fields items,
      (forall kv, In kv fields -> field_ok env kv) ->
      sorted_res vlt (items_val 1 (fh_of H fields)) = Ok items ->
      Permutation (items_val 1 (fh_of H fields)) items /\ (forall t, In t items -> is_item t) /\
      outer_value fields = Ok (VList 0 items) /\
      exists d, digest H (VList 0 items) = Ok d /\ checksum H ty fields = Ok (ty ++ "-" ++ hex d).
  Proof.
    intros env ty fields items O Es.
    assert (F : field_hashes H fields [] = Ok (fh_of H fields)).
    { apply (field_hashes_alone H env). intros kv Hkv. now destruct (O kv Hkv). }
    pose proof (sorted_res_perm _ _ _ Es) as P.
    assert (A : forall t, In t items -> is_item t).
    { intros t Ht. rewrite <- P in Ht. exact (items_val_item _ 0 _ Ht). }
    assert (N : NoDup (map node_id items))
      by (rewrite <- P, items_val_ids; apply FinFun.Injective_map_NoDup; [congruence|apply seq_NoDup]).
    destruct (hash_object_alone H _ _ [] (outer_acyclic H items A N) (Inv_nil H _)) as (d & m & Dg & E & _).
    unfold outer_value, checksum, compute_hash. rewrite F, Es, E. eauto 6.
  Qed.

  Lemma checksum_sorted : forall env ty fields c,
      (forall kv, In kv fields -> field_ok env kv) -> checksum H ty fields = Ok c ->
      exists items, sorted_res vlt (items_val 1 (fh_of H fields)) = Ok items.
  Proof.
    intros env ty fields c O C. unfold checksum, compute_hash in C.
    rewrite (field_hashes_alone H env fields) in C by (intros kv Hkv; now destruct (O kv Hkv)).
    destruct (sorted_res vlt (items_val 1 (fh_of H fields))); [eauto|discriminate].
  Qed.

  Lemma checksum_defined : forall env ty fields items,
      (forall kv, In kv fields -> field_ok env kv) ->
      sorted_res vlt (items_val 1 (fh_of H fields)) = Ok items -> exists c, checksum H ty fields = Ok c.
  Proof.
    intros env ty fields items O Es. destruct (checksum_outer env ty fields items O Es) as (_ & _ & _ & d & _ & E). eauto.
  Qed.

  Theorem checksum_injective : forall env1 env2 ty1 ty2 f1 f2 c,
      (forall kv, In kv f1 -> field_ok env1 kv) -> (forall kv, In kv f2 -> field_ok env2 kv) ->
      checksum H ty1 f1 = Ok c -> checksum H ty2 f2 = Ok c ->
      ty1 = ty2 /\
      ((fields_match f1 f2 /\ fields_match f2 f1) \/
       exists l1 l2, outer_value f1 = Ok l1 /\ outer_value f2 = Ok l2 /\
                     collision H (S (vdepth l1)) l1 (S (vdepth l2)) l2).
  Proof.
    intros env1 env2 ty1 ty2 f1 f2 c O1 O2 C1 C2.
    destruct (checksum_sorted env1 ty1 f1 c O1 C1) as [items1 S1].
    destruct (checksum_sorted env2 ty2 f2 c O2 C2) as [items2 S2].
    destruct (checksum_outer env1 ty1 f1 items1 O1 S1) as (P1 & A1 & V1 & d1 & D1 & E1).
    destruct (checksum_outer env2 ty2 f2 items2 O2 S2) as (P2 & A2 & V2 & d2 & D2 & E2).
    rewrite C1 in E1. rewrite C2 in E2. inversion E1 as [Ec1]. inversion E2 as [Ec2]. rewrite Ec2 in Ec1.
    pose proof (digest_len H _ _ D1) as L1. pose proof (digest_len H _ _ D2) as L2.
    apply sapp_suffix_inj in Ec1; [|cbn; rewrite !hex_len, L1, L2; reflexivity].
    destruct Ec1 as [Ety Eh]. split; [now symmetry|]. injection Eh as Eh. apply hex_inj in Eh. subst d2.
    destruct (ser_injective H _ _ d1 (outer_inj_dom items1 A1) (outer_inj_dom items2 A2) D1 D2) as [Hv|Hc].
    - left. unfold veq in Hv. cbn [veqb] in Hv. apply (items_veq _ _ _ A1 A2) in Hv.
      assert (Pf : Permutation (fh_of H f1) (fh_of H f2)).
      { rewrite <- (item_pair_items_val (fh_of H f1) 1), <- (item_pair_items_val (fh_of H f2) 1), P1, P2, Hv. reflexivity. }
      split; eapply match_from_perm; eauto. now symmetry.
    - right. exists (VList 0 items1), (VList 0 items2). auto.
  Qed.
End Checksum.

Section HistoryCorollary.
  Variable H : string -> string.

  (* the aspects that enter the checksum agree: same field names with equal values (sets as sets, dicts as maps) *)
  Definition fields_eq (f1 f2 : list (string * pyval)) : Prop :=
    forall a, In a f1 -> exists b, In b f2 /\ fst a = fst b /\ veq (snd a) (snd b).
  Definition same_hashed_aspects (t1 t2 : taskdef) : Prop :=
    t_type t1 = t_type t2 /\ fields_eq (t_fields t1) (t_fields t2) /\ fields_eq (t_fields t2) (t_fields t1).

  (* an explicit collision of H exhibited by two tasks: between two byte strings hashed for a pair of field values,
     or for the two outer (name, hex digest) lists *)
  Definition task_collision (t1 t2 : taskdef) : Prop :=
    (exists a b, In a (t_fields t1) /\ In b (t_fields t2) /\
                 collision H (S (vdepth (snd a))) (snd a) (S (vdepth (snd b))) (snd b)) \/
    (exists l1 l2, outer_value H (t_fields t1) = Ok l1 /\ outer_value H (t_fields t2) = Ok l2 /\
                   collision H (S (vdepth l1)) l1 (S (vdepth l2)) l2).

  Definition in_domain (t : taskdef) : Prop :=
    (exists env, forall kv, In kv (t_fields t) -> field_ok H env kv) /\ exists c, identity H t = Ok c.

  Lemma match_split : forall f1 f2, fields_match H f1 f2 ->
      fields_eq f1 f2 \/ exists a b, In a f1 /\ In b f2 /\
                                    collision H (S (vdepth (snd a))) (snd a) (S (vdepth (snd b))) (snd b).
  Proof.
    induction f1 as [|a f1 IH]; intros f2 Hm; [left; intros x []|].
    destruct (Hm a (or_introl eq_refl)) as (b & Hb & Hn & [Hv|Hc]).
    - destruct (IH f2) as [He|(x & y & Hx & Hy & Hc)].
      + intros x Hx. apply Hm. now right.
      + left. intros x [<-|Hx]; [exists b; auto|auto].
      + right. exists x, y. split; [now right|auto].
    - right. exists a, b. split; [now left|auto].
  Qed.

  Theorem identity_separates_or_collision : forall t1 t2,
      in_domain t1 -> in_domain t2 -> ident_of H t1 = ident_of H t2 ->
      same_hashed_aspects t1 t2 \/ task_collision t1 t2.
  Proof.
    intros t1 t2 [[env1 O1] [c1 C1]] [[env2 O2] [c2 C2]] E. unfold ident_of in E. rewrite C1, C2 in E. subst c2.
    unfold identity in C1, C2.
    destruct (checksum_injective H env1 env2 _ _ _ _ c1 O1 O2 C1 C2) as [Ety [[M1 M2]|Hc]].
    - destruct (match_split _ _ M1) as [E1|(a & b & Ha & Hb & Hc)].
      + destruct (match_split _ _ M2) as [E2|(a & b & Ha & Hb & Hc)].
        * left. repeat split; auto.
        * right. left. exists b, a. repeat split; auto.
          destruct Hc as (s1 & s2 & X1 & X2 & Hne & Hd). exists s2, s1. repeat split; auto.
      + right. left. exists a, b. auto.
    - right. right. exact Hc.
  Qed.

  Theorem history_sound_or_collision : forall (O : Type) (run : taskdef -> O) (ts : list taskdef),
      (forall t, In t ts -> in_domain t) ->
      (forall t1 t2, same_hashed_aspects t1 t2 -> run t1 = run t2) ->
      fst (submit_all (ident_of H) run [] ts) = map run ts \/
      exists t1 t2, In t1 ts /\ In t2 ts /\ task_collision t1 t2.
  Proof.
    intros O run ts Hdom Hrun.
    apply (cache_sound_or (ident_of H) run _ ts [] []); [intros d o Hf; discriminate|].
    cbn [app]. intros t1 t2 H1 H2 E.
    destruct (identity_separates_or_collision t1 t2 (Hdom _ H1) (Hdom _ H2) E) as [Hs|Hc].
    - left. now apply Hrun.
    - right. exists t1, t2. auto.
  Qed.
End HistoryCorollary.

Definition ck_task (x : Z) : taskdef :=
  {| t_type := "python";
     t_fields := [("x", VList 1 [VInt x; VStr "a"]); ("function", VStr "f"); ("Outputs", VBytes "o")];
     t_meta := [] |}.
Definition ck_env (x : Z) (i : nat) : option pyval :=
  match i with 1 => Some (VList 1 [VInt x; VStr "a"]) | _ => None end.

(* `sorted` orders the items by field name alone, whatever the three digests are *)
Lemma ck_items_sorted : forall h1 h2 h3,
    sorted_res vlt (items_val 1 [("x", h1); ("function", h2); ("Outputs", h3)]) =
    Ok [VTuple 3 [VStr "Outputs"; VStr h3]; VTuple 2 [VStr "function"; VStr h2]; VTuple 1 [VStr "x"; VStr h1]].
Proof. reflexivity. Qed.

Lemma ck_in_domain : forall H x, in_domain H (ck_task x).
Proof.
  intros H x. assert (O : forall kv, In kv (t_fields (ck_task x)) -> field_ok H (ck_env x) kv).
  { intros kv [<-|[<-|[<-|[]]]]; (split; [apply (inj_domb_sound 3); reflexivity|]);
      (split; [|eexists; reflexivity]); try (apply wf_leaf; reflexivity).
    apply (wf_flat _ _ _ 1); [reflexivity|reflexivity|intros []|discriminate|repeat constructor]. }
  split; [exists (ck_env x); exact O|].
  eapply (checksum_defined H (ck_env x) _ _ _ O). apply ck_items_sorted.
Qed.

Example ck_in_domain1 : forall H, in_domain H (ck_task 1).
Proof. intros H. apply ck_in_domain. Qed.
Example ck_in_domain2 : forall H, in_domain H (ck_task 2).
Proof. intros H. apply ck_in_domain. Qed.

Example ck_history : forall H, forall t, In t [ck_task 1; ck_task 2; ck_task 1] -> in_domain H t.
Proof. intros H t [<-|[<-|[<-|[]]]]; [apply ck_in_domain1|apply ck_in_domain2|apply ck_in_domain1]. Qed.
