(* Proofs/ShellContrib.v — C22/C23: what _command_pos_args/_format_arg return for one field is the reference
   contribution, for every field and value inside [field_ok].
   First the text level: facts about the byte-string helpers of Model/Shell.v (str.replace, str.strip, str.format for
   plain fields) and what they and shlex do to the rendering of an argstr AST whose literals and values are benign
   (the built text re-tokenises to the instantiated words); then the model's functions, case by case. *)
From Pydra Require Import Base.Prelude Base.Shlex Model.Shell Spec.Shell Proofs.Shlex Proofs.ListFacts.
Local Open Scope char_scope.
Local Open Scope list_scope.

Lemma forallb_map {S T} (p : T -> bool) (f : S -> T) l : forallb p (map f l) = forallb (fun x => p (f x)) l.
Proof. induction l as [|x l IH]; cbn; [reflexivity|now rewrite IH]. Qed.

Lemma forallb_concat {T} (p : T -> bool) : forall l, forallb (forallb p) l = true -> forallb p (List.concat l) = true.
Proof.
  induction l as [|a l IH]; intros H; [reflexivity|]. cbn in *. apply andb_true_iff in H as [H1 H2].
  now rewrite forallb_app, H1, IH.
Qed.

Lemma forallb_join (p : ascii -> bool) sep : forall l, forallb p sep = true -> forallb (forallb p) l = true ->
  forallb p (join_sep sep l) = true.
Proof.
  induction l as [|a l IH]; intros Hs H; [reflexivity|]. cbn [forallb] in H. apply andb_true_iff in H as [H1 H2].
  destruct l as [|b l]; [exact H1|]. change (join_sep sep (a :: b :: l)) with (a ++ sep ++ join_sep sep (b :: l)).
  rewrite !forallb_app, H1, Hs, IH by assumption. reflexivity.
Qed.

Lemma nonempty_concat {T} (x : list T) l : In x l -> nonempty x = true -> nonempty (List.concat l) = true.
Proof.
  induction l as [|y l IH]; [contradiction|]. cbn [List.concat]. intros [->|Hin] Hx; [now destruct x|].
  destruct y; [now apply IH|reflexivity].
Qed.

Lemma has_char_app c a b : has_char c (a ++ b) = has_char c a || has_char c b.
Proof. unfold has_char. apply existsb_app. Qed.

Lemma la_eqb_refl a : la_eqb a a = true.
Proof. apply list_eqb_refl, Ascii.eqb_refl. Qed.
Lemma la_eqb_eq a b : la_eqb a b = true -> a = b.
Proof. apply (list_eqb_spec Ascii.eqb Ascii.eqb_eq). Qed.

Lemma lookup_here n v (r : vals_t) : lookup ((n, v) :: r) n = v.
Proof. cbn [lookup]. now rewrite la_eqb_refl. Qed.

Lemma starts_with_app p r : starts_with p (p ++ r) = true.
Proof. apply is_prefix_app, Ascii.eqb_refl. Qed.

Lemma starts_with_head c p d s : Ascii.eqb c d = false -> starts_with (c :: p) (d :: s) = false.
Proof. intros H. unfold starts_with. cbn. now rewrite H. Qed.

Lemma repl_absent pat rep : forall s, occurs pat s = false -> repl pat rep s 0 = s.
Proof.
  induction s as [|c s IH]; cbn [occurs repl]; [reflexivity|].
  intros H. apply orb_false_iff in H as [H1 H2]. rewrite H1, IH by exact H2. reflexivity.
Qed.

Lemma repl_skip pat rep : forall x b, repl pat rep (x ++ b) (List.length x) = repl pat rep b 0.
Proof. induction x as [|c x IH]; intros b; cbn; [destruct b; reflexivity|apply IH]. Qed.

Lemma repl_copy c pat rep : forall a b, has_char c a = false ->
  repl (c :: pat) rep (a ++ b) 0 = a ++ repl (c :: pat) rep b 0.
Proof.
  induction a as [|d a IH]; intros b H; [reflexivity|]. cbn [has_char existsb] in H. apply orb_false_iff in H as [H1 H2].
  cbn [app repl]. rewrite (starts_with_head c pat d _ H1). now rewrite IH.
Qed.

Lemma repl_hit c pat rep b : repl (c :: pat) rep ((c :: pat) ++ b) 0 = rep ++ repl (c :: pat) rep b 0.
Proof.
  cbn [app repl]. change (c :: pat ++ b) with ((c :: pat) ++ b). rewrite starts_with_app.
  replace (List.length (c :: pat) - 1)%nat with (List.length pat) by (cbn [List.length]; lia). now rewrite repl_skip.
Qed.

Lemma ends_with_app suf s : ends_with suf (s ++ suf) = true.
Proof. unfold ends_with. rewrite rev_app_distr. apply starts_with_app. Qed.

Lemma occurs_tail pat : forall t, occurs pat (t ++ pat) = true.
Proof.
  induction t as [|c t IH]; cbn [app]; [|cbn [occurs]; rewrite IH; apply orb_true_r].
  destruct pat as [|p pat]; [reflexivity|]. cbn [occurs]. apply orb_true_iff. left.
  apply (is_prefix_spec Ascii.eqb Ascii.eqb_eq). exists []. now rewrite app_nil_r.
Qed.

Lemma ends_with_occurs suf s : ends_with suf s = true -> occurs suf s = true.
Proof.
  unfold ends_with, starts_with. intros H. apply (is_prefix_spec Ascii.eqb Ascii.eqb_eq) in H as [r E].
  assert (s = rev r ++ suf) by (rewrite <- (rev_involutive s), E, rev_app_distr, rev_involutive; reflexivity).
  subst s. apply occurs_tail.
Qed.

(* first and last character are not Python whitespace: what makes [strip] the identity ([strip_id]) *)
Definition edges_ok (s : la) : Prop :=
  match s with [] => True | c :: _ => py_ws c = false end /\ match rev s with [] => True | c :: _ => py_ws c = false end.

Lemma strip_id s : edges_ok s -> strip s = s.
Proof.
  intros [H1 H2]. unfold strip.
  assert (E : lstrip s = s) by (destruct s as [|c s]; [reflexivity|cbn; now rewrite H1]).
  rewrite E. destruct (rev s) as [|c r] eqn:R.
  - cbn. rewrite <- (rev_involutive s), R. reflexivity.
  - cbn [lstrip]. rewrite H2, <- R. apply rev_involutive.
Qed.

Lemma bracket_fix_id s : bracket_inert s = true -> edges_ok s -> bracket_fix s = s.
Proof.
  unfold bracket_inert. intros H He. apply negb_true_iff in H.
  apply orb_false_iff in H as [H H4]. apply orb_false_iff in H as [H H3]. apply orb_false_iff in H as [H1 H2].
  unfold bracket_fix, replace_all.
  rewrite (repl_absent ["["; " "] ["["] s H1), (repl_absent [" "; "]"] ["]"] s H2),
          (repl_absent ["["; ","] ["["] s H3), (repl_absent [","; "]"] ["]"] s H4).
  now apply strip_id.
Qed.

Definition nobrace (c : ascii) : bool := negb (Ascii.eqb c lbrace) && negb (Ascii.eqb c rbrace).

Lemma benign_inv c : benign_char c = true ->
  py_ws c = false /\ is_quote c = false /\ Ascii.eqb c bsl = false /\ Ascii.eqb c lbrace = false /\ Ascii.eqb c rbrace = false.
Proof.
  unfold benign_char. intros H. apply negb_true_iff in H.
  apply orb_false_iff in H as [H H5]. apply orb_false_iff in H as [H H4]. apply orb_false_iff in H as [H H3].
  apply orb_false_iff in H as [H1 H2]. auto.
Qed.
Lemma benign_nobrace c : benign_char c = true -> nobrace c = true.
Proof. intros H. destruct (benign_inv c H) as (_ & _ & _ & A & B). unfold nobrace. now rewrite A, B. Qed.
Lemma benign_noq c : benign_char c = true -> noq_char c = true.
Proof.
  intros H. destruct (benign_inv c H) as (_ & Q & B & _ & _). unfold is_quote in Q. apply orb_false_iff in Q as [Q1 Q2].
  unfold noq_char. now rewrite Q1, Q2, B.
Qed.
Lemma benign_not_pyws c : benign_char c = true -> py_ws c = false.
Proof. intros H. now destruct (benign_inv c H). Qed.
Lemma pyws_of_ws c : is_ws c = true -> py_ws c = true.
Proof. apply (ascii_incl is_ws py_ws). vm_compute. reflexivity. Qed.
Lemma benign_not_ws c : benign_char c = true -> negb (is_ws c) = true.
Proof.
  intros H. apply benign_not_pyws in H. destruct (is_ws c) eqn:E; [|reflexivity].
  apply pyws_of_ws in E. congruence.
Qed.
Lemma ident_nobrace c : ident_char c = true -> nobrace c = true.
Proof. apply (ascii_incl_contra ident_char nobrace). vm_compute. reflexivity. Qed.
Lemma valid_ident_nobrace n : valid_ident n = true -> forallb nobrace n = true.
Proof.
  destruct n as [|c n]; cbn; [discriminate|]. intros H. apply andb_true_iff in H as [H1 H2].
  rewrite ident_nobrace by (unfold ident_char; now rewrite H1).
  exact (forallb_impl ident_nobrace H2).
Qed.
Lemma nobrace_cons c s : forallb nobrace (c :: s) = true ->
  Ascii.eqb c lbrace = false /\ Ascii.eqb c rbrace = false /\ forallb nobrace s = true.
Proof.
  cbn [forallb]. unfold nobrace at 1. intros H. apply andb_true_iff in H as [H Hs]. apply andb_true_iff in H as [H1 H2].
  apply negb_true_iff in H1, H2. auto.
Qed.
Lemma has_char_nobrace s : forallb nobrace s = true -> has_char lbrace s = false /\ has_char rbrace s = false.
Proof.
  unfold has_char. induction s as [|c s IH]; [split; reflexivity|]. intros H.
  destruct (nobrace_cons c s H) as (E1 & E2 & Hs). destruct (IH Hs) as [A B]. cbn [existsb].
  rewrite (Ascii.eqb_sym lbrace c), E1, A, (Ascii.eqb_sym rbrace c), E2, B. split; reflexivity.
Qed.

Lemma benign_nonempty v : benign_text v = true -> nonempty v = true.
Proof. unfold benign_text. intros H. now apply andb_true_iff in H. Qed.
Lemma benign_chars v : benign_text v = true -> forallb benign_char v = true.
Proof. unfold benign_text. intros H. now apply andb_true_iff in H. Qed.

Lemma strip_quotes_all L : forallb benign_text L = true -> map strip_outer_quotes L = L.
Proof.
  intros H. rewrite <- (map_id L) at 2. apply map_ext_in. intros w Hw. rewrite forallb_forall in H.
  pose proof (benign_chars w (H w Hw)) as Hb. destruct w as [|c w]; [reflexivity|].
  cbn [forallb] in Hb. apply andb_true_iff in Hb as [Hc _]. destruct (benign_inv c Hc) as (_ & Q & _).
  unfold strip_outer_quotes. now rewrite Q.
Qed.

Lemma filter_nonempty_benign L : forallb benign_text L = true -> filter nonempty L = L.
Proof. rewrite forallb_forall. intros H. apply filter_all. intros w Hw. apply benign_nonempty, H, Hw. Qed.

Lemma benign_edges w : benign_text w = true -> edges_ok w.
Proof.
  intros H. apply benign_chars in H. rewrite forallb_forall in H. split.
  - destruct w as [|c w]; [exact I|]. apply benign_not_pyws, H. now left.
  - destruct (rev w) as [|c r] eqn:E; [exact I|]. apply benign_not_pyws, H, in_rev. rewrite E. now left.
Qed.

Lemma edges_blank a b : nonempty a = true -> nonempty b = true -> edges_ok a -> edges_ok b -> edges_ok (a ++ " " :: b).
Proof.
  intros Ha Hb [A _] [_ B]. split; [destruct a; [discriminate|exact A]|].
  rewrite rev_app_distr. cbn [rev]. rewrite <- app_assoc. destruct (rev b) eqn:E; [|exact B].
  apply (f_equal (@rev _)) in E. rewrite rev_involutive in E. now subst b.
Qed.

Lemma join_sep_nonempty sep (w : la) L : nonempty w = true -> nonempty (join_sep sep (w :: L)) = true.
Proof. destruct w; [discriminate|]. now destruct L. Qed.

Lemma join_edges : forall L, forallb benign_text L = true -> edges_ok (join_sep [" "] L).
Proof.
  induction L as [|w L IH]; [now split|]. cbn [forallb]. intros H. apply andb_true_iff in H as [Hw HL].
  destruct L as [|w2 L]; [now apply benign_edges|].
  assert (Hw2 : benign_text w2 = true) by (cbn [forallb] in HL; now apply andb_true_iff in HL).
  change (join_sep [" "] (w :: w2 :: L)) with (w ++ " " :: join_sep [" "] (w2 :: L)).
  apply edges_blank; [apply benign_nonempty, Hw|apply join_sep_nonempty, benign_nonempty, Hw2|apply benign_edges, Hw|apply IH, HL].
Qed.

(* what split_cmd needs to return [L] for the text [t]: shlex is whitespace splitting on [t], whitespace splitting gives
   [L], and no word of [L] loses outer quotes *)
Definition reads_as (t : la) (L : list la) : Prop :=
  forallb noq_char t = true /\ words t = L /\ forallb benign_text L = true.

Lemma reads_as_split t L : reads_as t L -> split_cmd t = Good L.
Proof.
  intros (Hq & <- & Hb). unfold split_cmd. rewrite (split_noquote t Hq). cbn [of_lex bind]. now rewrite strip_quotes_all.
Qed.

Lemma split_cmd_nil : split_cmd [] = Good [].
Proof. reflexivity. Qed.

Lemma reads_nil : reads_as [] [].
Proof. repeat split. Qed.

Lemma reads_nonempty t w L : reads_as t (w :: L) -> nonempty t = true.
Proof. intros (_ & H & _). destruct t; [discriminate H|reflexivity]. Qed.

Lemma reads_word w : benign_text w = true -> reads_as w [w].
Proof.
  intros H. pose proof (benign_chars w H) as Hb. repeat split.
  - exact (forallb_impl benign_noq Hb).
  - apply words_solid; [now intros ->|]. exact (forallb_impl benign_not_ws Hb).
  - cbn. now rewrite H.
Qed.

Lemma reads_blank a b A B : reads_as a A -> reads_as b B -> reads_as (a ++ " " :: b) (A ++ B).
Proof.
  intros (Qa & <- & Ba) (Qb & <- & Bb). repeat split.
  - rewrite forallb_app, Qa. exact Qb.
  - apply words_space.
  - now rewrite forallb_app, Ba.
Qed.

Lemma reads_words L : forallb benign_text L = true -> reads_as (join_sep [" "] L) L.
Proof.
  induction L as [|w L IH]; [intros _; exact reads_nil|]. cbn [forallb]. intros H. apply andb_true_iff in H as [Hw HL].
  destruct L as [|w2 L]; [now apply reads_word|]. exact (reads_blank _ _ [w] _ (reads_word w Hw) (IH HL)).
Qed.

Lemma reads_parts {A} (T : A -> la) (W : A -> list la) l :
  (forall a, In a l -> reads_as (T a) (W a)) -> reads_as (join_sep [" "] (map T l)) (List.concat (map W l)).
Proof.
  induction l as [|a l IH]; intros H; [exact reads_nil|].
  pose proof (H a (or_introl eq_refl)) as Ha. pose proof (IH (fun b Hb => H b (or_intror Hb))) as Hl.
  destruct l as [|b l]; [cbn [map join_sep List.concat]; now rewrite app_nil_r|]. exact (reads_blank _ _ _ _ Ha Hl).
Qed.

Lemma inst_word_benign vals v w : word_ok w = true -> forallb benign_char v = true ->
  (nonempty v = true \/ existsb is_ph w = false) -> benign_text (inst_word vals v w) = true.
Proof.
  unfold word_ok, benign_text, inst_word. intros H Hv Hne. apply andb_true_iff in H as [Hp Hs].
  apply andb_true_iff. split.
  - apply existsb_exists in Hs as (p & Hin & Hp1). apply (nonempty_concat (inst_piece vals v p)); [now apply in_map|].
    rewrite forallb_forall in Hp. specialize (Hp p Hin). destruct p as [s| |m]; cbn in *; [exact Hp1| |discriminate].
    destruct Hne as [Hne|Hne]; [exact Hne|]. discriminate (existsb_false_at Hne Hin).
  - apply forallb_concat. rewrite forallb_map. eapply forallb_impl; [|exact Hp].
    intros [s| |m] Hq; cbn in *; [exact Hq|exact Hv|discriminate].
Qed.

Lemma inst_words_benign vals v ws : forallb word_ok ws = true -> forallb benign_char v = true ->
  (nonempty v = true \/ has_ph ws = false) -> forallb benign_text (map (inst_word vals v) ws) = true.
Proof.
  intros H Hv Hne. rewrite forallb_map. rewrite forallb_forall in H |- *. intros w Hin.
  apply inst_word_benign; auto. destruct Hne as [Hne|Hne]; [now left|right]. now apply (existsb_false_at Hne).
Qed.

Lemma fmt_copy env : forall a b, forallb nobrace a = true ->
  fmt env (a ++ b) None = bind (fmt env b None) (fun t => Good (a ++ t)).
Proof.
  induction a as [|c a IH]; intros b H.
  - cbn [app]. destruct (fmt env b None); reflexivity.
  - destruct (nobrace_cons c a H) as (E1 & E2 & H2).
    cbn [app fmt]. rewrite E1, E2, IH by exact H2. destruct (fmt env b None); reflexivity.
Qed.
Lemma fmt_nobrace env s : forallb nobrace s = true -> fmt env s None = Good s.
Proof. intros H. rewrite <- (app_nil_r s) at 1. rewrite fmt_copy by exact H. cbn. now rewrite app_nil_r. Qed.

Lemma fmt_name env : forall m acc b, forallb nobrace m = true ->
  fmt env (m ++ rbrace :: b) (Some acc) =
  if valid_ident (rev acc ++ m)
  then bind (env (rev acc ++ m)) (fun v => bind (fmt env b None) (fun t => Good (v ++ t)))
  else Bad EFormat.
Proof.
  induction m as [|c m IH]; intros acc b H.
  - cbn [app fmt]. rewrite Ascii.eqb_refl, app_nil_r. reflexivity.
  - destruct (nobrace_cons c m H) as (_ & E2 & H2).
    cbn [app fmt]. rewrite E2, IH by exact H2. cbn [rev]. rewrite <- app_assoc. reflexivity.
Qed.

Lemma fmt_placeholder n env v b : valid_ident n = true -> env n = Good v ->
  fmt env (placeholder n ++ b) None = bind (fmt env b None) (fun t => Good (v ++ t)).
Proof.
  intros Hn He. unfold placeholder. pose proof (valid_ident_nobrace n Hn) as Hnb.
  destruct n as [|c m] eqn:En; [discriminate Hn|].
  destruct (nobrace_cons c m Hnb) as (E1 & E2 & Hm).
  cbn [app fmt]. rewrite Ascii.eqb_refl. rewrite E1, E2.
  replace ((m ++ [rbrace]) ++ b) with (m ++ rbrace :: b) by (now rewrite <- app_assoc).
  rewrite fmt_name by exact Hm. cbn [rev app]. rewrite Hn, He. reflexivity.
Qed.

(* [tpl n v b s t]: [s] is the text of a template of the field [n], brace-free stretches and the field's own placeholder,
   [t] is [s] with [v] in place of each placeholder, and [b] tells whether there is one.  What str.replace, str.format
   and _format_arg's test for a template do with an argstr is said about such a pair; [words_tpl] is the one place where
   the argstr AST comes in. *)
Inductive tpl (n v : la) : bool -> la -> la -> Prop :=
| tpl_nil : tpl n v false [] []
| tpl_lit a b s t : forallb nobrace a = true -> tpl n v b s t -> tpl n v b (a ++ s) (a ++ t)
| tpl_self b s t : tpl n v b s t -> tpl n v true (placeholder n ++ s) (v ++ t).

Lemma tpl_brace {n v b s t} : tpl n v b s t -> has_char lbrace s = b /\ has_char rbrace s = b.
Proof.
  induction 1 as [|a b s t Ha _ [IH1 IH2]|b s t _ _]; [split; reflexivity| |].
  - destruct (has_char_nobrace a Ha) as [A B]. now rewrite !has_char_app, A, B.
  - unfold placeholder, has_char. cbn [app existsb]. rewrite Ascii.eqb_refl. split; [reflexivity|].
    rewrite !existsb_app. cbn [existsb]. rewrite Ascii.eqb_refl. now rewrite !orb_true_r.
Qed.

Lemma tpl_repl {n v b s t} : tpl n v b s t -> replace_all (placeholder n) v s = t.
Proof.
  unfold replace_all, placeholder. induction 1 as [|a b s t Ha _ IH|b s t _ IH]; [reflexivity| |].
  - rewrite repl_copy by apply has_char_nobrace, Ha. now rewrite IH.
  - now rewrite repl_hit, IH.
Qed.

Lemma tpl_fmt n v env b s t : valid_ident n = true -> env n = Good v -> tpl n v b s t -> fmt env s None = Good t.
Proof.
  intros Hn He. induction 1 as [|a b s t Ha _ IH|b s t _ IH]; [reflexivity| |].
  - now rewrite fmt_copy, IH.
  - now rewrite (fmt_placeholder n env v _ Hn He), IH.
Qed.

Lemma tpl_nobrace {n v b s t} : forallb nobrace v = true -> tpl n v b s t -> forallb nobrace t = true.
Proof. intros Hv. induction 1 as [|a b s t Ha _ IH|b s t _ IH]; [reflexivity| |]; rewrite forallb_app, IH; [now rewrite Ha|now rewrite Hv]. Qed.

Lemma tpl_plain {n v b s t} : tpl n v b s t -> b = false -> s = t.
Proof. induction 1 as [|a b s t _ _ IH|]; intros E; [reflexivity|now rewrite IH|discriminate]. Qed.

Lemma word_tpl n v vals w : forallb piece_ok w = true -> forall b s t, tpl n v b s t ->
  tpl n v (existsb is_ph w || b) (render_word n w ++ s) (inst_word vals v w ++ t).
Proof.
  unfold render_word, inst_word. induction w as [|p w IH]; intros H b s t T; [exact T|].
  cbn [forallb] in H. apply andb_true_iff in H as [Hp Hw]. cbn [map List.concat existsb]. rewrite <- !app_assoc.
  destruct p as [a| |m]; cbn [piece_ok render_piece inst_piece is_ph orb] in *; [| |discriminate].
  - apply tpl_lit; [exact (forallb_impl benign_nobrace Hp)|now apply IH].
  - exact (tpl_self _ _ _ _ _ (IH Hw _ _ _ T)).
Qed.

Lemma words_tpl n v vals ws : forallb word_ok ws = true -> tpl n v (has_ph ws) (render_words n ws) (occ_text ws vals v).
Proof.
  unfold render_words, occ_text, has_ph. induction ws as [|w ws IH]; [constructor|]. cbn [forallb]. intros H.
  apply andb_true_iff in H as [Hw H]. unfold word_ok in Hw. apply andb_true_iff in Hw as [Hw _].
  cbn [existsb]. destruct ws as [|w2 ws].
  - cbn [map join_sep existsb]. rewrite <- (app_nil_r (render_word n w)), <- (app_nil_r (inst_word vals v w)).
    apply word_tpl; [exact Hw|constructor].
  - cbn [map join_sep] in *. apply word_tpl; [exact Hw|]. apply (tpl_lit n v [" "]); [reflexivity|]. exact (IH H).
Qed.

Lemma has_brace_words n ws : forallb word_ok ws = true ->
  has_char lbrace (render_words n ws) = has_ph ws /\ has_char rbrace (render_words n ws) = has_ph ws.
Proof. intros H. exact (tpl_brace (words_tpl n [] [] ws H)). Qed.

(* the test by which _format_arg decides that an argstr is a template *)
Lemma templated_words n ws : forallb word_ok ws = true ->
  has_char lbrace (render_words n ws) && has_char rbrace (render_words n ws) = has_ph ws.
Proof. intros H. destruct (has_brace_words n ws H) as [-> ->]. apply andb_diag. Qed.

Lemma map_result_good {A B} (f : A -> result B) (h : A -> B) l :
  (forall x, In x l -> f x = Good (h x)) -> map_result f l = Good (map h l).
Proof.
  induction l as [|x l IH]; intros H; [reflexivity|]. cbn [map_result map].
  rewrite (H x (or_introl eq_refl)). cbn [bind]. rewrite IH by (intros y Hy; apply H; now right). reflexivity.
Qed.

Lemma map_result_map {A B C} (k : A -> B) (f : B -> result C) l :
  map_result f (map k l) = map_result (fun x => f (k x)) l.
Proof. induction l as [|x l IH]; [reflexivity|]. cbn. now rewrite IH. Qed.

Lemma truthy_nonempty (s : la) : negb (match s with [] => true | _ => false end) = nonempty s.
Proof. destruct s; reflexivity. Qed.

Lemma argstr_ellipsis n ws dots : dots_text_ok n ws dots = true ->
  replace_all ellipsis [] (render_words n ws ++ (if dots then ellipsis else [])) = render_words n ws
  /\ ends_with ellipsis (render_words n ws ++ (if dots then ellipsis else [])) = dots.
Proof.
  unfold dots_text_ok. destruct dots; intros H; apply negb_true_iff in H.
  - split; [|apply ends_with_app]. unfold replace_all, ellipsis. rewrite repl_copy by exact H. apply app_nil_r.
  - rewrite app_nil_r. split; [now apply repl_absent|].
    destruct (ends_with ellipsis (render_words n ws)) eqn:E; [|reflexivity].
    apply ends_with_occurs in E. congruence.
Qed.

Lemma atom_ok_inv ws a : atom_ok ws a = true ->
  benign_text (render_atom a) = true /\ (has_ph ws = true \/ truthy_atom a = true).
Proof.
  unfold atom_ok, atom_benign. intros H. apply andb_true_iff in H as [H1 H2]. split; [exact H1|].
  apply orb_true_iff in H2. tauto.
Qed.

Lemma atoms_benign l : forallb atom_benign l = true -> forallb benign_text (map render_atom l) = true.
Proof. now rewrite forallb_map. Qed.

Lemma join_atoms_benign sep l : forallb benign_char sep = true -> l <> [] -> forallb atom_benign l = true ->
  benign_text (join_sep sep (map render_atom l)) = true.
Proof.
  intros Hs Hne Hok. pose proof (atoms_benign _ Hok) as Hb. unfold benign_text. apply andb_true_iff. split.
  - destruct l as [|a l]; [congruence|]. cbn [map forallb] in Hb. apply andb_true_iff in Hb as [Hb1 _].
    apply join_sep_nonempty, benign_nonempty, Hb1.
  - apply forallb_join; [exact Hs|]. exact (forallb_impl benign_chars Hb).
Qed.

Lemma inert_templ ws vals v : has_ph ws = true -> inert ws vals v = bracket_inert (occ_text ws vals v).
Proof. unfold inert. now intros ->. Qed.

(* From here on [valsM] stands for the values the model's functions are handed (_command_args has dropped the unset
   fields from them) and [valsS] for those the reference reads; the two need agree only at the field's own name. *)
Definition field_hyps (f : sfield) (ws : list word) (dots : bool) : Prop :=
  sf_argstr f = SA ws dots /\ valid_ident (sf_name f) = true /\ forallb word_ok ws = true
  /\ dots_text_ok (sf_name f) ws dots = true.

Section OneField.
Variables (f : sfield) (ws : list word) (dots : bool).
Hypothesis FH : field_hyps f ws dots.
Let Ha : sf_argstr f = SA ws dots := proj1 FH.
Let Hn : valid_ident (sf_name f) = true := proj1 (proj2 FH).
Let Hws : forallb word_ok ws = true := proj1 (proj2 (proj2 FH)).
Let Hdt : dots_text_ok (sf_name f) ws dots = true := proj2 (proj2 (proj2 FH)).

Let argstr := render_words (sf_name f) ws ++ (if dots then ellipsis else []).
Lemma f_argstr_eq : f_argstr (to_field f) = Some argstr.
Proof. unfold to_field. cbn. now rewrite Ha. Qed.

Lemma argstr_plain : replace_all ellipsis [] argstr = render_words (sf_name f) ws.
Proof. apply (argstr_ellipsis _ _ _ Hdt). Qed.
Lemma argstr_dots : ends_with ellipsis argstr = dots.
Proof. apply (argstr_ellipsis _ _ _ Hdt). Qed.

Lemma occ_benign valsS v : benign_text v = true -> forallb benign_text (map (inst_word valsS v) ws) = true.
Proof.
  intros Hv. apply inst_words_benign; auto using benign_chars. left. now apply benign_nonempty.
Qed.

Lemma occ_reads_templ valsS v : has_ph ws = true -> benign_text v = true ->
  reads_as (occ_text ws valsS v) (occurrence ws valsS v).
Proof.
  intros Hph Hv. pose proof (occ_benign valsS v Hv) as Hb. unfold occurrence.
  rewrite Hph, filter_nonempty_benign by exact Hb. now apply reads_words.
Qed.

Lemma plain_reads valsS x v V : has_ph ws = false -> forallb benign_char x = true -> reads_as v V ->
  reads_as (render_words (sf_name f) ws ++ " " :: v) (map (inst_word valsS x) ws ++ V).
Proof.
  intros Hph Hx Hv. rewrite (tpl_plain (words_tpl (sf_name f) x valsS ws Hws) Hph). apply reads_blank; [|exact Hv].
  apply reads_words, inst_words_benign; auto.
Qed.

Lemma occ_reads_plain valsS v : has_ph ws = false -> benign_text v = true ->
  reads_as (render_words (sf_name f) ws ++ " " :: v) (occurrence ws valsS v).
Proof.
  intros Hph Hv. unfold occurrence. rewrite Hph. apply plain_reads; [exact Hph|apply benign_chars, Hv|now apply reads_word].
Qed.

Lemma cleanup_occ valsS v : benign_text v = true -> bracket_inert (occ_text ws valsS v) = true ->
  bracket_fix (occ_text ws valsS v) = occ_text ws valsS v.
Proof. intros Hv Hin. apply bracket_fix_id; [exact Hin|]. apply join_edges, occ_benign, Hv. Qed.

(* the two ways in which _format_arg fills a template: str.replace of the field's own placeholder followed by a
   str.format that finds nothing left, or str.format with the value bound to the field's name *)
Lemma formatting_replaced valsM valsS v : benign_text v = true -> bracket_inert (occ_text ws valsS v) = true ->
  argstr_formatting (replace_all (placeholder (sf_name f)) v (render_words (sf_name f) ws)) valsM = Good (occ_text ws valsS v).
Proof.
  intros Hv Hin. pose proof (words_tpl (sf_name f) v valsS ws Hws) as T. rewrite (tpl_repl T). unfold argstr_formatting.
  rewrite fmt_nobrace by exact (tpl_nobrace (forallb_impl benign_nobrace (benign_chars v Hv)) T).
  cbn [bind]. now rewrite cleanup_occ.
Qed.

Lemma formatting_self valsM valsS a :
  benign_text (render_atom a) = true -> bracket_inert (occ_text ws valsS (render_atom a)) = true ->
  argstr_formatting (render_words (sf_name f) ws) (((sf_name f), VAtom a) :: valsM) = Good (occ_text ws valsS (render_atom a)).
Proof.
  intros Hv Hin. unfold argstr_formatting.
  rewrite (tpl_fmt (sf_name f) (render_atom a) _ _ _ _ Hn) with (2 := words_tpl (sf_name f) _ valsS ws Hws)
    by (unfold env_of; now rewrite lookup_here).
  cbn [bind]. now rewrite cleanup_occ.
Qed.

Lemma scalar_ok valsM valsS v t : benign_text v = true -> inert ws valsS v = true -> (has_ph ws = true \/ t = true) ->
  format_scalar (to_field f) (render_words (sf_name f) ws) valsM v t = Good (occurrence ws valsS v).
Proof.
  intros Hv Hin Ht. unfold format_scalar. rewrite (templated_words _ ws Hws). destruct (has_ph ws) eqn:Hph.
  - rewrite inert_templ in Hin by exact Hph. cbn [to_field f_name]. rewrite (formatting_replaced valsM valsS v Hv Hin). cbn [bind].
    apply reads_as_split. now apply occ_reads_templ.
  - destruct Ht as [Ht| ->]; [discriminate|]. apply reads_as_split. now apply occ_reads_plain.
Qed.

Lemma format_joined valsM l : dots = false -> lookup valsM (sf_name f) = VList l ->
  format_arg (to_field f) argstr valsM =
  let s := join_sep (sf_sep f) (map render_atom l) in format_scalar (to_field f) (render_words (sf_name f) ws) valsM s (nonempty s).
Proof.
  intros Hd Hl. unfold format_arg. cbn [to_field f_name].
  now rewrite Hl, argstr_plain, argstr_dots, Hd, truthy_nonempty.
Qed.

Lemma format_atom valsM valsS a : lookup valsM (sf_name f) = VAtom a ->
  atom_ok ws a = true -> inert ws valsS (render_atom a) = true ->
  format_arg (to_field f) argstr valsM = Good (occurrence ws valsS (render_atom a)).
Proof.
  intros Hl Hok Hin. destruct (atom_ok_inv ws a Hok) as [Hb Ht].
  unfold format_arg. cbn [to_field f_name]. rewrite Hl, argstr_plain.
  now apply scalar_ok.
Qed.

Lemma format_atoms valsM valsS l :
  forallb (fun a => atom_ok ws a && inert ws valsS (render_atom a)) l = true ->
  map_result (fun a => format_arg (to_field f) argstr ((sf_name f, VAtom a) :: valsM)) l
  = Good (map (fun a => occurrence ws valsS (render_atom a)) l).
Proof.
  intros H. apply map_result_good. intros a Hin. rewrite forallb_forall in H. specialize (H a Hin).
  apply andb_true_iff in H as [H1 H2]. apply format_atom; auto. apply lookup_here.
Qed.

(* '...' with a blank separator: every element becomes a blank and its own occurrence; the parts are joined by a blank *)
Lemma format_dots valsM valsS l : dots = true -> sf_sep f = [" "] ->
  lookup valsM (sf_name f) = VList l ->
  forallb atom_benign l = true -> forallb (fun a => inert ws valsS (render_atom a)) l = true ->
  format_arg (to_field f) argstr valsM = Good (List.concat (map (fun a => occurrence ws valsS (render_atom a)) l)).
Proof.
  intros Hd Hsep Hl Hok Hin. unfold format_arg. cbn [to_field f_name f_sep].
  rewrite Hl, argstr_plain, argstr_dots, Hd, Hsep, (templated_words _ ws Hws). rewrite forallb_forall in Hok, Hin.
  destruct (has_ph ws) eqn:Hph.
  - rewrite (map_result_good _ (fun a => sp ++ occ_text ws valsS (render_atom a))).
    + apply reads_as_split, (reads_parts _ (fun a => occurrence ws valsS (render_atom a))). intros a Ha0.
      apply (reads_blank [] _ [] _ reads_nil), occ_reads_templ; auto. apply (Hok a Ha0).
    + intros a Ha0. specialize (Hin a Ha0). rewrite inert_templ in Hin by exact Hph.
      now rewrite (formatting_self valsM valsS a (Hok a Ha0) Hin).
  - apply reads_as_split, (reads_parts _ (fun a => occurrence ws valsS (render_atom a))). intros a Ha0.
    apply (reads_blank [] _ [] _ reads_nil), occ_reads_plain; auto. apply (Hok a Ha0).
Qed.

Lemma format_join_blank valsM valsS l : dots = false -> sf_sep f = [" "] -> has_ph ws = false ->
  lookup valsM (sf_name f) = VList l -> forallb atom_benign l = true ->
  format_arg (to_field f) argstr valsM
  = Good (match l with [] => [] | _ => map (inst_word valsS []) ws ++ map render_atom l end).
Proof.
  intros Hd Hsep Hph Hl Hok. rewrite (format_joined _ _ Hd Hl), Hsep. cbn zeta.
  unfold format_scalar. rewrite (templated_words _ ws Hws), Hph. destruct l as [|a l]; [reflexivity|].
  pose proof (reads_words _ (atoms_benign _ Hok)) as Hr.
  rewrite (reads_nonempty _ _ _ Hr). now apply reads_as_split, plain_reads.
Qed.

Lemma format_join_sep valsM valsS l : dots = false -> forallb benign_char (sf_sep f) = true -> l <> [] ->
  lookup valsM (sf_name f) = VList l -> forallb atom_benign l = true ->
  inert ws valsS (join_sep (sf_sep f) (map render_atom l)) = true ->
  format_arg (to_field f) argstr valsM = Good (occurrence ws valsS (join_sep (sf_sep f) (map render_atom l))).
Proof.
  intros Hd Hsep Hne Hl Hok Hin. rewrite (format_joined _ _ Hd Hl). cbn zeta.
  pose proof (join_atoms_benign _ l Hsep Hne Hok) as Hb. rewrite (benign_nonempty _ Hb).
  apply scalar_ok; auto.
Qed.

Lemma format_empty_list valsM : dots = false -> has_ph ws = false -> lookup valsM (sf_name f) = VList [] ->
  format_arg (to_field f) argstr valsM = Good [].
Proof.
  intros Hd Hph Hl. rewrite (format_joined _ _ Hd Hl). unfold format_scalar. now rewrite (templated_words _ ws Hws), Hph.
Qed.
End OneField.

Lemma spec_contrib_set_pos f p vals : spec_contrib (mkS (sf_name f) (sf_ty f) (sf_argstr f) p (sf_sep f)) vals = spec_contrib f vals.
Proof. reflexivity. Qed.

Lemma command_pos_args_default F argstr vals t : f_argstr F = Some argstr -> optional_type (f_ty F) = t ->
  match t with TBool | TMulti => False | _ => True end ->
  command_pos_args F vals = bind (format_arg F argstr vals) (fun args => Good (Some (f_pos F, args))).
Proof.
  intros Ha Et Ht. unfold command_pos_args. rewrite Ha, Et.
  destruct t; try contradiction; destruct (has_char lbrace argstr); reflexivity.
Qed.

Theorem contrib_ok (f : sfield) (valsM valsS : vals_t) ws dots :
  sf_argstr f = SA ws dots ->
  field_ok f valsS = true ->
  lookup valsM (sf_name f) = lookup valsS (sf_name f) ->
  lookup valsS (sf_name f) <> VNone ->
  command_pos_args (to_field f) valsM = Good (Some (sf_pos f, spec_contrib f valsS)).
Proof.
  intros Ha Hok Hl Hnn. unfold field_ok in Hok. rewrite Ha in Hok.
  apply andb_true_iff in Hok as [Hn Hok]. apply andb_true_iff in Hok as [Hok Hv]. apply andb_true_iff in Hok as [Hws Hdt].
  assert (FH : field_hyps f ws dots) by (repeat split; assumption).
  pose proof (f_argstr_eq f ws dots FH) as Harg.
  unfold spec_contrib. rewrite Ha.
  (* field_ok leaves a bool of kind TBool, an atom of a scalar kind, a list of kind TList or TMulti *)
  destruct (lookup valsS (sf_name f)) as [|b|a|l] eqn:Ev; [congruence| | |].
  - destruct (optional_type (sf_ty f)) eqn:Et; try discriminate Hv. apply andb_true_iff in Hv as [Hph Hd].
    apply negb_true_iff in Hph, Hd. subst dots. unfold command_pos_args. rewrite Harg, app_nil_r.
    cbn [to_field f_ty f_name].
    destruct (has_brace_words (sf_name f) ws Hws) as [-> _]. rewrite Et, Hph, Hl. now destruct b.
  - destruct (optional_type (sf_ty f)) eqn:Et; try discriminate Hv; apply andb_true_iff in Hv as [Hat Hin];
      rewrite (command_pos_args_default _ _ _ _ Harg Et I);
      now rewrite (format_atom f ws dots FH valsM valsS a) by (congruence || assumption).
  - destruct (optional_type (sf_ty f)) eqn:Et; try discriminate Hv.
    + (* TList *)
      apply andb_true_iff in Hv as [Hat Hv].
      rewrite (command_pos_args_default _ _ _ _ Harg Et I).
      destruct dots.
      * apply andb_true_iff in Hv as [Hs Hin]. apply la_eqb_eq in Hs.
        rewrite (format_dots f ws true FH valsM valsS l eq_refl Hs Hl Hat Hin).
        destruct l; [now rewrite andb_false_r|reflexivity].
      * destruct (la_eqb (sf_sep f) [" "%char]) eqn:Es.
        -- apply la_eqb_eq in Es. apply negb_true_iff in Hv.
           rewrite (format_join_blank f ws false FH valsM valsS l eq_refl Es Hv Hl Hat), Hv. now destruct l.
        -- apply andb_true_iff in Hv as [Hv Hin]. apply andb_true_iff in Hv as [Hsb Hne]. destruct l as [|a l].
           ++ apply negb_true_iff in Hne. now rewrite (format_empty_list f ws false FH valsM eq_refl Hne Hl), Hne.
           ++ now rewrite (format_join_sep f ws false FH valsM valsS (a :: l) eq_refl Hsb) by (discriminate || assumption).
    + (* TMulti *)
      unfold command_pos_args. rewrite Harg. cbn [to_field f_ty f_name]. rewrite Et, Hl, (format_atoms f ws dots FH valsM valsS l Hv).
      now destruct l.
Qed.
