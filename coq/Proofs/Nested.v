(* Proofs/Nested.v — C04: the product of input_shape counts the elements at the field's depth, ragged or not, so
   the index range reads every one of them (get_all); the folds of the n-ary splitters are product and zip.  On
   rectangular values input_shape is the dimension vector (input_shape_rect; rect_levels: every level is uniform); the
   boolean tests of the executable spec decide its Props (same_as_head_spec, rectangularb_spec, value_eqb_eq,
   outcome_eqb_eq); the count again for values whose inner containers are lists or tuples (tflatten_spec,
   tprod_shape_rec). *)
From Pydra Require Import Base.Prelude Model.Nested Spec.Nested Proofs.ListFacts.
Local Open Scope nat_scope.

Lemma sequence_length {A} (l : list (option A)) r : sequence l = Some r -> List.length r = List.length l.
Proof.
  revert r. induction l as [|[x|] l IH]; cbn; intros r H.
  - inversion H; reflexivity.
  - destruct (sequence l) as [r'|]; [|discriminate]. inversion H; subst. cbn. now rewrite (IH r').
  - discriminate.
Qed.

Lemma length_flat_map_const {A B} (g : A -> list B) k l :
  Forall (fun v => List.length (g v) = k) l -> List.length (flat_map g l) = List.length l * k.
Proof.
  induction 1 as [|v l Hv _ IH]; [reflexivity|].
  cbn [flat_map List.length]. rewrite app_length, Hv, IH. lia.
Qed.

Lemma const_all_equal {A B} (f : A -> B) l c :
  (forall a, In a l -> f a = c) -> forall a b, In a l -> In b l -> f a = f b.
Proof. intros H a b Ha Hb. now rewrite (H a Ha), (H b Hb). Qed.

Lemma same_as_head_spec {A B} (f : A -> B) (eqb : B -> B -> bool) (H : forall x y, eqb x y = true <-> x = y) (l : list A) :
  match l with [] => true | x :: r => forallb (fun y => eqb (f x) (f y)) r end = true <->
  (forall a b, In a l -> In b l -> f a = f b).
Proof.
  destruct l as [|x r].
  - split; [intros _ a b []| reflexivity].
  - rewrite forallb_forall. split.
    + intros HF. apply (const_all_equal f _ (f x)).
      intros a [<-|Ha]; [reflexivity|]. symmetry. apply H, HF, Ha.
    + intros HA y Hy. apply H. apply HA; [left; reflexivity| right; exact Hy].
Qed.

Lemma Forall2_map_l {A A' B} (f : A -> A') (S : A' -> B -> Prop) l l' :
  Forall2 (fun a => S (f a)) l l' -> Forall2 S (map f l) l'.
Proof. induction 1; cbn [map]; constructor; auto. Qed.

Lemma Forall2_flat_map {A B A' B'} {f : A -> list A'} {g : B -> list B'} {R : A -> B -> Prop}
  {S : A' -> B' -> Prop} {l l'} :
  Forall2 R l l' -> (forall a b, R a b -> Forall2 S (f a) (g b)) -> Forall2 S (flat_map f l) (flat_map g l').
Proof. intros HR H. induction HR; cbn [flat_map]; [constructor|]. apply Forall2_app; auto. Qed.

Lemma Forall2_list_prod {A B A' B'} {R : A -> B -> Prop} {S : A' -> B' -> Prop} {T : A * A' -> B * B' -> Prop}
  {l l' m m'} :
  Forall2 R l l' -> Forall2 S m m' -> (forall a b c d, R a b -> S c d -> T (a, c) (b, d)) ->
  Forall2 T (list_prod l m) (list_prod l' m').
Proof.
  intros HR HS HT. induction HR as [|a b l l' Hab _ IH]; cbn [list_prod]; [constructor|].
  apply Forall2_app; [|exact IH]. apply (Forall2_map HS). intros c d. apply HT, Hab.
Qed.

Lemma Forall2_combine {A B A' B'} {R : A -> B -> Prop} {S : A' -> B' -> Prop} {T : A * A' -> B * B' -> Prop}
  {l l' m m'} :
  Forall2 R l l' -> Forall2 S m m' -> (forall a b c d, R a b -> S c d -> T (a, c) (b, d)) ->
  Forall2 T (combine l m) (combine l' m').
Proof.
  intros HR HS HT. revert m m' HS.
  induction HR; intros m m' [|c d k k' Hcd HS]; cbn [combine]; constructor; auto.
Qed.

Definition reads {I A} (f : I -> option A) : list I -> list A -> Prop := Forall2 (fun i a => f i = Some a).

Lemma sequence_reads {I A} {f : I -> option A} {ix X} : reads f ix X -> sequence (map f ix) = Some X.
Proof. induction 1 as [|i a ix X Hi _ IH]; cbn [map sequence]; [reflexivity|]. now rewrite Hi, IH. Qed.

Lemma reads_nth_error {A} (xs : list A) : reads (nth_error xs) (seq 0 (List.length xs)) xs.
Proof.
  induction xs as [|a xs IH]; constructor; [reflexivity|].
  rewrite <- seq_shift. apply Forall2_map_l. exact IH.
Qed.

Lemma elements_leaf n z : elements_at_depth n (Leaf z) = [Leaf z].
Proof. destruct n; reflexivity. Qed.

Lemma flatten_spec n : forall l, flatten n l = elements_at_depth n (Node l).
Proof.
  induction n as [|n IH]; intros l; [reflexivity|].
  cbn [flatten elements_at_depth]. apply flat_map_ext. intros [z|ch].
  - now rewrite elements_leaf.
  - apply IH.
Qed.

Lemma rectangular_node n v : rectangular (S n) v -> exists l, v = Node l.
Proof. destruct v as [z|l]; cbn; [tauto| now exists l]. Qed.

Lemma rectangularb_spec n : forall v, rectangularb n v = true <-> rectangular n v.
Proof.
  induction n as [|n IH]; intros v; cbn [rectangularb rectangular]; [tauto|].
  destruct v as [z|l]; [split; [discriminate|tauto]|].
  apply andb_iff; [apply forallb_Forall, IH| apply (same_as_head_spec (dims n) _ nat_list_eqb_eq)].
Qed.

Lemma input_shape_S l c : input_shape l (S c) = shape_rec c l.
Proof. unfold input_shape. now rewrite Nat.sub_succ, Nat.sub_0_r. Qed.

Definition all_shape (f : list value -> list nat) (s : list nat) (l : list value) : Prop :=
  Forall (fun v => exists ch, v = Node ch /\ f ch = s) l.

Lemma scan_Some_intro f s l : all_shape f s l -> scan f (Some s) l = Some s.
Proof.
  induction 1 as [|v l [ch [-> E]] _ IH]; [reflexivity|].
  cbn [scan]. rewrite E. now rewrite (proj2 (nat_list_eqb_eq s s) eq_refl).
Qed.

Lemma scan_inv f l : forall o s, scan f o l = Some s ->
  all_shape f s l /\ match o with Some s0 => s0 = s | None => True end.
Proof.
  induction l as [|[z|ch] l IH]; cbn [scan]; intros o s H.
  - subst o. split; [constructor|reflexivity].
  - discriminate.
  - destruct o as [s0|].
    + destruct (list_eqb Nat.eqb s0 (f ch)) eqn:E; [|discriminate]. apply nat_list_eqb_eq in E.
      destruct (IH _ _ H) as [A ->]. split; [constructor; [exists ch; auto|exact A]|reflexivity].
    + destruct (IH _ _ H) as [A E]. split; [constructor; [exists ch; auto|exact A]|exact I].
Qed.

Lemma shape_rec_rect c : forall l, rectangular (S c) (Node l) -> shape_rec c l = dims (S c) (Node l).
Proof.
  induction c as [|c IH]; intros l R.
  - cbn. destruct l; reflexivity.
  - destruct R as [RF RD]. cbn [shape_rec]. destruct l as [|v r]; [reflexivity|].
    assert (A : all_shape (shape_rec c) (dims (S c) v) (v :: r)).
    { rewrite Forall_forall in RF. apply Forall_forall. intros v' Hv'.
      destruct (rectangular_node c v' (RF v' Hv')) as [ch ->]. exists ch. split; [reflexivity|].
      rewrite (IH ch (RF _ Hv')). apply RD; [exact Hv'| left; reflexivity]. }
    inversion A as [|? ? [ch [-> E]] Ar]; subst.
    cbn [scan]. now rewrite E, (scan_Some_intro _ _ _ Ar).
Qed.

Lemma input_shape_rect [n l] :
  1 <= n -> rectangular n (Node l) -> input_shape l n = dims n (Node l).
Proof. intros Hn R. destruct n as [|c]; [lia|]. rewrite input_shape_S. now apply shape_rec_rect. Qed.

(* for every value, rectangular or not: this is what the repair of F04 (the fallback branch of shape_rec) buys *)
Lemma prod_shape_rec c : forall l, prod (shape_rec c l) = List.length (elements_at_depth (S c) (Node l)).
Proof.
  induction c as [|c IH]; intros l; cbn [shape_rec elements_at_depth].
  - rewrite (length_flat_map_const _ 1 l); [cbn; lia|].
    apply Forall_forall. intros [z|ch] _; reflexivity.
  - destruct (scan (shape_rec c) None l) as [s|] eqn:E.
    + rewrite (length_flat_map_const _ (prod s) l); [reflexivity|].
      apply scan_inv in E as [E _]. refine (Forall_impl _ _ E).
      intros v [ch [-> <-]]. symmetry. apply IH.
    + rewrite flatten_spec. cbn [prod fold_right elements_at_depth]. lia.
Qed.

Lemma prod_dims n : forall v, rectangular n v -> prod (dims n v) = List.length (elements_at_depth n v).
Proof.
  destruct n as [|c]; intros v R; [reflexivity|].
  destruct (rectangular_node c v R) as [l ->]. rewrite <- (shape_rec_rect c l R). apply prod_shape_rec.
Qed.

Lemma prod_input_shape [n l] :
  1 <= n -> prod (input_shape l n) = List.length (elements_at_depth n (Node l)).
Proof. intros Hn. destruct n as [|c]; [lia|]. rewrite input_shape_S. apply prod_shape_rec. Qed.

Lemma get_all cd l :
  1 <= ndim_shape cd ->
  reads (get_elem cd l) (single_ind cd l) (elements_at_depth (ndim_shape cd) (Node l)).
Proof.
  intros Hn. unfold get_elem, single_ind, range.
  assert (E : ndim_flat cd l = ndim_shape cd) by (destruct cd; reflexivity).
  rewrite E, flatten_spec, (prod_input_shape Hn). apply reads_nth_error.
Qed.

Lemma single_ind_length cd l :
  1 <= ndim_shape cd -> List.length (single_ind cd l) = List.length (elements_at_depth (ndim_shape cd) (Node l)).
Proof. intros Hn. unfold single_ind, range. now rewrite seq_length, (prod_input_shape Hn). Qed.

Lemma split1_full cd l :
  1 <= ndim_shape cd -> split1 cd l = Jobs (elements_at_depth (ndim_shape cd) (Node l)).
Proof. intros Hn. unfold split1. now rewrite (sequence_reads (get_all cd l Hn)). Qed.

Lemma split1_default l : split1 None l = split1 (Some 1) l.
Proof. reflexivity. Qed.

Lemma get_pair_some cdx x cdy y i a j b :
  get_elem cdx x i = Some a -> get_elem cdy y j = Some b -> get_pair cdx x cdy y (i, j) = Some (a, b).
Proof. unfold get_pair. cbn [fst snd]. now intros -> ->. Qed.

Lemma split2_inner_eq cdx x cdy y :
  1 <= ndim_shape cdx -> 1 <= ndim_shape cdy ->
  split2 Inner cdx x cdy y =
  if list_eqb Nat.eqb (input_shape x (ndim_shape cdx)) (input_shape y (ndim_shape cdy))
  then Jobs (combine (elements_at_depth (ndim_shape cdx) (Node x)) (elements_at_depth (ndim_shape cdy) (Node y)))
  else ShapeError.
Proof.
  intros Hx Hy. unfold split2, pair_ind. fold (single_ind cdx x) (single_ind cdy y).
  destruct (list_eqb _ _ _); [|reflexivity].
  now rewrite (sequence_reads (Forall2_combine (get_all cdx x Hx) (get_all cdy y Hy) (get_pair_some cdx x cdy y))).
Qed.

(* the hypotheses of C04_inner_rect (rectangular operands with equal dims) are met non-trivially (square), and the
   value that lost an element before the repair of F04 (witness) yields all three *)
Definition witness : list value := [Node [Leaf 1; Leaf 2]; Node [Leaf 3]]%Z.
Example witness_ragged : rectangularb 2 (Node witness) = false.
Proof. reflexivity. Qed.
Example witness_all : split1 (Some 2) witness = Jobs [Leaf 1; Leaf 2; Leaf 3]%Z.
Proof. vm_compute. reflexivity. Qed.
Definition square : list value := [Node [Leaf 1; Leaf 2]; Node [Leaf 3; Leaf 4]]%Z.
Example square_rect : rectangular 2 (Node square) /\ dims 2 (Node square) = [2; 2].
Proof. split; [apply (rectangularb_spec 2); reflexivity| reflexivity]. Qed.
Example square_inner :
  split2 Inner (Some 2) square (Some 2) square =
  Jobs [(Leaf 1, Leaf 1); (Leaf 2, Leaf 2); (Leaf 3, Leaf 3); (Leaf 4, Leaf 4)]%Z.
Proof. vm_compute. reflexivity. Qed.
Example square_inner_plain_rejected :
  split2 Inner (Some 2) square None [Leaf 5; Leaf 6; Leaf 7; Leaf 8]%Z = ShapeError.
Proof. vm_compute. reflexivity. Qed.

Lemma value_eqb_node l : forall m, value_eqb (Node l) (Node m) = list_eqb value_eqb l m.
Proof.
  induction l as [|x l IH]; intros [|y m]; try reflexivity.
  cbn [list_eqb]. rewrite <- IH. reflexivity.
Qed.

Lemma value_eqb_eq : forall a b, value_eqb a b = true <-> a = b.
Proof.
  (* value is nested through lists: IH is applied to members of l only, inside the list induction *)
  fix IH 1. intros [z|l] [z'|m]; try (split; discriminate).
  - cbn. rewrite Z.eqb_eq. split; congruence.
  - rewrite value_eqb_node. transitivity (l = m); [|split; congruence].
    revert m. induction l as [|x l IHl]; intros [|y m]; cbn [list_eqb]; try (split; (reflexivity || discriminate)).
    rewrite andb_true_iff, IH, IHl. split; [intros [-> ->]; reflexivity| intros [= -> ->]; auto].
Qed.

Lemma pair_eqb'_eq a b : pair_eqb' a b = true <-> a = b.
Proof. exact (pair_eqb_ok value_eqb_eq value_eqb_eq a b). Qed.

Lemma outcome_eqb_eq {A} (eqb : A -> A -> bool) (H : forall x y, eqb x y = true <-> x = y) :
  forall a b : outcome A, outcome_eqb eqb a b = true <-> a = b.
Proof.
  intros [l| |] [m| |]; cbn [outcome_eqb]; try (split; [discriminate|discriminate]); try tauto.
  rewrite (list_eqb_spec eqb H). split; [now intros ->| now intros [= ->]].
Qed.

Lemma rect_levels k : forall n v,
  rectangular n v -> k < n -> Forall (node_len (nth k (dims n v) 0)) (elements_at_depth k v).
Proof.
  induction k as [|k IH]; intros n v R Hk; (destruct n as [|n]; [lia|]);
    (destruct v as [z|l]; [destruct R|]); destruct R as [RF RD].
  - cbn. constructor; [|constructor]. exists l. auto.
  - cbn [elements_at_depth dims nth].
    destruct l as [|c0 r]; [constructor|].
    apply Forall_flat_map. rewrite Forall_forall in *. intros c Hc.
    rewrite <- (RD c c0 Hc (or_introl eq_refl)).
    apply IH; [apply RF, Hc| lia].
Qed.

(* the spec operand of a model field: its effective container dimension and its value as one list; field_ok: that
   dimension is >= 1, the range the theorems cover *)
Definition op_of (f : field) : operand := (ndim_shape (fst f), Node (snd f)).
Definition field_ok (f : field) : Prop := 1 <= ndim_shape (fst f).

Lemma get_tuple_cons f fs i a t q :
  get_elem (fst f) (snd f) i = Some a -> get_tuple fs t = Some q -> get_tuple (f :: fs) (i :: t) = Some (a :: q).
Proof. cbn [get_tuple]. now intros -> ->. Qed.

(* outer: the left fold of itertools.product enumerates the lexicographic product *)
Lemma fold_outer (Rs : list (list nat)) : forall acc,
  fold_left step_outer Rs acc = flat_map (fun t => map (app t) (prod_n Rs)) acc.
Proof.
  induction Rs as [|R Rs IH]; intros acc.
  - cbn [fold_left prod_n map]. induction acc as [|t acc IHa]; [reflexivity|].
    cbn [flat_map]. rewrite app_nil_r. cbn. now rewrite <- IHa.
  - cbn [fold_left]. rewrite IH. unfold step_outer. rewrite flat_map_flat_map.
    apply flat_map_ext. intros t. cbn [prod_n].
    rewrite flat_map_map, map_flat_map. apply flat_map_ext. intros j.
    rewrite map_map. apply map_ext. intros r. now rewrite <- app_assoc.
Qed.

(* [i] ++ r computes to i :: r, so the fold from the singletons is prod_n's first step *)
Lemma nary_ind_outer f0 fs : nary_ind Outer f0 fs = Some (prod_n (map field_ind (f0 :: fs))).
Proof. unfold nary_ind. rewrite fold_outer, flat_map_map. reflexivity. Qed.

Lemma get_tuple_prod fs :
  Forall field_ok fs ->
  reads (get_tuple fs) (prod_n (map field_ind fs)) (prod_n (map (fun f => op_elements (op_of f)) fs)).
Proof.
  induction 1 as [|f fs Hf _ IH]; cbn [map prod_n]; [repeat constructor|].
  apply (Forall2_flat_map (get_all (fst f) (snd f) Hf)). intros i a Hi.
  apply (Forall2_map IH). intros t q. now apply get_tuple_cons.
Qed.

(* one zip step: (t ++ [j]) ++ z = t ++ (j :: z) *)
Lemma step_inner_zip (acc : list (list nat)) : forall (r : list nat) (zs : list (list nat)),
  map (fun p => fst p ++ snd p) (combine (step_inner acc r) zs) =
  map (fun p => fst p ++ snd p) (combine acc (map (fun p => fst p :: snd p) (combine r zs))).
Proof.
  unfold step_inner. induction acc as [|t acc IH]; intros [|j r] [|z zs]; try reflexivity.
  cbn [combine map fst snd]. rewrite IH, <- app_assoc. reflexivity.
Qed.

Lemma combine_map_r {A B C} (f : B -> C) (a : list A) : forall b,
  combine a (map f b) = map (fun p => (fst p, f (snd p))) (combine a b).
Proof. induction a as [|x a IH]; intros [|y b]; try reflexivity. cbn. now rewrite IH. Qed.

Lemma combine_map_l {A B C} (f : A -> C) (a : list A) : forall (b : list B),
  combine (map f a) b = map (fun p => (f (fst p), snd p)) (combine a b).
Proof. induction a as [|x a IH]; intros [|y b]; try reflexivity. cbn. now rewrite IH. Qed.

Lemma zip_n_cons {A} (x y : list A) r :
  zip_n (x :: y :: r) = map (fun p => fst p :: snd p) (combine x (zip_n (y :: r))).
Proof. reflexivity. Qed.

(* inner: the left fold of zip pairs position by position *)
Lemma fold_inner (Rs : list (list nat)) : forall R acc,
  fold_left step_inner (R :: Rs) acc = map (fun p => fst p ++ snd p) (combine acc (zip_n (R :: Rs))).
Proof.
  induction Rs as [|R' Rs IH]; intros R acc.
  - cbn [fold_left zip_n]. unfold step_inner. rewrite combine_map_r, map_map. reflexivity.
  - change (fold_left step_inner (R :: R' :: Rs) acc)
      with (fold_left step_inner (R' :: Rs) (step_inner acc R)).
    rewrite IH. apply step_inner_zip.
Qed.

Lemma nary_ind_inner f0 fs :
  nary_ind Inner f0 fs =
  if chain_eq (field_shape f0) (map field_shape fs) then Some (zip_n (map field_ind (f0 :: fs))) else None.
Proof.
  unfold nary_ind. destruct (chain_eq _ _); [f_equal|reflexivity].
  destruct fs as [|f fs]; [reflexivity|]. cbn [map]. rewrite fold_inner, combine_map_l, map_map.
  (* [i] ++ r computes to i :: r: zip_n's first step *)
  reflexivity.
Qed.

Lemma get_tuple_zip fs :
  Forall field_ok fs ->
  reads (get_tuple fs) (zip_n (map field_ind fs)) (zip_n (map (fun f => op_elements (op_of f)) fs)).
Proof.
  induction 1 as [|f fs Hf Hfs IH]; [constructor|].
  pose proof (get_all (fst f) (snd f) Hf : reads _ (field_ind f) (op_elements (op_of f))) as HX.
  destruct fs as [|f' fs]; cbn [map] in *.
  - apply (Forall2_map HX). intros i a Hi. now apply get_tuple_cons.
  - rewrite !zip_n_cons.
    apply (Forall2_map (Forall2_combine
             (T := fun p q => get_tuple (f :: f' :: fs) (fst p :: snd p) = Some (fst q :: snd q))
             HX IH (get_tuple_cons f (f' :: fs)))).
    auto.
Qed.

Lemma chain_eq_spec {A} (f : A -> list nat) r : forall x,
  chain_eq (f x) (map f r) = true <-> (forall a b, In a (x :: r) -> In b (x :: r) -> f a = f b).
Proof.
  induction r as [|y r IH]; intros x; cbn [chain_eq map].
  - split; [intros _ a b [<-|[]] [<-|[]]|]; reflexivity.
  - rewrite andb_true_iff, nat_list_eqb_eq, IH. split.
    + intros [E H]. apply (const_all_equal f _ (f y)).
      intros a [<-|Ha]; [exact E|]. apply H; [exact Ha|left; reflexivity].
    + intros H. split; [apply H; cbn; auto|]. intros a b Ha Hb. apply H; right; assumption.
Qed.

Lemma splitN_inner f0 fs :
  Forall field_ok (f0 :: fs) ->
  inner_n_ok (map op_of (f0 :: fs)) (splitN Inner f0 fs).
Proof.
  intros HF. pose proof (proj1 (Forall_forall _ _) HF) as H. unfold splitN. rewrite nary_ind_inner.
  destruct (chain_eq (field_shape f0) (map field_shape fs)) eqn:E.
  - rewrite (sequence_reads (get_tuple_zip (f0 :: fs) HF)).
    cbn [inner_n_ok]. rewrite map_map. split; [|reflexivity].
    intros e e' He He'. apply in_map_iff in He as [f [<- Hf]]. apply in_map_iff in He' as [g [<- Hg]].
    transitivity (prod (field_shape f)); [symmetry; exact (prod_input_shape (H f Hf))|].
    rewrite (proj1 (chain_eq_spec field_shape fs f0) E f g Hf Hg). exact (prod_input_shape (H g Hg)).
  - intros [R D]. rewrite Forall_forall in R.
    rewrite (proj2 (chain_eq_spec field_shape fs f0)) in E; [discriminate|].
    intros f g Hf Hg. pose proof (in_map op_of _ _ Hf) as Pf. pose proof (in_map op_of _ _ Hg) as Pg.
    unfold field_shape. rewrite (input_shape_rect (H f Hf) (R _ Pf)), (input_shape_rect (H g Hg) (R _ Pg)).
    exact (D _ _ Pf Pg).
Qed.

(* non-vacuity: three fields, the middle one nested and ragged, in both kinds of splitter *)
Definition ex_fields : field * list field :=
  ((None, [Leaf 10; Leaf 11; Leaf 12]%Z), [(Some 2, witness); (None, [Leaf 20; Leaf 21; Leaf 22]%Z)]).
Example ex_fields_ok : Forall field_ok (fst ex_fields :: snd ex_fields).
Proof. repeat constructor. Qed.
Example ex_inner_n :
  splitN Inner (fst ex_fields) (snd ex_fields) =
  Jobs [[Leaf 10; Leaf 1; Leaf 20]; [Leaf 11; Leaf 2; Leaf 21]; [Leaf 12; Leaf 3; Leaf 22]]%Z.
Proof. vm_compute. reflexivity. Qed.
Example ex_outer_n :
  exists l, splitN Outer (fst ex_fields) (snd ex_fields) = Jobs l /\ List.length l = 27 /\
            nth_error l 4 = Some [Leaf 10; Leaf 2; Leaf 21]%Z.
Proof. eexists. split; [vm_compute; reflexivity|]. split; reflexivity. Qed.
Example ex_inner_n_rejected :
  splitN Inner (None, [Leaf 10; Leaf 11; Leaf 12; Leaf 13]%Z) [(Some 2, square); (None, [Leaf 1; Leaf 2; Leaf 3; Leaf 4]%Z)]
  = ShapeError.
Proof. vm_compute. reflexivity. Qed.

Lemma telements_leaf n z : telements n (TLeaf z) = [TLeaf z].
Proof. destruct n; reflexivity. Qed.

Lemma tflatten_spec d : forall v, tflatten d v = telements d v.
Proof.
  induction d as [|d IH]; intros v; [reflexivity|].
  assert (E : forall val, match val with TLeaf _ => [val] | _ => tflatten d val end = telements d val).
  { intros [z|l|l]; [now rewrite telements_leaf| apply IH| apply IH]. }
  destruct v as [z|l|l]; cbn [tflatten telements]; [reflexivity| |]; apply flat_map_ext; exact E.
Qed.

Definition tall_shape (f : list tvalue -> list nat) (s : list nat) (l : list tvalue) : Prop :=
  Forall (fun v => exists ch, v = TList ch /\ f ch = s) l.

Lemma tscan_inv f l : forall o s, tscan f o l = Some s ->
  tall_shape f s l /\ match o with Some s0 => s0 = s | None => True end.
Proof.
  induction l as [|[z|ch|ch] l IH]; cbn [tscan]; intros o s H.
  - subst o. split; [constructor|reflexivity].
  - discriminate.
  - destruct o as [s0|].
    + destruct (list_eqb Nat.eqb s0 (f ch)) eqn:E; [|discriminate]. apply nat_list_eqb_eq in E.
      destruct (IH _ _ H) as [A ->]. split; [constructor; [exists ch; auto|exact A]|reflexivity].
    + destruct (IH _ _ H) as [A E]. split; [constructor; [exists ch; auto|exact A]|exact I].
  - discriminate.
Qed.

Lemma tprod_shape_rec c : forall l, prod (tshape_rec c l) = List.length (telements (S c) (TList l)).
Proof.
  induction c as [|c IH]; intros l; cbn [tshape_rec telements].
  - rewrite (length_flat_map_const _ 1 l); [cbn; lia|].
    apply Forall_forall. intros [z|ch|ch] _; reflexivity.
  - destruct (tscan (tshape_rec c) None l) as [s|] eqn:E.
    + rewrite (length_flat_map_const _ (prod s) l); [reflexivity|].
      apply tscan_inv in E as [E _]. refine (Forall_impl _ _ E).
      intros v [ch [-> <-]]. symmetry. apply IH.
    + rewrite tflatten_spec. cbn [prod fold_right telements]. lia.
Qed.

(* tuples are opened by flatten but not by input_shape: a rectangular nesting made of tuples has the flat
   shape (count,), not its dimension vector — it only matters for the shape test of inner splitters *)
Example tuple_jobs :
  tsplit1 2 [TTup [TLeaf 1; TLeaf 2]; TTup [TLeaf 3]; TList [TLeaf 4; TLeaf 5]]%Z =
  Jobs [TLeaf 1; TLeaf 2; TLeaf 3; TLeaf 4; TLeaf 5]%Z.
Proof. vm_compute. reflexivity. Qed.
Example tuple_shape_is_flat :
  tinput_shape [TTup [TLeaf 1; TLeaf 2]; TTup [TLeaf 3; TLeaf 4]]%Z 2 = [4] /\
  tinput_shape [TList [TLeaf 1; TLeaf 2]; TList [TLeaf 3; TLeaf 4]]%Z 2 = [2; 2].
Proof. split; reflexivity. Qed.
