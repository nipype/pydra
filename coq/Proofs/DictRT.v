(* Proofs/DictRT.v — C32: a field written without its defaults is restored to [restored r], equal to r attribute by attribute
   in Python's == (restore_restored); on such fields the second stage of structure() (positions, outarg objects shared
   between inputs and outputs) changes nothing, so structure (unstructure c) is the same definition as c. *)
From Pydra Require Import Base.Prelude Model.DictRT Spec.DictRT Proofs.ListFacts.
Local Open Scope string_scope.

Lemma seq_refl a : seq a a = true.
Proof.
  destruct a; cbn; auto using Bool.eqb_reflx, Z.eqb_refl, String.eqb_refl.
Qed.

Lemma seq_sym a b : seq a b = seq b a.
Proof.
  destruct a, b; cbn; auto using Z.eqb_sym, String.eqb_sym.
  destruct b, b0; reflexivity.
Qed.

Lemma list_eqb_sym {A} (e : A -> A -> bool) (S : forall x y, e x y = e y x) a :
  forall b, list_eqb e a b = list_eqb e b a.
Proof. induction a as [|x a IH]; destruct b; cbn; auto. now rewrite S, IH. Qed.

Lemma subset_refl {A} (e : A -> A -> bool) (R : forall x, e x x = true) l :
  forallb (fun x => existsb (e x) l) l = true.
Proof. apply forallb_forall. intros x Hx. apply existsb_exists. exists x. auto. Qed.

Lemma aeq_refl v : aeq v v = true.
Proof.
  destruct v; cbn.
  - apply seq_refl.
  - apply list_eqb_refl, seq_refl.
  - apply list_eqb_refl, seq_refl.
  - unfold sub_s. now rewrite (subset_refl seq seq_refl).
  - unfold sub_kv. rewrite subset_refl; [reflexivity|].
    intros p. unfold kv_eq. now rewrite String.eqb_refl, seq_refl.
  - apply list_eqb_refl. intros l'. apply list_eqb_refl. intros [n o]. unfold req_eq. cbn [fst snd].
    rewrite String.eqb_refl. destruct o; cbn; [apply list_eqb_refl, seq_refl|reflexivity].
Qed.

Lemma aeq_sym a b : aeq a b = aeq b a.
Proof.
  destruct a, b; cbn; auto.
  - apply seq_sym.
  - apply list_eqb_sym, seq_sym.
  - apply list_eqb_sym, seq_sym.
  - apply andb_comm.
  - apply andb_comm.
  - apply list_eqb_sym. intros x y. apply list_eqb_sym. intros [n o] [n' o']. unfold req_eq. cbn [fst snd].
    rewrite String.eqb_sym. f_equal. destruct o, o'; cbn; auto. apply list_eqb_sym, seq_sym.
Qed.

Lemma filter_map_comm {A} (p : A -> bool) (g : A -> A) (H : forall x, p (g x) = p x) l :
  filter p (map g l) = map g (filter p l).
Proof. induction l as [|x l IH]; [reflexivity|]. cbn [map filter]. rewrite H, IH. now destruct (p x). Qed.

Lemma map_id_in {A} (g : A -> A) l : (forall x, In x l -> g x = x) -> map g l = l.
Proof. intros H. rewrite <- (map_id l) at 2. now apply map_ext_in. Qed.

Lemma Forall2_map_self {A} (P : A -> A -> Prop) (g : A -> A) l :
  (forall x, In x l -> P (g x) x) -> Forall2 P (map g l) l.
Proof.
  induction l as [|x l IH]; intros H; cbn [map]; constructor; [apply H; now left|].
  apply IH. intros y Hy. apply H. now right.
Qed.

Lemma find_key {A} (key : A -> string) l x :
  NoDup (map key l) -> In x l -> find (fun y => key y =? key x) l = Some x.
Proof.
  induction l as [|y l IH]; [intros _ []|]. cbn. intros ND [->|Hx].
  - now rewrite String.eqb_refl.
  - inversion ND as [|? ? Hy ND']; subst. destruct (key y =? key x) eqn:E; [|now apply IH].
    apply String.eqb_eq in E. destruct Hy. rewrite E. now apply in_map.
Qed.

Lemma find_key_none {A} (key : A -> string) l k :
  ~ In k (map key l) -> find (fun y => key y =? k) l = None.
Proof.
  intros H. destruct (find _ l) as [x|] eqn:F; [|reflexivity].
  apply find_some in F as [Hx E]. apply String.eqb_eq in E. destruct H. rewrite <- E. now apply in_map.
Qed.

Lemma lookup_cons {A} k (p : string * A) l :
  lookup k (p :: l) = if String.eqb (fst p) k then Some (snd p) else lookup k l.
Proof. unfold lookup. cbn. destruct (fst p =? k); reflexivity. Qed.

Lemma lookup_none {A} k (l : list (string * A)) : lookup k l = None <-> ~ In k (map fst l).
Proof.
  unfold lookup. split.
  - intros L I. apply in_map_iff in I as [p [E I]]. destruct (find _ l) eqn:F; [discriminate|].
    apply (find_none _ _ F) in I. rewrite E, String.eqb_refl in I. discriminate.
  - intros H. now rewrite (find_key_none fst l k H).
Qed.

Lemma lookup_in {A} k (v : A) l : NoDup (map fst l) -> In (k, v) l -> lookup k l = Some v.
Proof. intros ND H. unfold lookup. now rewrite (find_key fst l (k, v) ND H : find (fun p => fst p =? k) l = _). Qed.

Lemma has_key_lookup {A} k (l : list (string * A)) :
  has_key k l = match lookup k l with Some _ => true | None => false end.
Proof.
  induction l as [|p l IH]; [reflexivity|]. rewrite lookup_cons. cbn. now destruct (fst p =? k).
Qed.

Section Filter.
  Context {A B : Type} (drop : string -> A -> bool) (g : A -> B).
  (* Model.unstructure_field with its default test and its serializer as variables *)
  Definition kept (l : list (string * A)) : list (string * B) :=
    flat_map (fun p => if drop (fst p) (snd p) then [] else [(fst p, g (snd p))]) l.

  Lemma kept_keys l k : In k (map fst (kept l)) -> In k (map fst l).
  Proof.
    induction l as [|p l IH]; cbn; [auto|]. destruct (drop (fst p) (snd p)); cbn.
    - intros H. right. now apply IH.
    - intros [H|H]; [now left|right; now apply IH].
  Qed.

  Lemma lookup_kept l k : NoDup (map fst l) ->
    lookup k (kept l) = match lookup k l with
                        | Some v => if drop k v then None else Some (g v)
                        | None => None
                        end.
  Proof.
    induction l as [|p l IH]; [reflexivity|]. intros ND. inversion ND as [|? ? Hp ND']; subst.
    rewrite lookup_cons. unfold kept in *. cbn [flat_map].
    destruct (fst p =? k) eqn:E.
    - apply String.eqb_eq in E. subst k. destruct (drop (fst p) (snd p)) eqn:D; cbn [app].
      + apply lookup_none. intros I. apply Hp. now apply kept_keys.
      + rewrite lookup_cons. cbn [fst snd]. now rewrite String.eqb_refl.
    - destruct (drop (fst p) (snd p)); cbn [app]; [now apply IH|].
      rewrite lookup_cons. cbn [fst]. rewrite E. now apply IH.
  Qed.
End Filter.

Lemma all_some_map {A B} (f : A -> option B) (g : A -> B) l :
  (forall x, In x l -> f x = Some (g x)) -> all_some (map f l) = Some (map g l).
Proof.
  induction l as [|x l IH]; [reflexivity|]. intros H. cbn.
  rewrite (H x (or_introl eq_refl)), IH; [reflexivity|]. intros y Hy. apply H. now right.
Qed.

Lemma list_eqb_Forall2 {A} (e : A -> A -> bool) (P : A -> A -> Prop) (H : forall x y, e x y = true -> P x y) a :
  forall b, list_eqb e a b = true -> Forall2 P a b.
Proof.
  induction a as [|x a IH]; destruct b as [|y b]; cbn; try discriminate; [constructor|].
  rewrite andb_true_iff. intros [E L]. constructor; auto.
Qed.

Lemma scalar_eqb_spec a b : scalar_eqb a b = true <-> a = b.
Proof.
  split.
  - destruct a, b; cbn; try discriminate; try reflexivity; intros E; f_equal.
    + now apply Bool.eqb_prop.
    + now apply Z.eqb_eq.
    + now apply String.eqb_eq.
    + now apply String.eqb_eq.
  - intros <-. destruct a; cbn; auto using Bool.eqb_reflx, Z.eqb_refl, String.eqb_refl.
Qed.

Lemma aval_eqb_spec a b : aval_eqb a b = true <-> a = b.
Proof.
  (* kv_eqb and req_eqb unfold to the conjunction of component tests that pair_eqb_ok speaks of *)
  pose proof (pair_eqb_ok String.eqb_eq scalar_eqb_spec) as KV.
  pose proof (pair_eqb_ok String.eqb_eq (option_eqb_spec _ (list_eqb_spec _ scalar_eqb_spec))) as RQ.
  destruct a, b; cbn; try (split; discriminate).
  - rewrite scalar_eqb_spec. split; congruence.
  - rewrite (list_eqb_spec _ scalar_eqb_spec). split; congruence.
  - rewrite (list_eqb_spec _ scalar_eqb_spec). split; congruence.
  - rewrite (list_eqb_spec _ scalar_eqb_spec). split; congruence.
  - rewrite (list_eqb_spec kv_eqb KV). split; congruence.
  - rewrite (list_eqb_spec _ (list_eqb_spec req_eqb RQ)). split; congruence.
Qed.

Lemma frec_eqb_spec a b : frec_eqb a b = true <-> a = b.
Proof.
  destruct a as [ca na va], b as [cb nb vb]. unfold frec_eqb. cbn [fcls fname fvals].
  pose proof (list_eqb_spec _ (pair_eqb_ok String.eqb_eq aval_eqb_spec) va vb) as V. split.
  - intros E. apply andb_prop in E as [E Ev]. apply andb_prop in E as [C N].
    apply String.eqb_eq in N. apply V in Ev. subst. now destruct ca, cb.
  - intros [= -> -> ->]. rewrite String.eqb_refl, (proj2 V eq_refl). now destruct cb.
Qed.

Lemma nodupb_NoDup l : nodupb l = true <-> NoDup l.
Proof. exact (nodupb_of_NoDup String.eqb String.eqb_eq l). Qed.

Lemma Forall2_by_keys {P : string * aval -> string * aval -> Prop} (F : attr -> string * aval) s :
  forall l, map fst l = map aname s ->
    (forall x v, In x s -> In (aname x, v) l -> P (F x) (aname x, v)) ->
    Forall2 P (map F s) l.
Proof.
  induction s as [|x s IH]; intros [|[k v] l] E H; try discriminate; cbn; [constructor|].
  cbn in E. inversion E as [[E1 E2]]. subst k. constructor.
  - apply H; now left.
  - apply IH; [exact E2|]. intros y w Hy Hw. apply H; now right.
Qed.

Section Field.
  Variable sch : fclass -> schema.
  Variable type_shape : string -> shape.

  Lemma has_attr c a : existsb (fun x => aname x =? a) (sch c) = true <-> In a (map aname (sch c)).
  Proof.
    rewrite existsb_exists, in_map_iff. split.
    - intros [x [Hx E]]. exists x. split; [now apply String.eqb_eq|exact Hx].
    - intros [x [E Hx]]. exists x. split; [exact Hx|now apply String.eqb_eq].
  Qed.

  Lemma shape_of_type_aeq v d : aeq v d = true ->
    shape_of_type type_shape (Some d) = shape_of_type type_shape (Some v).
  Proof.
    destruct v as [s| | | | |], d as [s'| | | | |]; cbn; try discriminate; try reflexivity.
    destruct s, s'; cbn; try discriminate; try reflexivity.
    intros E. apply String.eqb_eq in E. now subst.
  Qed.

  Lemma default_of_notin c a : ~ In a (map aname (sch c)) -> default_of sch c a = None.
  Proof. intros H. unfold default_of. now rewrite (find_key_none aname (sch c) a H). Qed.

  Definition complete (r : frec) : Prop := map fst (fvals r) = map aname (sch (fcls r)).

  Lemma completeb_complete r : completeb sch r = true -> complete r.
  Proof. unfold completeb, complete. apply list_eqb_spec. intros x y. apply String.eqb_eq. Qed.

  Lemma unstructure_field_kept r : unstructure_field sch r = kept (is_default sch (fcls r)) ser (fvals r).
  Proof. reflexivity. Qed.

  Lemma lookup_unstructure r k : NoDup (map aname (sch (fcls r))) -> complete r ->
    lookup k (unstructure_field sch r) = match lookup k (fvals r) with
                                         | Some v => if is_default sch (fcls r) k v then None else Some (ser v)
                                         | None => None
                                         end.
  Proof. intros ND C. rewrite unstructure_field_kept. apply lookup_kept. now rewrite C. Qed.

  Lemma dict_shape_unstructure r : NoDup (map aname (sch (fcls r))) -> complete r ->
    dict_shape sch type_shape (fcls r) (unstructure_field sch r) = field_shape type_shape r.
  Proof.
    intros ND C. unfold dict_shape, field_shape. rewrite (lookup_unstructure r _ ND C).
    destruct (lookup "type" (fvals r)) as [v|] eqn:L.
    - destruct (is_default sch (fcls r) "type" v) eqn:D.
      + unfold is_default in D. destruct (default_of sch (fcls r) "type") as [d|]; [|discriminate].
        now apply shape_of_type_aeq.
      + destruct v; reflexivity.
    - rewrite default_of_notin; [reflexivity|]. rewrite <- C. now apply lookup_none.
  Qed.

  (* the field that comes back; [restore_restored] shows that the fallback is never taken *)
  Definition restored (r : frec) : frec :=
    match restore sch type_shape (fcls r) (fname r) (unstructure_field sch r) with Some r' => r' | None => r end.

  Lemma restored_name r : fname (restored r) = fname r.
  Proof. unfold restored, restore. now destruct (forallb _ _). Qed.

  Lemma restored_outarg r : is_outarg (restored r) = is_outarg r.
  Proof. unfold is_outarg, restored, restore. now destruct (forallb _ _). Qed.

  Theorem restore_restored r :
    NoDup (map aname (sch (fcls r))) -> complete r -> reconvertibleb sch type_shape r = true ->
    restore sch type_shape (fcls r) (fname r) (unstructure_field sch r) = Some (restored r) /\ field_equiv (restored r) r.
  Proof.
    intros ND C RC. unfold restored, restore.
    assert (K : forallb (fun p => existsb (fun x => aname x =? fst p) (sch (fcls r))) (unstructure_field sch r) = true).
    { apply forallb_forall. intros p Hp. apply has_attr. rewrite <- C.
      rewrite unstructure_field_kept in Hp. eapply kept_keys, in_map, Hp. }
    rewrite K. split; [reflexivity|].
    split; [reflexivity|]. split; [reflexivity|]. cbn [fvals].
    apply Forall2_by_keys; [exact C|]. intros x v Hx Hv. split; [reflexivity|]. cbn [fst snd].
    rewrite (dict_shape_unstructure r ND C), (lookup_unstructure r _ ND C).
    rewrite (lookup_in (aname x) v (fvals r)) by (rewrite ?C; auto).
    pose proof (find_key aname (sch (fcls r)) x ND Hx) as FA.
    destruct (is_default sch (fcls r) (aname x) v) eqn:D.
    - unfold is_default, default_of in D. rewrite FA in D. now rewrite aeq_sym.
    - unfold reconvertibleb in RC. rewrite forallb_forall in RC. specialize (RC (aname x, v) Hv). cbn [fst snd] in RC.
      rewrite D in RC. cbn [orb] in RC. unfold conv_of in RC. now rewrite FA in RC.
  Qed.

  Lemma out_class_unstructure r :
    NoDup (map aname (sch (fcls r))) -> complete r -> templatedb sch r = true -> fcls r <> CArg ->
    existsb (fun x => aname x =? "path_template") (sch COut) = false ->
    out_class (unstructure_field sch r) = fcls r.
  Proof.
    intros ND C T NA NT. unfold out_class. rewrite has_key_lookup, (lookup_unstructure r _ ND C).
    unfold templatedb in T. destruct (fcls r) eqn:K; [congruence| |].
    - rewrite (proj2 (lookup_none _ _)); [reflexivity|]. rewrite C, K. intros I. apply has_attr in I. congruence.
    - destruct (lookup "path_template" (fvals r)) as [v|]; [|discriminate].
      apply negb_true_iff in T. now rewrite T.
  Qed.
End Field.

Local Open Scope list_scope.

Lemma lookup_equiv k a b : Forall2 attr_equiv a b ->
  match lookup k a, lookup k b with
  | Some v, Some w => aeq v w = true
  | None, None => True
  | _, _ => False
  end.
Proof.
  induction 1 as [|p q a b [E V] F IH]; cbn; [exact I|].
  rewrite !lookup_cons, <- E. destruct (fst p =? k); [exact V|exact IH].
Qed.

Lemma position_is_none_equiv r' r : field_equiv r' r -> position_is_none r' = position_is_none r.
Proof.
  intros [_ [_ F]]. unfold position_is_none. pose proof (lookup_equiv "position" _ _ F) as L.
  destruct (lookup "position" (fvals r')) as [v|], (lookup "position" (fvals r)) as [w|]; try contradiction; [|reflexivity].
  destruct v as [s| | | | |], w as [s'| | | | |]; cbn in L; try discriminate; try reflexivity.
  destruct s, s'; cbn in L; try discriminate; reflexivity.
Qed.

Lemma xor_equiv_refl x : xor_equiv x x.
Proof. split; intros g Hg; exists g; split; auto; intros n; tauto. Qed.

Definition plain (c : taskcls) := filter (fun r => negb (is_outarg r)) (cinputs c).

Lemma outarg_finds_itself ins outs r :
  filter is_outarg ins = [] -> NoDup (map fname outs) -> In r outs -> is_outarg r = true ->
  find (fun q => fname q =? fname r) (filter is_outarg (ins ++ filter is_outarg outs)) = Some r.
Proof.
  intros NI ND Hr IO. rewrite filter_app, NI. cbn [app]. apply find_key.
  - now apply NoDup_map_filter, NoDup_map_filter.
  - apply filter_In. split; [|exact IO]. apply filter_In. now split.
Qed.

Section Class.
  Variable sch : fclass -> schema.
  Variable type_shape : string -> shape.
  Variable fresh_position : list frec -> frec -> aval.

  Lemma assign_positions_id l :
    (forall r, In r l -> position_is_none r = false) -> assign_positions fresh_position l = l.
  Proof. intros H. apply map_id_in. intros r Hr. now rewrite (H r Hr). Qed.

  Theorem structure_unstructure c :
    schema_okb sch = true -> wf_clsb sch c = true -> restorableb sch type_shape c = true ->
    exists c', structure sch type_shape fresh_position (unstructure sch c) = Some c' /\ same_definition c' c.
  Proof.
    intros SO WF RS.
    unfold schema_okb in SO. apply andb_prop in SO as [SO NT]. apply andb_prop in SO as [SO N3].
    apply andb_prop in SO as [N1 N2]. apply nodupb_NoDup in N1, N2, N3. apply negb_true_iff in NT.
    assert (ND : forall k, NoDup (map aname (sch k))) by (intros []; assumption).
    unfold wf_clsb in WF. fold (plain c) in WF.
    apply andb_prop in WF as [WF W7]. apply andb_prop in WF as [WF W6]. apply andb_prop in WF as [WF W5].
    apply andb_prop in WF as [WF W4]. apply andb_prop in WF as [WF W3]. apply andb_prop in WF as [W1 W2].
    apply (list_eqb_spec _ frec_eqb_spec) in W1. apply nodupb_NoDup in W4.
    rewrite forallb_forall in W2, W3, W5, W6, W7.
    unfold restorableb in RS. apply andb_prop in RS as [RS R3]. apply andb_prop in RS as [R1 R2].
    rewrite forallb_forall in R1, R2, R3.
    (* every field comes back, as [g] of itself *)
    set (g := restored sch type_shape).
    pose proof (fun r Hr => restore_restored sch type_shape r (ND _) (completeb_complete sch r (W5 r Hr)) (R1 r Hr)) as GI.
    pose proof (fun r Hr => restore_restored sch type_shape r (ND _) (completeb_complete sch r (W6 r Hr)) (R2 r Hr)) as GO.
    fold g in GI, GO.
    assert (PI : forall r, In r (plain c) -> In r (cinputs c) /\ fcls r = CArg).
    { intros r Hr. split; [apply filter_In in Hr; tauto|]. specialize (W2 r Hr). now destruct (fcls r). }
    unfold structure, unstructure. cbn [dinputs doutputs dkind dname dexec dxor]. fold (plain c).
    rewrite !map_map. cbn [fst snd].
    rewrite (all_some_map _ g (plain c)), (all_some_map _ g (coutputs c)).
    2: { intros r Hr. rewrite (out_class_unstructure sch r); [apply GO, Hr|apply ND|apply completeb_complete, W6, Hr|apply R3, Hr| |exact NT].
         specialize (W3 r Hr). now destruct (fcls r). }
    2: { intros r Hr. destruct (PI r Hr) as [Hi <-]. apply GI, Hi. }
    assert (EX : map g (plain c) ++ filter is_outarg (map g (coutputs c)) = map g (cinputs c)).
    { now rewrite W1, map_app, (filter_map_comm _ _ (restored_outarg sch type_shape)). }
    assert (NI : filter is_outarg (map g (plain c)) = []).
    { apply filter_nil. intros r' Hr'. apply in_map_iff in Hr' as [r [<- Hr]]. destruct (PI r Hr) as [_ C].
      unfold g. rewrite restored_outarg. unfold is_outarg. now rewrite C. }
    assert (NO : NoDup (map fname (map g (coutputs c)))).
    { rewrite map_map, (map_ext _ fname (restored_name sch type_shape)). exact W4. }
    (* second stage of structure(): every position is present and every outarg finds itself among the inputs, so it is
       the identity *)
    rewrite assign_positions_id, (map_id_in _ (map g (coutputs c))).
    - eexists. split; [reflexivity|]. unfold same_definition. cbn [tkind tname texec cinputs coutputs cxor].
      rewrite EX. do 3 (split; [reflexivity|]). split; [|split; [|apply xor_equiv_refl]].
      + apply Forall2_map_self. intros r Hr. apply GI, Hr.
      + apply Forall2_map_self. intros r Hr. apply GO, Hr.
    - intros r Hr. destruct (is_outarg r) eqn:IO; [|reflexivity]. now rewrite (outarg_finds_itself _ _ r NI NO Hr IO).
    - rewrite EX. intros r' Hr'. apply in_map_iff in Hr' as [r [<- Hr]].
      rewrite (position_is_none_equiv _ _ (proj2 (GI r Hr))). apply negb_true_iff, W7, Hr.
  Qed.
End Class.

(* a cut-down copy of the live schemas, enough for the witnesses *)
Definition ex_sch (k : fclass) : schema :=
  let common := [ {| aname := "type"; adefault := AS (SObj "typing.Any"); aconv := CvId |};
                  {| aname := "default"; adefault := AS SNoDefault; aconv := CvDefault |};
                  {| aname := "help"; adefault := AS (SStr ""); aconv := CvId |};
                  {| aname := "requires"; adefault := AReqs []; aconv := CvRequires |} ] in
  let cmd := [ {| aname := "argstr"; adefault := AS (SStr ""); aconv := CvId |};
               {| aname := "position"; adefault := AS SNone; aconv := CvId |} ] in
  match k with
  | CArg => common ++ [ {| aname := "allowed_values"; adefault := ASet []; aconv := CvFrozenset |} ] ++ cmd
  | COut => common ++ [ {| aname := "callable"; adefault := AS SNone; aconv := CvId |} ]
  | COutarg => common ++ cmd ++ [ {| aname := "path_template"; adefault := AS SNone; aconv := CvId |};
                                  {| aname := "keep_extension"; adefault := AS (SBool true); aconv := CvId |} ]
  end.
Definition ex_shape (id : string) : shape :=
  if String.eqb id "tuple[int, int]" then ShTuple else if String.eqb id "typing.Any" then ShAny else ShScalar.

(* shell.outarg(type=File | None, default=None, argstr="-o") without a path_template *)
Definition wit_templateless : taskcls :=
  let o := {| fcls := COutarg; fname := "o";
              fvals := [("type", AS (SObj "File | None")); ("default", AS SNone); ("help", AS (SStr ""));
                        ("requires", AReqs []); ("argstr", AS (SStr "-o")); ("position", AS (SInt 1));
                        ("path_template", AS SNone); ("keep_extension", AS (SBool true))] |} in
  {| tkind := "shell"; tname := "cmd"; texec := SStr "cmd"; cinputs := [o]; coutputs := [o]; cxor := [] |}.

(* python.arg(type=ty.Any, default=(1, 2)) *)
Definition wit_any_tuple : taskcls :=
  let a := {| fcls := CArg; fname := "a";
              fvals := [("type", AS (SObj "typing.Any")); ("default", ATuple [SInt 1; SInt 2]); ("help", AS (SStr ""));
                        ("requires", AReqs []); ("allowed_values", ASet []); ("argstr", AS (SStr ""));
                        ("position", AS (SInt 1))] |} in
  {| tkind := "python"; tname := "F"; texec := SObj "F"; cinputs := [a]; coutputs := []; cxor := [] |}.

Lemma templateless_outarg_not_restored :
  structure ex_sch ex_shape (fun _ _ => AS SNone) (unstructure ex_sch wit_templateless) = None.
Proof. vm_compute. reflexivity. Qed.

Lemma same_membersb_sound g h : same_membersb g h = true -> same_members g h.
Proof.
  unfold same_membersb, subset_o. rewrite andb_true_iff, !forallb_forall. intros [A B] n.
  pose proof (fun x l => proj1 (existsb_eqb_In _ (option_eqb_spec _ String.eqb_eq) x l)) as E.
  split; intros I; [apply E, A, I|apply E, B, I].
Qed.

Lemma field_equivb_sound a b : field_equivb a b = true -> field_equiv a b.
Proof.
  unfold field_equivb, field_equiv. intros E. apply andb_prop in E as [E V]. apply andb_prop in E as [C N].
  split; [now destruct (fcls a), (fcls b)|]. split; [now apply String.eqb_eq|].
  apply (list_eqb_Forall2 attr_equivb); [|exact V].
  intros p q Hpq. apply andb_prop in Hpq as [Hk Hv]. split; [now apply String.eqb_eq|exact Hv].
Qed.

Theorem same_definitionb_sound c c' : same_definitionb c c' = true -> same_definition c c'.
Proof.
  unfold same_definitionb, same_definition, xor_equivb. intros H.
  apply andb_prop in H as [H XR]. apply andb_prop in H as [H O]. apply andb_prop in H as [H I].
  apply andb_prop in H as [H X]. apply andb_prop in H as [K N]. apply andb_prop in XR as [XA XB].
  rewrite forallb_forall in XA, XB. repeat split.
  - now apply String.eqb_eq.
  - now apply String.eqb_eq.
  - now apply scalar_eqb_spec.
  - exact (list_eqb_Forall2 _ _ field_equivb_sound _ _ I).
  - exact (list_eqb_Forall2 _ _ field_equivb_sound _ _ O).
  - intros g Hg. destruct (proj1 (existsb_exists _ _) (XA g Hg)) as [h [Hh S]].
    exists h. split; [exact Hh|]. now apply same_membersb_sound.
  - intros h Hh. destruct (proj1 (existsb_exists _ _) (XB h Hh)) as [g [Hg S]].
    exists g. split; [exact Hg|]. now apply same_membersb_sound.
Qed.
