(* Proofs/ShellOrder.v — position_sort (bisect.insort on the assigned positions) against the order the property
   states: insort is insertion before the first greater key (ListFacts, Section Insertion), so each half comes out as
   its one ordered permutation.  Before it, lists strictly ascending by an integer key ([klt], [ksorted]). *)
From Pydra Require Import Base.Prelude Model.Shell Proofs.ListFacts.
From Coq Require Import Sorting.Sorted Sorting.Permutation.
Local Open Scope list_scope.
Local Open Scope Z_scope.

Section Generic.
Context {B : Type} (key : B -> Z).
Definition klt (a b : B) : Prop := key a < key b.
Definition ksorted : list B -> Prop := StronglySorted klt.

Lemma ksorted_filter p l : ksorted l -> ksorted (filter p l).
Proof. apply StronglySorted_filter. Qed.
End Generic.

Section Insort.
Context {A : Type}.
Notation kp := (@fst Z A).

Lemma insort_nil (b : Z * A) : insort (fst b) (snd b) [] = [b].
Proof. now destruct b. Qed.
Lemma insort_cons (b c : Z * A) l :
  insort (fst b) (snd b) (c :: l) = if fst b <? fst c then b :: c :: l else c :: insort (fst b) (snd b) l.
Proof. now destruct b, c. Qed.

Definition insorts (I acc : list (Z * A)) : list (Z * A) := fold_left (fun acc i => insort (fst i) (snd i) acc) I acc.

Definition at_pos (i : Z * A) : option Z * A := (Some (fst i), snd i).

Lemma position_split_eq : forall I pos none neg,
  position_split (map at_pos I) pos none neg
  = (insorts (filter (fun i => 0 <=? fst i) I) pos, rev none, insorts (filter (fun i => fst i <? 0) I) neg).
Proof.
  induction I as [|[p x] I IH]; intros pos none neg; [reflexivity|].
  cbn [map at_pos position_split fst snd filter]. destruct (p <? 0) eqn:E; rewrite IH;
    [replace (0 <=? p) with false by lia|replace (0 <=? p) with true by lia]; reflexivity.
Qed.

Theorem position_sort_unique : forall (I : list (Z * A)) P N,
  NoDup (map fst I) ->
  kordered kp P -> kordered kp N ->
  Permutation P (filter (fun i => 0 <=? fst i) I) ->
  Permutation N (filter (fun i => fst i <? 0) I) ->
  position_sort (map at_pos I) = map snd P ++ map snd N.
Proof.
  intros I P N ND SP SN PP PN. unfold position_sort. rewrite position_split_eq. cbn [rev app]. unfold insorts.
  rewrite (ins_fold_unique kp _ insort_nil insort_cons _ P), (ins_fold_unique kp _ insort_nil insort_cons _ N);
    auto using NoDup_map_filter.
Qed.
End Insort.
