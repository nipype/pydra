(* Proofs/CacheProtoC10.v — deterministic succeeding body, no rerun, no injected exceptions (crashes allowed
   unless stated): every readable result is the body's value, a readable result is never destroyed, and
   (without crashes) the body runs at most once. Arbitrary traces, arbitrary number of processes. *)
From Pydra Require Import Base.Prelude.
From Pydra Require Import Model.CacheProto Proofs.CacheProto Proofs.CacheProtoC35.
Local Open Scope nat_scope.

(* no exception anywhere, the body returns, nobody asks for a rerun; kills (ACrash) are allowed *)
Definition det (a : action) : bool :=
  match a with
  | AExc | APreHookRaise | APostHookRaise | ABodyRaise => false
  | APreRun rr _ => negb rr
  | _ => true
  end.
Definition nocrash (a : action) : bool := match a with ACrash => false | _ => true end.
Definition det_trace (tr : list event) : bool := forallb (fun e => det (snd e)) tr.
Definition nocrash_trace (tr : list event) : bool := forallb (fun e => nocrash (snd e)) tr.

(* the pcs a process can be at in a det trace *)
Definition pc_det (c : pcT) : bool :=
  match c with
  | Err0 | Err1 | Err2 | Err3 | Err4 | ErrRec | Fin0 | ExcHold | RelExc => false
  | Sv false (SRB | SRO | SRD | SRA) => false      (* save(job=...) from _populate_filesystem writes no result *)
  | _ => true
  end.
(* the process is inside the dump of the result in save(): the file opened (SRO) or dumped (SRD), not yet closed *)
Definition writing (c : pcT) : bool := match c with Sv true SRO | Sv true SRD => true | _ => false end.
(* the process has read a usable result at the check, or has put the whole of its own in place *)
Definition okseen (c : pcT) : bool :=
  match c with
  | Hit0 | Hit1 | RelHit | Sv true (SRA | SJB | SJO | SJD | SJA | SRel) | Fin3 | Fin4 | Fin5 | RelOk | Post1 | Post2
  | Done => true
  | _ => false
  end.
(* after a miss at the check: the body not yet left / left, the with block not yet (the two halves of `body_count`) *)
Definition pre_body (c : pcT) : bool :=
  match c with Miss | Pop1 | Pop2 | Pop3 | Sv false _ | Pop4 | Pop5 | CwdCh | PreHk | AudSt | BodyIn => true | _ => false end.
Definition post_body (c : pcT) : bool :=
  match c with BodyOut | OutsOk | Fin1 | Fin2 | Sv true _ | Fin3 | Fin4 | Fin5 => true | _ => false end.

Lemma pre_body_holds c : pre_body c = true -> holds c = true. Proof. now case_pc c. Qed.
Lemma post_body_holds c : post_body c = true -> holds c = true. Proof. now case_pc c. Qed.
Lemma writing_holds c : writing c = true -> holds c = true. Proof. now case_pc c. Qed.

(* cbn would unfold the ten rounds of retry_load in every goal of a walk; load_result is read through load_result_eq *)
Local Arguments CacheProto.load_result : simpl never.

Definition all_alive (s : state) : Prop := forall p, alive s p.

Section Alive.
  Variable pickle : res -> list nat.
  Variable unpickle : list nat -> option res.
  Variable bv : val.
  Notation step := (step pickle unpickle bv).
  Notation run := (run pickle unpickle bv).
  Notation init := (init bv).

  Lemma all_alive_step s e s' : all_alive s -> step s e = Some s' -> nocrash (snd e) = true -> all_alive s'.
  Proof.
    intros AL H Nc r. apply step_cases in H. destruct H as [p _|p a q' g' _ L]; [discriminate Nc|].
    unfold alive. cbn. rewrite (proj1 (lstep_markers _ _ _ L)). apply AL.
  Qed.

  Lemma nocrash_alive pre tr s : nocrash_trace tr = true -> run (init pre) tr = Some s -> all_alive s.
  Proof.
    intros N. apply (run_inv_on _ _ _ (fun e => nocrash (snd e) = true) all_alive all_alive_step); [intros p; now destruct pre|].
    now apply forallb_forall.
  Qed.
End Alive.

Section C10.
  Variable pickle : res -> list nat.
  Variable unpickle : list nat -> option res.
  Variable bv : val.
  Hypothesis unpickle_pickle : forall r, unpickle (pickle r) = Some r.
  Hypothesis prefix_rejected : forall r n, n < List.length (pickle r) -> unpickle (firstn n (pickle r)) = None.
  Hypothesis pickle_nonempty : forall r, pickle r <> [].

  Notation lstep := (lstep pickle unpickle bv).
  Notation step := (step pickle unpickle bv).
  Notation run := (run pickle unpickle bv).
  Notation init := (init bv).
  Notation load_result := (load_result pickle unpickle).
  Notation retry_load := (retry_load unpickle).
  Notation job_result := (job_result pickle unpickle).
  (* Spec.CacheProto.good bv, in which Props/C10.v and C12.v state the outcome, is `Returned ok` by conversion *)
  Definition ok : res := mkRes false (Some bv).

  Lemma retry_load_S k b : retry_load (S k) b = unpickle b.
  Proof. induction k; cbn in *; destruct (unpickle b); auto. Qed.

  Lemma load_strict_prefix g r n : resf g = Writing r n -> n < List.length (pickle r) -> load_result g = None.
  Proof.
    intros R L. unfold load_result, CacheProto.load_result. rewrite R. destruct (dir g); [|reflexivity]. cbn [content].
    destruct (firstn n (pickle r)) eqn:E; [reflexivity|]. rewrite <- E, retry_load_S. now apply prefix_rejected.
  Qed.

  Lemma load_result_eq g :
    load_result g =
    if dir g then match resf g with
                  | Absent => None
                  | Writing r n => if n <? List.length (pickle r) then None else Some r
                  | Complete r => Some r
                  end
    else None.
  Proof.
    destruct (resf g) as [|r n|r] eqn:R.
    1: unfold load_result, CacheProto.load_result; rewrite R; now destruct (dir g).
    1: destruct (Nat.ltb_spec n (List.length (pickle r))) as [L|L];
       [rewrite (load_strict_prefix _ _ _ R L); now destruct (dir g)|].
    all: unfold load_result, CacheProto.load_result; rewrite R; destruct (dir g); [|reflexivity]; cbn [content].
    1: rewrite firstn_all2 by assumption.
    all: destruct (pickle r) eqn:E; [now apply pickle_nonempty in E|]; rewrite <- E, retry_load_S; apply unpickle_pickle.
  Qed.

  Lemma load_complete g r : dir g = true -> resf g = Complete r -> load_result g = Some r.
  Proof. intros D R. now rewrite load_result_eq, D, R. Qed.
  Lemma load_absent g : resf g = Absent -> load_result g = None.
  Proof. intros R. rewrite load_result_eq, R. now destruct (dir g). Qed.

  Definition valid_res (g : glob) : Prop :=
    match resf g with Absent => True | Writing r _ | Complete r => r = ok /\ dir g = true end.

  Lemma load_valid g r : valid_res g -> load_result g = Some r -> r = ok.
  Proof.
    unfold valid_res. rewrite load_result_eq.
    destruct (dir g), (resf g) as [|r' n|r']; try discriminate; [destruct (n <? _); try discriminate|];
      intros [-> _] [= <-]; reflexivity.
  Qed.

  Record proc_valid (q : proc) : Prop := {
    pv_pc : pc_det (pc q) = true;
    pv_rerr : r_err q = false;
    pv_raised : raised q = false;
    pv_selferr : self_err q = false;
    pv_rerun : rerun q = false;
    pv_ret : forall o, ret q = Some o -> o = Returned ok;
    pv_clean : dirty q = false }.

  Definition partial_of_ok (f : fstate res) : Prop := match f with Writing r _ => r = ok | _ => False end.

  (* what a live process knows at its pc about the result file and the outputs it carries; the pc is an argument of
     its own for the reason given at fs_at (CacheProtoC35.v) *)
  Definition knows_at (c : pcT) (q : proc) (g : glob) : Prop :=
    match c with
    | Miss | Pop1 => load_result g = None
    | Pop2 => resf g = Absent /\ dir g = false
    | Pop3 | Sv false _ | Pop4 | Pop5 | CwdCh | PreHk | AudSt | BodyIn | BodyOut => resf g = Absent
    | OutsOk | Fin1 | Fin2 => resf g = Absent /\ r_out q = Some bv
    | Sv true SAcq | Sv true SRB => resf g = Absent /\ r_out q = Some bv /\ dir g = true
    | Sv true SRO | Sv true SRD => partial_of_ok (resf g) /\ r_out q = Some bv /\ dir g = true
    | Hit0 | Hit1 | RelHit | Sv true _ | Fin3 | Fin4 | Fin5 | RelOk | Post1 | Post2 | Done => load_result g = Some ok
    | _ => True
    end.
  Definition knows (q : proc) (g : glob) : Prop := knows_at (pc q) q g.

  Lemma knows_okseen q g : knows q g -> okseen (pc q) = true -> load_result g = Some ok.
  Proof. unfold knows. case_pc (pc q); intros K E; try discriminate E; exact K. Qed.

  Lemma grows_stable q g n :
    partial_of_ok (resf g) /\ r_out q = Some bv /\ dir g = true -> r_err q = false -> grows (resf g) n = true ->
    load_result g = Some ok -> load_result (set_resf (Writing (the_result q) n) g) = Some ok.
  Proof.
    intros (W & Ro & D) Re G. rewrite !load_result_eq. cbn [dir resf set_resf]. rewrite D.
    destruct (resf g) as [|r m|r]; try contradiction. cbn in W, G. subst r. unfold the_result. rewrite Re, Ro. fold ok.
    apply Nat.leb_le in G.
    destruct (Nat.ltb_spec m (List.length (pickle ok))); [discriminate|].
    destruct (Nat.ltb_spec n (List.length (pickle ok))); [lia|reflexivity].
  Qed.

  (* the check under the lock reads the result file itself (Job._errored is not set), and what it cannot use is not there *)
  Lemma check_reads q g : valid_res g -> proc_valid q ->
    job_result q g = load_result g /\ (usable (load_result g) = false -> load_result g = None).
  Proof.
    intros V PV. unfold job_result. rewrite (pv_selferr _ PV). split; [reflexivity|].
    destruct (load_result g) as [r|] eqn:L; [|reflexivity]. rewrite (load_valid g r V L). discriminate.
  Qed.

  Lemma k_own_step {p q g a q' g'} :
    lstep p q g a = Some (q', g') -> det a = true ->
    valid_res g -> proc_valid q -> knows q g ->
    valid_res g' /\ proc_valid q' /\ knows q' g'.
  Proof.
    intros H Da V PV K.
    assert (LV := fun r => load_valid g r V). destruct (check_reads q g V PV) as [JR UM].
    assert (TR : r_out q = Some bv -> the_result q = ok).
    { intros E. unfold the_result. now rewrite (pv_rerr _ PV), E. }
    unfold valid_res, knows in *. destruct PV.
    lstep_rules H; try discriminate Da; lstep_pcs; rewrite ?JR in *; cbn in *.
    all: repeat match goal with
                | H : _ /\ _ |- _ => destruct H
                | H : negb _ = true |- _ => apply negb_true_iff in H
                | H : load_result _ = Some ?r |- _ => is_var r; pose proof (LV r H); subst r
                end.
    all: rewrite ?TR by assumption.
    all: repeat split; cbn; intros; try discriminate; try assumption; try reflexivity; try congruence; auto.
    (* the result file is closed: the whole of it is read back *)
    all: try (apply load_complete; [assumption|reflexivity]).
    (* the caller's final read returns what load_result gives *)
    all: try match goal with L : load_result _ = Some ok, R : Some _ = Some _ |- _ => rewrite L in R; congruence end.
    (* valid_res after a step that reads or sets dir g *)
    all: try (destruct (resf g); try destruct V; auto; congruence).
    (* S_Chdir, S_Progress*: the process stays where it is *)
    all: now rewrite Epc.
  Qed.

  Lemma load_stable {p q g a q' g'} :
    lstep p q g a = Some (q', g') -> det a = true ->
    proc_valid q -> knows q g ->
    load_result g = Some ok -> load_result g' = Some ok.
  Proof.
    intros H Da PV K L. pose proof (pv_rerr _ PV) as Re. unfold knows in K.
    lstep_rules H; try discriminate Da; lstep_pcs; try exact L; cbn in K.
    (* left: the steps that touch the directory or the result file *)
    all: try (rewrite load_absent in L by apply K; discriminate L).
    - congruence.
    - destruct K as (_ & Ro & D). apply load_complete; [exact D|]. cbn. unfold the_result, ok. congruence.
    - now apply (grows_stable q g n).
    - now apply (grows_stable q g n).
  Qed.

  Lemma knows_outside q g g' :
    holds (pc q) = false -> (load_result g = Some ok -> load_result g' = Some ok) -> knows q g -> knows q g'.
  Proof. unfold knows. intros Hh St. case_pc (pc q); try discriminate Hh; auto. Qed.

  (* the invariant of det traces, kills included: the two locks, what each run leaves behind (C35), and that the result
     file and every process carry the body's value and nothing else *)
  Record all_inv (s : state) : Prop := {
    ai_lock : lock_inv s;
    ai_c35 : c35_inv s;
    ai_res : valid_res (gl s);
    ai_procs : forall p, proc_valid (procs s p);
    ai_knows : forall p, alive s p -> knows (procs s p) (gl s) }.

  Lemma all_inv_init pre : all_inv (init pre).
  Proof.
    split; [apply lock_inv_init|apply c35_inv_init| | |].
    - destruct pre; cbn; auto.
    - intros p. split; try reflexivity; discriminate.
    - intros p _. exact I.
  Qed.

  Lemma all_inv_step s e s' : all_inv s -> step s e = Some s' -> det (snd e) = true -> all_inv s'.
  Proof.
    intros [LI CI V PV K] H Da.
    pose proof (lock_inv_step _ _ _ _ _ _ LI H) as LI'. pose proof (c35_inv_step _ _ _ _ _ _ LI CI H) as CI'.
    apply step_cases in H. destruct H as [p Dp|p a q' g' Dp L]; cbn in Da.
    - split; auto. intros r Ar. exact (K r (alive_kill _ _ _ Ar)).
    - destruct (k_own_step L Da V (PV p) (K p Dp)) as (V' & PV' & K').
      split; cbn [procs gl]; auto.
      + now apply upd_all.
      + eapply alive_inv_lstep; eauto.
        intros q Hh. apply knows_outside; [exact Hh|]. eapply load_stable; eauto.
  Qed.

  Lemma all_inv_reachable pre tr s : det_trace tr = true -> run (init pre) tr = Some s -> all_inv s.
  Proof.
    intros D. apply (run_inv_on _ _ _ (fun e => det (snd e) = true) all_inv all_inv_step); [apply all_inv_init|].
    now apply forallb_forall.
  Qed.

  Lemma done_ret s p : all_inv s -> pc (procs s p) = Done -> ret (procs s p) = Some (Returned ok).
  Proof.
    intros AI E. pose proof (li_ret _ (proj1 (ai_c35 _ AI) p)) as Ret.
    rewrite E in Ret. destruct (ret (procs s p)) as [o|] eqn:Er; [now rewrite (pv_ret _ (ai_procs _ AI p) o Er)|now elim Ret].
  Qed.

  Theorem read_sound pre tr s r :
    det_trace tr = true -> run (init pre) tr = Some s -> load_result (gl s) = Some r -> r = ok.
  Proof. intros D R. apply load_valid, ai_res, (all_inv_reachable _ _ _ D R). Qed.

  Theorem same_outputs pre tr s p o :
    det_trace tr = true -> run (init pre) tr = Some s -> ret (procs s p) = Some o -> o = Returned ok.
  Proof.
    intros D R. apply pv_ret, ai_procs, (all_inv_reachable _ _ _ D R).
  Qed.

  (* the result file is open for writing, as the file system shows it (`writing`: as the writer's pc shows it) *)
  Definition is_writing (f : fstate res) : bool := match f with Writing _ _ => true | _ => false end.

  Definition body_count (q : proc) (g : glob) : Prop :=
    (pre_body (pc q) = true -> runs g = 0) /\ (post_body (pc q) = true -> runs g = 1).

  (* the count each live process knows at its pc; a readable result was produced by the one execution; no
     execution yet, or its result readable, unless somebody is between body and release; nobody writes unless
     somebody is at a writing pc *)
  Record r_inv (s : state) : Prop := {
    r_count : forall p, alive s p -> body_count (procs s p) (gl s);
    r_ran : load_result (gl s) = Some ok -> runs (gl s) = 1;
    r_past : (runs (gl s) = 0 \/ load_result (gl s) = Some ok) \/ exists h, post_body (pc (procs s h)) = true;
    r_writer : is_writing (resf (gl s)) = false \/ exists h, writing (pc (procs s h)) = true }.

  (* the four parts of r_inv after a step of p, each from its own part before; the third needs to know that
     p, holding the lock, is itself the process past the body if there is one (last hypothesis) *)
  Lemma r_own_step {p q g a q' g'} :
    lstep p q g a = Some (q', g') -> det a = true ->
    valid_res g -> proc_valid q -> knows q g -> body_count q g ->
    (load_result g = Some ok -> runs g = 1) ->
    (holds (pc q) = true -> (runs g = 0 \/ load_result g = Some ok) \/ post_body (pc q) = true) ->
    body_count q' g' /\
    (load_result g' = Some ok -> runs g' = 1) /\
    ((runs g = 0 \/ load_result g = Some ok) \/ post_body (pc q) = true ->
     (runs g' = 0 \/ load_result g' = Some ok) \/ post_body (pc q') = true) /\
    (is_writing (resf g) = false \/ writing (pc q) = true -> is_writing (resf g') = false \/ writing (pc q') = true).
  Proof.
    intros H Da V PV K [A1 A2] A3 A4.
    destruct (check_reads q g V PV) as [JR UM]. pose proof (load_stable H Da PV K) as LS.
    unfold body_count, knows in *. destruct PV.
    lstep_rules H; try discriminate Da; lstep_pcs; rewrite ?JR in *; cbn in *.
    all: repeat match goal with
                | H : _ /\ _ |- _ => destruct H
                | H : true = true -> _ |- _ => specialize (H eq_refl)
                | H : false = true -> _ |- _ => clear H
                end.
    all: repeat split; intros; try discriminate; try assumption; try reflexivity; try congruence; auto.
    all: try (rewrite load_absent in * by assumption; discriminate).
    (* left: the miss at the check -- nothing readable and nobody past the body: the body never ran *)
    destruct A4 as [[E|E]|E]; [exact E|rewrite UM in E by assumption; discriminate E|discriminate E].
  Qed.

  Lemma r_inv_init pre : r_inv (init pre).
  Proof.
    unfold body_count, init, glob0.
    destruct pre; split; cbn [gl procs dead runs lock resf pc proc0 pre_body post_body is_writing].
    all: repeat split; intros; try discriminate; auto.
    left; right. apply load_complete; reflexivity.
  Qed.

  Lemma r_inv_step s e s' :
    all_inv s -> all_alive s -> r_inv s -> step s e = Some s' -> det (snd e) = true -> nocrash (snd e) = true -> r_inv s'.
  Proof.
    intros [LI _ V PV PK] AL [Cnt Ran Past Wr] H Da Nc.
    apply step_cases in H. destruct H as [p Dp|p a q' g' Dp L]; cbn in Da, Nc; [discriminate|].
    (* p holds the lock: nobody else is past the body *)
    assert (A4 : holds (pc (procs s p)) = true ->
                 (runs (gl s) = 0 \/ load_result (gl s) = Some ok) \/ post_body (pc (procs s p)) = true).
    { intros Hp. destruct Past as [E|(h & Ph)]; auto. right.
      now rewrite (marker_unique _ _ _ p h (proj1 LI) Dp (AL h) Hp (post_body_holds _ Ph)). }
    pose proof (r_own_step L Da V (PV p) (PK p Dp) (Cnt p Dp) Ran A4) as (Cnt' & Ran' & Past' & Wr').
    split.
    - eapply (alive_inv_lstep _ _ _ body_count); eauto.
      intros q Hh _. split; intros X; [apply pre_body_holds in X|apply post_body_holds in X]; congruence.
    - exact Ran'.
    - eapply (unless_at_step (fun q => post_body (pc q))); eassumption.
    - eapply (unless_at_step (fun q => writing (pc q))); eassumption.
  Qed.

  Definition clean_trace (tr : list event) : bool := det_trace tr && nocrash_trace tr.

  Lemma clean_reachable pre tr s :
    clean_trace tr = true -> run (init pre) tr = Some s -> all_inv s /\ all_alive s /\ r_inv s.
  Proof.
    unfold clean_trace. intros C. apply andb_true_iff in C. destruct C as [D N].
    apply (run_inv_on _ _ _ (fun e => det (snd e) = true /\ nocrash (snd e) = true)
                      (fun s => all_inv s /\ all_alive s /\ r_inv s)).
    - intros s0 e s1 (A & AL & R) H [De Ne].
      split; [eapply all_inv_step|split; [eapply all_alive_step|eapply r_inv_step]]; eauto.
    - split; [apply all_inv_init|split; [intros p; now destruct pre|apply r_inv_init]].
    - intros e He. split; [revert e He; now apply forallb_forall..].
  Qed.

  (* No crash, no exception, nobody asks for a rerun, the body returns: over every interleaving of
     any number of processes (and any number of submissions per process) the body has run at most once,
     and as soon as one submitter has its answer it has run exactly once (the execution that produced a
     result found at the start counts as that one) *)
  Theorem once pre tr s :
    clean_trace tr = true -> run (init pre) tr = Some s ->
    runs (gl s) <= 1 /\
    (forall p o, ret (procs s p) = Some o -> pc (procs s p) = Done -> o = Returned ok) /\
    (forall p, okseen (pc (procs s p)) = true -> runs (gl s) = 1).
  Proof.
    intros C R. destruct (clean_reachable _ _ _ C R) as (AI & AL & RI).
    split; [|split].
    - destruct (r_past _ RI) as [[E|E]|(h & Ph)]; [lia|rewrite (r_ran _ RI E); lia|rewrite (proj2 (r_count _ RI h (AL h)) Ph); lia].
    - intros p o E _. exact (pv_ret _ (ai_procs _ AI p) o E).
    - intros p Hp. apply (r_ran _ RI). exact (knows_okseen _ _ (ai_knows _ AI p (AL p)) Hp).
  Qed.

  Theorem no_partial_read pre tr s p :
    clean_trace tr = true -> run (init pre) tr = Some s ->
    (pc (procs s p) = Locked -> is_writing (resf (gl s)) = false) /\
    (pc (procs s p) = RelHit \/ pc (procs s p) = Post2 -> load_result (gl s) = Some ok /\ is_writing (resf (gl s)) = false \/
                                                          exists h, h <> p /\ lock (gl s) = Some h /\ writing (pc (procs s h)) = true).
  Proof.
    intros C R. destruct (clean_reachable _ _ _ C R) as (AI & AL & RI).
    pose proof (proj1 (ai_lock _ AI)) as I1. pose proof (ai_knows _ AI) as PK.
    (* whoever writes holds the lock, and p, at a pc where it does not write, is not that process *)
    assert (W : writing (pc (procs s p)) = false -> is_writing (resf (gl s)) = false \/
                exists h, h <> p /\ lock (gl s) = Some h /\ writing (pc (procs s h)) = true).
    { intros Np. destruct (r_writer _ RI) as [E|(h & Wh)]; [now left|right]. exists h. split; [congruence|].
      split; [|exact Wh]. apply I1; [apply AL|]. now apply writing_holds. }
    split.
    - intros E. destruct W as [Ew|(h & Ne & Lh & _)]; [now rewrite E|exact Ew|].
      elim Ne. pose proof (proj1 (I1 p (AL p))) as Lp. rewrite E in Lp. specialize (Lp eq_refl). congruence.
    - intros E. destruct W as [Ew|X]; [now destruct E as [-> | ->]| |now right].
      left. split; [|exact Ew]. apply (knows_okseen _ _ (PK p (AL p))). now destruct E as [-> | ->].
  Qed.
End C10.
