(* Proofs/GraphWf.v — well-formed remove_nodes calls succeed (C37).  Well-formed adds to the order invariant the
   consistency of GraphLive.v.  Of the calls remove_nodes makes, the marking loop and remove_all return because of what
   the call's precondition says of its list (mark_removed_ok, nodup_incl_occ); the re-sorting returns by
   consistent_sorting_ok (the completeness of sorting proved for C18). *)
From Pydra Require Import Base.Prelude Model.Graph Spec.Graph
  Proofs.GraphBase Proofs.GraphInv Proofs.GraphEdges Proofs.GraphLive Proofs.ListFacts.
From Coq Require Import Sorting.Permutation.
Local Open Scope nat_scope.
Local Open Scope list_scope.

(* a well-formed graph object: the order invariant, consistent dictionaries, acyclic connections
   among all recorded nodes (remaining or marked for removal) *)
Definition wf_state (g : graph) : Prop :=
  inv g /\ consistent g /\ acyclic (g_wip g ++ g_nodes g) (g_edges g).

Lemma wf_state_inv2 g : wf_state g -> inv2 g.
Proof. intros [I [C _]]. exact (conj I (consistent_rest_ok g C)). Qed.

Lemma mem_In x l : mem x l = true <-> In x l.
Proof. exact (memb_In x l). Qed.
Lemma nodupb_NoDup l : nodupb l = true -> NoDup l.
Proof. apply (nodupb_of_NoDup Nat.eqb Nat.eqb_eq). Qed.
Lemma subsetb_incl l m : subsetb l m = true -> forall x, In x l -> In x m.
Proof. unfold subsetb. rewrite forallb_forall. intros H x Hx. apply mem_In, H, Hx. Qed.
Lemma lookup_lk d k : lookup d k = lk d k.
Proof. reflexivity. Qed.

Lemma mark_removed_ok c l : forall g,
  NoDup l -> (forall x, In x l -> In x (g_nodes g)) -> (forall x, In x l -> In x (dkeys (g_preds g))) ->
  (c = true -> forall x, In x l -> lk (g_preds g) x = []) ->
  exists g1, foldM (mark_removed c) l g = Ok g1.
Proof.
  induction l as [|x l IH]; intros g Hnd Hin Hk Hp; cbn [foldM]; [eauto|].
  inversion Hnd as [|? ? Hx Hnd']; subst.
  assert (Hxn : In x (g_nodes g)) by (apply Hin; now left).
  destruct (remove_one_some Nat.eqb_eq x (g_nodes g) Hxn) as [ns' Hr].
  assert (Hk' : In x (dkeys (g_preds g))) by (apply Hk; now left). apply dget_In_keys in Hk'. destruct Hk' as [p Hg].
  assert (E : mark_removed c g x = Ok (mkG ns' (g_edges g) (g_preds g) (g_succs g) (g_sorted g) (g_wip g ++ [x]))).
  { unfold mark_removed. apply memb_In in Hxn. rewrite Hxn. cbn [negb]. rewrite Hg. cbn [of_opt bind].
    assert (C : nonempty p && c = false).
    { destruct c; [|apply andb_false_r]. specialize (Hp eq_refl x (or_introl eq_refl)). unfold lk in Hp. rewrite Hg in Hp. subst p. reflexivity. }
    rewrite C, Hr. reflexivity. }
  rewrite E. cbn [bind]. apply IH; [exact Hnd'| | |]; cbn.
  - intros y Hy. apply (remove_one_other Nat.eqb_eq x (g_nodes g) ns' y Hr); [intros ->; contradiction|apply Hin; now right].
  - intros y Hy. apply Hk. now right.
  - intros Hc y Hy. apply Hp; [exact Hc|now right].
Qed.

Lemma nodup_incl_occ (l s : list node) : NoDup l -> (forall x, In x l -> In x s) -> forall y, occ y l <= occ y s.
Proof.
  intros Hnd Hin y. unfold occ. destruct (in_dec Nat.eq_dec y l) as [Hy|Hy].
  - rewrite (proj1 (NoDup_count_occ' Nat.eq_dec l) Hnd y Hy). apply (count_occ_In Nat.eq_dec), Hin, Hy.
  - rewrite (proj1 (count_occ_not_In Nat.eq_dec l y) Hy). apply Nat.le_0_l.
Qed.

(* what Spec.Graph.pre_opb asks of the list l of a removal call: distinct nodes, all in [among], and (when [c]) each with
   an empty entry in d *)
Definition pre_removal (among : list node) (d : dict) (c : bool) (l : list node) : Prop :=
  NoDup l /\ (forall x, In x l -> In x among) /\ (c = true -> forall x, In x l -> lk d x = []).

Lemma pre_removal_of_spec among d c l :
  nodupb l && subsetb l among && (negb c || forallb (fun n => match lookup d n with [] => true | _ => false end) l) = true ->
  pre_removal among d c l.
Proof.
  intros H. apply andb_true_iff in H. destruct H as [H H3]. apply andb_true_iff in H. destruct H as [H1 H2].
  split; [apply nodupb_NoDup, H1|]. split; [apply subsetb_incl, H2|].
  intros -> x Hx. cbn [negb orb] in H3. rewrite forallb_forall in H3. specialize (H3 x Hx).
  rewrite lookup_lk in H3. destruct (lk d x); [reflexivity|discriminate].
Qed.

Theorem remove_nodes_succeeds g l c :
  wf_state g -> pre_removal (g_nodes g) (g_preds g) c l -> exists g', remove_nodes g l c = Ok g' /\ wf_state g'.
Proof.
  intros [Hinv [Hc Hac]] [Hnd [Hin Hp]].
  destruct Hc as [ND [KS [KP [CP [CS [KE CL]]]]]].
  destruct (mark_removed_ok c l g Hnd Hin (fun x Hx => KP x (Hin x Hx)) Hp) as [g1 Hm].
  destruct (mark_removed_all _ _ _ _ Hm) as [ns1 [Pn ->]].
  set (w1 := g_wip g ++ l) in *.
  assert (PM : Permutation (w1 ++ ns1) (g_wip g ++ g_nodes g))
    by (unfold w1; rewrite <- app_assoc; apply Permutation_app_head; symmetry; exact Pn).
  assert (M : forall x, In x (w1 ++ ns1) -> In x (g_wip g ++ g_nodes g)) by exact (fun x => Permutation_in x PM).
  assert (Sub : forall x, In x ns1 -> In x (g_nodes g))
    by (intros x Hx; eapply Permutation_in; [symmetry; exact Pn|apply in_or_app; auto]).
  assert (C1 : consistent (mkG ns1 (g_edges g) (g_preds g) (g_succs g) (g_sorted g) w1)).
  { split; [eapply Permutation_NoDup; [symmetry; exact PM|exact ND]|].
    split; [intros x Hx; apply KS, M, Hx|]. split; [intros x Hx; apply KP, Sub, Hx|].
    split; [exact CP|]. split; [exact CS|]. split; [exact KE|].
    intros a b Hab Hb. eapply Permutation_in; [symmetry; exact PM|]. apply (CL a b Hab), Sub, Hb. }
  assert (A1 : acyclic (w1 ++ ns1) (g_edges g)) by exact (acyclic_sub _ _ _ _ M (fun e H => H) Hac).
  assert (R : exists g', remove_nodes g l c = Ok g').
  { unfold remove_nodes. rewrite Hm. cbn [bind g_sorted]. destruct (g_sorted g) as [s|] eqn:Hs1; [|eauto].
    unfold finish_remove. destruct (list_eqb Nat.eqb l (firstn (List.length l) s)); [eauto|].
    assert (Hps : Permutation s (g_nodes g)) by (destruct Hinv as [_ [_ Hso]]; exact (proj1 (Hso s Hs1))).
    pose proof (remove_all_spec l s) as Hr. destruct (remove_all l s) as [s'|e].
    2:{ exfalso. apply Hr, nodup_incl_occ; [exact Hnd|].
        intros x Hx. eapply Permutation_in; [symmetry; exact Hps|apply Hin, Hx]. }
    cbn [bind].
    apply consistent_sorting_ok.
    - exact C1.
    - right. cbn. eapply Permutation_app_inv_l. rewrite <- Hr, Hps. exact Pn.
    - cbn. eapply acyclic_sub; [| |exact A1]; [|auto]. intros x Hx. apply in_or_app. now right. }
  destruct R as [g' Hg']. exists g'. split; [exact Hg'|].
  split; [eapply remove_nodes_inv; eauto|].
  destruct (remove_nodes_frame _ _ _ _ Hg') as [g2 [o [Hm2 ->]]]. rewrite Hm in Hm2. inversion Hm2; subst g2.
  split; [exact C1|exact A1].
Qed.

Lemma init_wf ns es g : init ns es = Ok g -> acyclic ns es -> wf_state g.
Proof.
  intros H A. split; [eapply init_inv; eauto|]. split; [eapply init_consistent; eauto|].
  destruct (init_frame _ _ _ H) as [_ [_ [ps [_ ->]]]]. exact A.
Qed.
