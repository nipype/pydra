(* Proofs/CacheProtoC35.v — what one run of Job.run leaves behind: cwd, info file, hook calls (process-local
   invariant) and the contents of the job directory (invariant under the lock), for arbitrary traces. *)
From Pydra Require Import Model.CacheProto Proofs.CacheProto.
Local Open Scope nat_scope.

(* between audit_started and cwd_restored user code may have moved the process anywhere *)
Definition body_region (c : pcT) : bool :=
  match c with
  | AudSt | BodyIn | BodyOut | OutsOk | Err0 | Err1 | Err2 | Err3 | Err4 | ErrRec
  | Fin0 | Fin1 | Fin2 | Sv true _ | Fin3 | Fin4 => true
  | _ => false
  end.
Definition cwd_ok (asy : bool) (c : pcT) (w : loc) : Prop :=
  if body_region c then True
  else w = match c with CwdCh | PreHk => if asy then Home else InDir | _ => Home end.
Definition exp_infos (c : pcT) : nat :=
  match c with
  | Pop1 | Pop2 | Pop3 | Sv _ _ | Pop4 | Pop5 | CwdCh | PreHk | AudSt | BodyIn | BodyOut | OutsOk
  | Err0 | Err1 | Err2 | Err3 | Err4 | ErrRec | Fin0 | Fin1 | Fin2 | Fin3 => 1
  | _ => 0
  end.
(* pre_run_task called, try block not yet entered / try block entered, post_run_task not yet called *)
Definition pre_ahead (c : pcT) : bool := match c with PreHk | AudSt => true | _ => false end.
Definition post_owed (c : pcT) : bool :=
  match c with BodyIn | BodyOut | OutsOk | Err0 | Err1 | Err2 | Err3 | Err4 | ErrRec | Fin0 => true | _ => false end.
(* result.errored is still False / set by the handler / the finally block is reached with an exception pending *)
Definition flags_ok (c : pcT) (q : proc) : Prop :=
  match c with
  | Waiting | Locked | Hit0 | Hit1 | Miss | Pop1 | Pop2 | Pop3 | Sv false _ | Pop4 | Pop5 | CwdCh | PreHk | AudSt
  | BodyIn | BodyOut | OutsOk => r_err q = false /\ raised q = false
  | Err0 | Err1 | Err2 | Err3 | Err4 | ErrRec => r_err q = true
  | Fin0 => r_err q = true /\ raised q = true
  | Fin1 | Fin2 | Sv true _ | Fin3 | Fin4 | Fin5 => raised q = r_err q
  | _ => True
  end.

Definition ret_ok (c : pcT) (o : option outcome) : Prop := match c with Done => o <> None | _ => o = None end.

(* the process-local values expected at each pc, as long as no exception escaped the try/except region (li_clean) *)
Record local_inv (q : proc) : Prop := {
  li_clean : dirty q = false ->
     infos q = exp_infos (pc q) /\ cwd_ok (is_async q) (pc q) (cwd q) /\
     pre_calls q = (if pre_ahead (pc q) then S (execs q) else execs q) /\
     execs q = (if post_owed (pc q) then S (post_calls q) else post_calls q);
  li_flags : flags_ok (pc q) q;
  li_hold : pc q = ExcHold -> dirty q = true;
  li_ret : ret_ok (pc q) (ret q) }.

(* what the job directory holds while the process is still inside its with block.  The pc is an argument of its own:
   with `match pc q with` inside, every `cbn in *` of a walk would have to reduce `pc (set_pc ..)` under the match, in
   hypotheses and goal of each of its hundred goals, and the walks cost twice as much *)
Definition fs_at (c : pcT) (q : proc) (g : glob) : Prop :=
  match c with
  | Pop3 | Sv false (SAcq | SRB | SRO | SRD | SRA | SJB | SJO | SJD) => dir g = true
  | Sv false _ | Pop4 | Pop5 | CwdCh | PreHk | AudSt | BodyIn | BodyOut | OutsOk | Err0 | Err1 | Err2 | Err3
  | Fin0 | Fin1 | Fin2 | Sv true (SAcq | SRB | SRO | SRD) => dir g = true /\ jobf g = Complete tt
  | Err4 | ErrRec => dir g = true /\ jobf g = Complete tt /\ errf g = Complete tt
  | Sv true (SJO | SJD) => dir g = true /\ resf g = Complete (the_result q)
  | Sv true _ | Fin3 | Fin4 | Fin5 => dir g = true /\ jobf g = Complete tt /\ resf g = Complete (the_result q)
  | _ => True
  end.
Definition fs_inv (q : proc) (g : glob) : Prop := fs_at (pc q) q g.

Lemma fs_inv_outside q g : holds (pc q) = false -> fs_inv q g.
Proof. intros H. unfold fs_inv. now case_pc (pc q). Qed.

Definition c35_inv (s : state) : Prop :=
  (forall p, local_inv (procs s p)) /\
  (forall p, alive s p -> fs_inv (procs s p) (gl s)).

Section C35.
  Variable pickle : res -> list nat.
  Variable unpickle : list nat -> option res.
  Variable bv : val.
  Notation lstep := (lstep pickle unpickle bv).
  Notation step := (step pickle unpickle bv).
  Notation run := (run pickle unpickle bv).
  Notation init := (init bv).

  Lemma local_inv_lstep p q g a q' g' : lstep p q g a = Some (q', g') -> local_inv q -> local_inv q'.
  Proof.
    intros H [Clean Flags Hold Ret]. lstep_cases H; split. all: cbn [pc set_cwd]; rewrite ?Epc; unfold cwd_ok in *; cbn in *.
    all: repeat split; intros; try discriminate; try assumption; try reflexivity; try congruence.
    all: repeat match goal with
                | H : ?a = false -> _, H' : ?a = false |- _ => specialize (H H')
                | H : _ /\ _ |- _ => destruct H
                end; try congruence.
    all: try match goal with H : is_async _ = _ |- _ => rewrite H; congruence end.
    (* left: an exception on the way to ExcHold, from a pc known by its region only *)
    all: match goal with R : region_at _ = _ |- _ => revert R Ret; clear; case_pc (pc q); try discriminate; auto end.
  Qed.

  Lemma fs_inv_lstep p q g a q' g' : lstep p q g a = Some (q', g') -> fs_inv q g -> fs_inv q' g'.
  Proof.
    unfold fs_inv, the_result. intros H F. lstep_cases H.
    all: cbn in *; repeat match goal with H : _ /\ _ |- _ => destruct H end; auto.
  Qed.

  Lemma c35_inv_init pre : c35_inv (init pre).
  Proof.
    split; intros p.
    - repeat split; intros; try discriminate; auto.
    - intros _. apply fs_inv_outside. reflexivity.
  Qed.

  Lemma c35_inv_step s e s' : lock_inv s -> c35_inv s -> step s e = Some s' -> c35_inv s'.
  Proof.
    intros LI [HL HF] H. apply step_cases in H. destruct H as [p Dp|p a q' g' Dp L].
    - split; [assumption|]. intros r Ar. exact (HF r (alive_kill _ _ _ Ar)).
    - split; cbn [procs gl].
      + apply upd_all; [assumption|]. eapply local_inv_lstep; eauto.
      + eapply alive_inv_lstep; eauto using fs_inv_lstep, fs_inv_outside.
  Qed.

  Lemma c35_reachable pre tr s : run (init pre) tr = Some s -> lock_inv s /\ c35_inv s.
  Proof.
    apply (run_inv_all pickle unpickle bv (fun s => lock_inv s /\ c35_inv s)).
    - intros s0 e s1 [A B] H. split; [eapply lock_inv_step; eauto|eapply c35_inv_step; eauto].
    - split; [apply lock_inv_init|apply c35_inv_init].
  Qed.

  Lemma ret_done pre tr s p : run (init pre) tr = Some s -> ret (procs s p) <> None -> pc (procs s p) = Done.
  Proof.
    intros R. destruct (c35_reachable _ _ _ R) as [_ [HL _]].
    pose proof (li_ret _ (HL p)) as Ret. case_pc (pc (procs s p)); intros N; try reflexivity; now elim N.
  Qed.

  Theorem finally_region pre tr s p :
    run (init pre) tr = Some s ->
    let q := procs s p in
    dirty q = false ->
    (holds (pc q) = false -> cwd q = Home /\ infos q = 0) /\
    (alive s p -> pc q = Fin5 ->
       cwd q = Home /\ infos q = 0 /\
       dir (gl s) = true /\ jobf (gl s) = Complete tt /\ resf (gl s) = Complete (mkRes (raised q) (r_out q))).
  Proof.
    intros R q Dq. destruct (c35_reachable _ _ _ R) as [_ [HL HF]].
    pose proof (li_flags _ (HL p)) as Flags. fold q in Flags. destruct (li_clean _ (HL p) Dq) as (Ei & Ec & _). fold q in Ei, Ec.
    split.
    - intros Hh. rewrite Ei. unfold cwd_ok in Ec.
      case_pc (pc q); cbn in *; try discriminate; auto.
    - intros Ap E. pose proof (HF p Ap) as F. unfold fs_inv in F. fold q in F. unfold cwd_ok in Ec.
      rewrite E in *. cbn in *. destruct F as (F1 & F3 & F2). rewrite Ei, Ec, Flags. unfold the_result in F2. auto 10.
  Qed.

  Theorem hooks_once pre tr s p :
    run (init pre) tr = Some s ->
    let q := procs s p in
    dirty q = false -> holds (pc q) = false ->
    pre_calls q = execs q /\ post_calls q = execs q.
  Proof.
    intros R q Dq Hh. destruct (c35_reachable _ _ _ R) as [_ [HL _]].
    destruct (li_clean _ (HL p) Dq) as (_ & _ & E1 & E2). fold q in E1, E2.
    case_pc (pc q); cbn in *; try discriminate; split; congruence.
  Qed.

  (* No hook on a cache hit, as a fact about one step: no step from a pc on the way of a hit (the wait for the lock, the check that
     finds a result, Hit0 .. RelHit) calls a hook or enters the try block, and such a step leads to a pc of that
     way again or out of the submission (Miss is reached from the check only) *)
  Definition hit_path (c : pcT) : bool :=
    match c with Waiting | Hit0 | Hit1 | RelHit => true | _ => false end.
  Theorem hit_calls_no_hook p q g a q' g' :
    lstep p q g a = Some (q', g') ->
    hit_path (pc q) = true \/ (pc q = Locked /\ a = AChecked) ->
    pre_calls q' = pre_calls q /\ post_calls q' = post_calls q /\ execs q' = execs q /\
    (hit_path (pc q') = true \/ pc q' = Locked \/ pc q' = Miss \/ pc q' = Done \/ pc q' = ExcHold \/ pc q' = RelExc).
  Proof.
    intros H. lstep_cases H; intros [Hp|[Hp Ha]]; try discriminate; cbn; auto 10.
  Qed.
End C35.
