(* Proofs/TypingStaticLive.v — C21 on the tables translated from the live source, with the two predicates its
   statements are written in: [world_total] (no path is refused) and [not_rejected]. *)
From Pydra Require Import Base.Prelude Model.Typing Proofs.TypingStatic.
From Pydra Require Import Generated.TypingTables Proofs.TypingLive.
Local Open Scope string_scope.

Lemma live_c21 : tables_c21 live = true.
Proof. vm_compute. reflexivity. Qed.

Definition world_total (W : world) : Prop := forall f p, w_check W f p = None.
(* accepted, or a place where the model does not speak *)
Definition not_rejected (r : result val) : Prop := forall e, r = Err e -> e = EUnmodelled.

(* not vacuous: a connection that is accepted, whose values are converted *)
Example ex_c21 :
  check_type live (TTupleVar (TBase CFloat)) (TList (TBase CInt)) = Ok tt /\
  coerce live W_all false (TTupleVar (TBase CFloat)) (VList None [VInt None 1; VBool true]) = Ok (VTuple None [VFloat None 1; VFloat None 1]).
Proof. split; vm_compute; reflexivity. Qed.
Example ex_c21_rejected : check_type live (TList (TBase CInt)) (TList (TBase CStr)) = Err ETypeError.
Proof. vm_compute. reflexivity. Qed.

(* finding F21a (repaired by a fix: commit): a collection type is not accepted into bytes *)
Example ex_c21_bytes : check_type live (TBase CBytes) (TList (TBase CInt)) = Err ETypeError.
Proof. vm_compute. reflexivity. Qed.
