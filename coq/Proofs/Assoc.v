(* Proofs/Assoc.v — a Python dict as an insertion-ordered association list.  The models define this lookup and item
   assignment under their own names, each at its own key equality; where a model's function takes its arguments in the
   same order it is convertible to the one below at that equality, so a lemma about the model's own function is an
   `exact` of the shared one.  Item assignment comes in two spellings: assoc_set leaves the equal old key in place,
   assoc_put writes the new one; for an equality test that decides equality they are the same function (assoc_put_set). *)
From Pydra Require Import Base.Prelude.

Section Assoc.
Context {K V : Type} (eqb : K -> K -> bool) (eqb_eq : forall a b, eqb a b = true <-> a = b).

Fixpoint assoc_get (k : K) (l : list (K * V)) : option V :=
  match l with [] => None | (k', v) :: r => if eqb k k' then Some v else assoc_get k r end.

(* d[k] = v : an existing key keeps its position *)
Fixpoint assoc_set (l : list (K * V)) (k : K) (v : V) : list (K * V) :=
  match l with
  | [] => [(k, v)]
  | (k', v') :: r => if eqb k k' then (k', v) :: r else (k', v') :: assoc_set r k v
  end.

Lemma assoc_get_set l k v k0 : assoc_get k0 (assoc_set l k v) = if eqb k0 k then Some v else assoc_get k0 l.
Proof.
  induction l as [|[k' v'] l IH]; cbn; [reflexivity|].
  destruct (eqb k k') eqn:E; cbn.
  - apply eqb_eq in E. subst k'. destruct (eqb k0 k); reflexivity.
  - rewrite IH. destruct (eqb k0 k') eqn:E1; [|reflexivity].
    apply eqb_eq in E1. subst k'. destruct (eqb k0 k) eqn:E2; [|reflexivity].
    apply eqb_eq in E2. subst k0. rewrite (proj2 (eqb_eq k k) eq_refl) in E. discriminate E.
Qed.

Lemma assoc_keys_set l k v :
  map fst (assoc_set l k v) = if existsb (eqb k) (map fst l) then map fst l else map fst l ++ [k].
Proof.
  induction l as [|[k' v'] l IH]; cbn; [reflexivity|].
  destruct (eqb k k'); cbn; [reflexivity|]. rewrite IH. destruct (existsb (eqb k) (map fst l)); reflexivity.
Qed.

Lemma assoc_nodup_set l k v : NoDup (map fst l) -> NoDup (map fst (assoc_set l k v)).
Proof.
  intros H. rewrite assoc_keys_set. destruct (existsb (eqb k) (map fst l)) eqn:E; [exact H|].
  apply (NoDup_Add (Add_app k (map fst l) [])). rewrite app_nil_r. split; [exact H|].
  intros Hin. apply (proj2 (not_true_iff_false _) E), existsb_exists. exists k. split; [exact Hin|now apply eqb_eq].
Qed.

Fixpoint assoc_put (k : K) (v : V) (l : list (K * V)) : list (K * V) :=
  match l with
  | [] => [(k, v)]
  | (k', v') :: r => if eqb k k' then (k, v) :: r else (k', v') :: assoc_put k v r
  end.

Lemma assoc_put_set k v l : assoc_put k v l = assoc_set l k v.
Proof.
  induction l as [|[k' v'] l IH]; cbn; [reflexivity|].
  destruct (eqb k k') eqn:E; [apply eqb_eq in E; subst k'|rewrite IH]; reflexivity.
Qed.

Lemma assoc_get_put k v l k0 : assoc_get k0 (assoc_put k v l) = if eqb k0 k then Some v else assoc_get k0 l.
Proof. rewrite assoc_put_set. apply assoc_get_set. Qed.

Lemma assoc_get_none k l : assoc_get k l = None <-> ~ In k (map fst l).
Proof.
  induction l as [|[k' v'] l IH]; cbn; [tauto|]. destruct (eqb k k') eqn:E.
  - apply eqb_eq in E. split; [discriminate|]. intros H. destruct H. now left.
  - rewrite IH. split; [|tauto]. intros H [->|H1]; [|tauto].
    rewrite (proj2 (eqb_eq k k) eq_refl) in E. discriminate E.
Qed.

Lemma assoc_get_in k v l : assoc_get k l = Some v -> In (k, v) l.
Proof.
  induction l as [|[k' v'] l IH]; cbn; [discriminate|]. destruct (eqb k k') eqn:E; [|auto].
  apply eqb_eq in E. intros [= ->]. left. now subst.
Qed.

Lemma assoc_in_get k v l : NoDup (map fst l) -> In (k, v) l -> assoc_get k l = Some v.
Proof.
  induction l as [|[k' v'] l IH]; cbn; [tauto|]. intros N H. inversion_clear N as [|? ? N1 N2].
  destruct H as [[= -> ->]|H]; [now rewrite (proj2 (eqb_eq k k) eq_refl)|].
  destruct (eqb k k') eqn:E; [|auto]. apply eqb_eq in E. subst k'. destruct N1. now apply (in_map fst) in H.
Qed.
End Assoc.
