(* Proofs/ShellCorollaries.v — the per-field theorem read for a string field whose argstr is a single word (C23). *)
From Pydra Require Import Base.Prelude Model.Shell Spec.Shell Proofs.ShellContrib.
Local Open Scope char_scope.
Local Open Scope list_scope.

Lemma one_word n w v pos vals : lookup vals n = VAtom (AStr v) ->
  valid_ident n = true -> word_ok w = true -> occurs ellipsis (render_word n w) = false ->
  benign_text v = true -> inert [w] vals v = true ->
  command_pos_args (to_field (mkS n TStr (SA [w] false) pos [" "])) vals = Good (Some (pos, occurrence [w] vals v)).
Proof.
  intros Hl Hn Hw He Hv Hi. set (f := mkS n TStr (SA [w] false) pos [" "]).
  rewrite (contrib_ok f vals vals [w] false eq_refl).
  - unfold spec_contrib. cbn [f sf_argstr sf_name]. now rewrite Hl.
  - unfold field_ok. cbn [f sf_name sf_argstr sf_ty sf_sep optional_type]. rewrite Hn, Hl. cbn [forallb]. rewrite Hw.
    unfold dots_text_ok, render_words, atom_ok, atom_benign. cbn [map join_sep render_atom truthy_atom].
    now rewrite He, Hv, Hi, truthy_nonempty, (benign_nonempty v Hv).
  - reflexivity.
  - cbn [f sf_name]. rewrite Hl. discriminate.
Qed.

(* the hypotheses are satisfiable by strings full of shell metacharacters *)
Example own_argument_example :
  command_pos_args (to_field (mkS (la_of "inp") TStr (SA [[Lit (la_of "--in")]] false) None [" "]))
                   [(la_of "inp", VAtom (AStr (la_of "$HOME/*.nii;rm&|<>()#~")))]
  = Good (Some (None, [la_of "--in"; la_of "$HOME/*.nii;rm&|<>()#~"])).
Proof. apply (one_word (la_of "inp") [Lit (la_of "--in")]); reflexivity. Qed.
