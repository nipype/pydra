(* Proofs/CacheProtoC12.v — recovery after crashes: from every state reachable with crashes at arbitrary points
   (any partial-write length included) a later submission by a process that is alone (every other live process
   outside its with block) runs to completion on its own and returns the body's value; the body is executed at
   most once more, and not at all when a complete result can be read back.  The argument: `progress` (the next
   step is enabled and lowers `rank`) iterated by `solo`. *)
From Pydra Require Import Base.Prelude.
From Pydra Require Import Model.CacheProto Proofs.CacheProto Proofs.CacheProtoC35 Proofs.CacheProtoC10.
Local Open Scope nat_scope.

(* the steps of one submission that finds a usable result (asy: Job.run_async) *)
Definition hit_actions (asy : bool) : list action :=
  [APreRun false asy; AAcquire; AChecked; AHit; ARelease; AReturned].

(* how far a process is from the end of its submission when nothing goes wrong *)
Definition rank (c : pcT) : nat :=
  match c with
  | Waiting => 50 | Locked => 49 | Miss => 48 | Pop1 => 47 | Pop2 => 46 | Pop3 => 45
  | Sv false SAcq => 44 | Sv false SJB => 43 | Sv false SJO => 42 | Sv false SJD => 41 | Sv false SJA => 40
  | Sv false SRel => 39 | Pop4 => 38 | Pop5 => 37 | CwdCh => 36 | PreHk => 35 | AudSt => 34 | BodyIn => 33
  | BodyOut => 32 | OutsOk => 31 | Fin1 => 30 | Fin2 => 29
  | Sv true SAcq => 28 | Sv true SRB => 27 | Sv true SRO => 26 | Sv true SRD => 25 | Sv true SRA => 24
  | Sv true SJB => 23 | Sv true SJO => 22 | Sv true SJD => 21 | Sv true SJA => 20 | Sv true SRel => 19
  | Fin3 => 18 | Fin4 => 17 | Fin5 => 16 | RelOk => 15 | Post1 => 14 | Post2 => 13
  | Hit0 => 3 | Hit1 => 2 | RelHit => 1
  | _ => 0
  end.
(* the step the code takes next from pc c when nothing is raised *)
Definition next (q : proc) : action :=
  match pc q with
  | Waiting => AAcquire | Locked => AChecked | Hit0 => AHit | Hit1 => ARelease | RelHit => AReturned
  | Miss => AInfoWritten | Pop1 => ADirCleared | Pop2 => ADirCreated | Pop3 => ASaveAcq
  | Sv false SAcq => AJobBefore | Sv true SAcq => AResBefore
  | Sv _ SRB => AResOpened | Sv _ SRO => AResDumped | Sv _ SRD => AResAfter | Sv _ SRA => AJobBefore
  | Sv _ SJB => AJobOpened | Sv _ SJO => AJobDumped | Sv _ SJD => AJobAfter | Sv _ SJA => ASaveRel
  | Sv false SRel => AJobSaved | Sv true SRel => AResultSaved
  | Pop4 => APopulated | Pop5 => if is_async q then APreHook else ACwdChanged
  | CwdCh => APreHook | PreHk => AAuditStarted | AudSt => ABodyEnter | BodyIn => ABodyLeft | BodyOut => AOutputs
  | OutsOk => APostHook | Fin1 => AAuditFinal | Fin2 => ASaveAcq | Fin3 => AInfoRemoved | Fin4 => ACwdRestored
  | Fin5 => ARelease | RelOk => ALockReleased | Post1 => APostRun | Post2 => AReturned
  | _ => AReturned
  end.
(* 1 while the task body still lies ahead: 33 = rank BodyIn *)
Definition body_ahead (c : pcT) : nat := if Nat.leb 33 (rank c) then 1 else 0.

Lemma pcT_done_dec (c : pcT) : {c = Done} + {c <> Done}.
Proof. destruct c; try (right; discriminate); now left. Qed.

(* the recovery hypothesis of C12 (Props/C12.v and CacheProtoSpec.v write it out); with lock_inv it says that the
   holders of the markers, if any, are dead (alone_free) *)
Definition alone (s : state) (p : pid) : Prop := forall r, r <> p -> alive s r -> holds (pc (procs s r)) = false.

Lemma alone_free s p : lock_inv s -> alone s p ->
  (holds (pc (procs s p)) = false -> free (lock (gl s)) (gl s) = true) /\
  (holds_s (pc (procs s p)) = false -> free (slock (gl s)) (gl s) = true).
Proof.
  intros [I1 I2] Oth. split; intros Hp; [apply (marker_unheld _ _ _ I1)|apply (marker_unheld _ _ _ I2)].
  all: intros r Ar; destruct (Nat.eq_dec r p) as [->|Ne]; [exact Hp|].
  - now apply Oth.
  - apply outside_holds_s. now apply Oth.
Qed.

Lemma alone_outside_free s p : lock_inv s -> alone s p -> holds (pc (procs s p)) = false ->
  free (lock (gl s)) (gl s) = true /\ free (slock (gl s)) (gl s) = true.
Proof.
  intros LI Oth Hp. destruct (alone_free s p LI Oth) as [M1 M2]. split; [exact (M1 Hp)|exact (M2 (outside_holds_s _ Hp))].
Qed.

Section C12.
  Variable pickle : res -> list nat.
  Variable unpickle : list nat -> option res.
  Variable bv : val.
  Hypothesis unpickle_pickle : forall r, unpickle (pickle r) = Some r.
  Hypothesis prefix_rejected : forall r n, n < List.length (pickle r) -> unpickle (firstn n (pickle r)) = None.
  Hypothesis pickle_nonempty : forall r, pickle r <> [].

  Notation lstep := (lstep pickle unpickle bv).
  Notation step := (step pickle unpickle bv).
  Notation run := (run pickle unpickle bv).
  Notation init := (init bv).
  Notation load_result := (load_result pickle unpickle).
  Notation ok := (ok bv).

  (* `run` for the steps of one process, on its own state and the shared one: the hit path is evaluated on these *)
  Fixpoint lrun (p : pid) (q : proc) (g : glob) (l : list action) : option (proc * glob) :=
    match l with
    | [] => Some (q, g)
    | a :: r => match lstep p q g a with Some (q', g') => lrun p q' g' r | None => None end
    end.

  Lemma run_solo p l : forall s q' g',
    alive s p -> lrun p (procs s p) (gl s) l = Some (q', g') ->
    exists s', run s (map (pair p) l) = Some s' /\ procs s' p = q' /\ gl s' = g'.
  Proof.
    induction l as [|a l IH]; cbn [lrun map CacheProto.run]; intros s q' g' Ap H.
    - inversion H; subst. exists s. auto.
    - destruct (lstep p (procs s p) (gl s) a) as [[q1 g1]|] eqn:L; [|discriminate].
      destruct (step_own pickle unpickle bv s p a q1 g1 Ap L) as (s1 & -> & <- & <- & _ & Dd).
      apply IH; [unfold alive in *; now rewrite Dd|exact H].
  Qed.

  Lemma load_set_lock x g : load_result (set_lock x g) = load_result g.
  Proof. reflexivity. Qed.

  Lemma solo_hit p q g asy r :
    pc q = Idle \/ pc q = Done ->
    free (lock g) g = true ->
    load_result g = Some r -> errored r = false ->
    exists q', lrun p q g (hit_actions asy) = Some (q', set_lock None g) /\
               pc q' = Done /\ ret q' = Some (Returned r).
  Proof.
    intros Hpc Fl L E. destruct q as [c rr a0 cw inf vw se re ro ra rt prc poc ex dt]. cbn in Hpc.
    unfold hit_actions.
    destruct Hpc as [-> | ->].
    all: repeat progress (cbn; rewrite ?Fl, ?load_set_lock, ?L, ?E, ?Nat.eqb_refl).
    all: eexists; split; [reflexivity|]; cbn; auto.
  Qed.

  (* the last conjunct is for `solo`: rank is 0 at Idle as well as at Done, and only Done is the end *)
  Lemma progress p q g :
    pc_det (pc q) = true -> pc q <> Idle -> pc q <> Done ->
    raised q = false -> rerun q = false ->
    (pc q = Waiting -> free (lock g) g = true) ->
    (pc q = Pop3 \/ pc q = Fin2 -> free (slock g) g = true) ->
    (pc q = Pop2 -> dir g = false) ->
    (pc q = Fin3 -> infos q <> 0) ->
    exists q' g', lstep p q g (next q) = Some (q', g') /\ rank (pc q') < rank (pc q) /\
                  det (next q) = true /\ nocrash (next q) = true /\
                  runs g' + body_ahead (pc q') <= runs g + body_ahead (pc q) /\ pc q' <> Idle.
  Proof.
    intros Pd N1 N2 Ra Rr C1 C2 C3 C4.
    unfold next, lstep, CacheProto.lstep, go.
    remember (pc q) as c eqn:E. case_pc c; try discriminate Pd; try congruence.
    all: rewrite ?Rr, ?Ra, ?(C1 eq_refl), ?(C2 (or_introl eq_refl)), ?(C2 (or_intror eq_refl)), ?(C3 eq_refl).
    all: try (destruct (infos q) eqn:EI; [now specialize (C4 eq_refl)|]).
    all: try (destruct (is_async q)).
    all: try (destruct (usable _)).
    all: do 2 eexists; (split; [reflexivity|]); cbn; repeat split; try lia; try discriminate.
    all: destruct (dir g); cbn; lia.
  Qed.

  Lemma alone_step s p a q' g' :
    all_inv pickle unpickle bv s -> alone s p -> alive s p ->
    lstep p (procs s p) (gl s) a = Some (q', g') -> det a = true ->
    exists s', step s (p, a) = Some s' /\ procs s' p = q' /\ gl s' = g' /\
               all_inv pickle unpickle bv s' /\ alone s' p /\ alive s' p.
  Proof.
    intros AI Al Ap L De.
    destruct (step_own pickle unpickle bv s p a q' g' Ap L) as (s1 & St & P1 & G1 & Oth & Dd).
    exists s1. unfold alone, alive in *. rewrite Dd.
    split; [exact St|]. split; [exact P1|]. split; [exact G1|]. split; [|split; [|exact Ap]].
    - exact (all_inv_step _ _ _ unpickle_pickle prefix_rejected pickle_nonempty _ (p, a) _ AI St De).
    - intros r Ne Ar. rewrite Oth by assumption. now apply Al.
  Qed.

  (* n bounds the executions of the body still to come *)
  Definition finishes (p : pid) (n : nat) (s : state) : Prop :=
    exists tr' s', (forall e, In e tr' -> fst e = p) /\ run s tr' = Some s' /\
                   pc (procs s' p) = Done /\ ret (procs s' p) = Some (Returned ok) /\
                   runs (gl s') <= n + runs (gl s).

  Lemma finishes_cons p a s s1 n1 n :
    step s (p, a) = Some s1 -> finishes p n1 s1 -> n1 + runs (gl s1) <= n + runs (gl s) -> finishes p n s.
  Proof.
    intros St (tr' & s' & F1 & F2 & F3 & F4 & F5) Le. exists ((p, a) :: tr'), s'. cbn [CacheProto.run]. rewrite St.
    split; [intros e [<-|Hin]; auto|]. repeat split; auto. lia.
  Qed.

  (* a process left alone, with every marker absent, its own, or a dead process's, finishes its submission *)
  Lemma solo p n : forall s,
    all_inv pickle unpickle bv s -> alone s p -> alive s p ->
    rank (pc (procs s p)) < n -> pc (procs s p) <> Idle -> finishes p (body_ahead (pc (procs s p))) s.
  Proof.
    induction n as [|n IH]; intros s AI Al Ap Rk Ni; [now apply Nat.nlt_0_r in Rk|].
    destruct (pcT_done_dec (pc (procs s p))) as [Ed|Nd].
    { exists [], s. pose proof (done_ret pickle unpickle bv s p AI Ed). rewrite Ed. split; [intros e []|]. auto. }
    destruct (alone_free s p (ai_lock _ _ _ _ AI) Al) as [M1 M2].
    pose proof (ai_procs _ _ _ _ AI p) as PV.
    destruct (progress p (procs s p) (gl s) (pv_pc _ _ PV) Ni Nd (pv_raised _ _ PV) (pv_rerun _ _ PV))
      as (q' & g' & L & Rd & De & _ & Rn & Nq).
    - intros E. apply M1. now rewrite E.
    - intros E. apply M2. now destruct E as [-> | ->].
    - intros E. pose proof (ai_knows _ _ _ _ AI p Ap) as K. unfold knows in K. rewrite E in K. apply K.
    - intros E. destruct (li_clean _ (proj1 (ai_c35 _ _ _ _ AI) p) (pv_clean _ _ PV)) as (Ei & _). rewrite Ei, E. discriminate.
    - destruct (alone_step s p _ q' g' AI Al Ap L De) as (s1 & St & <- & <- & AI1 & Al1 & Ap1).
      eapply finishes_cons; [exact St|apply IH; auto; lia|lia].
  Qed.

  Lemma first_step p q g asy :
    pc q = Idle \/ pc q = Done ->
    exists q0, lstep p q g (APreRun false asy) = Some (q0, g) /\ pc q0 = Waiting.
  Proof. intros [E|E]; unfold lstep, CacheProto.lstep; rewrite E; eexists; split; reflexivity. Qed.

  Theorem recover pre tr s p (asy : bool) :
    det_trace tr = true -> run (init pre) tr = Some s ->
    alive s p -> (pc (procs s p) = Idle \/ pc (procs s p) = Done) -> alone s p -> finishes p 1 s.
  Proof.
    intros D R Ap Hpc Oth.
    pose proof (all_inv_reachable pickle unpickle bv unpickle_pickle prefix_rejected pickle_nonempty _ _ _ D R) as AI.
    destruct (first_step p (procs s p) (gl s) asy Hpc) as (q0 & L0 & E0).
    destruct (alone_step s p _ q0 _ AI Oth Ap L0 eq_refl) as (s1 & St & P1 & G1 & AI1 & Al1 & Ap1).
    apply (finishes_cons p _ s s1 1 1 St); [|now rewrite G1].
    replace 1 with (body_ahead (pc (procs s1 p))) by now rewrite P1, E0.
    apply (solo p (S (rank Waiting))); auto; rewrite P1, E0; [apply Nat.lt_succ_diag_r|discriminate].
  Qed.

  Theorem recover_hit pre tr s p (asy : bool) r :
    det_trace tr = true -> run (init pre) tr = Some s ->
    alive s p -> (pc (procs s p) = Idle \/ pc (procs s p) = Done) -> alone s p ->
    load_result (gl s) = Some r ->
    r = ok /\
    exists s', run s (map (pair p) (hit_actions asy)) = Some s' /\
               pc (procs s' p) = Done /\ ret (procs s' p) = Some (Returned ok) /\
               gl s' = set_lock None (gl s).
  Proof.
    intros D R Ap Hpc Oth L.
    pose proof (all_inv_reachable pickle unpickle bv unpickle_pickle prefix_rejected pickle_nonempty _ _ _ D R) as [LI _ V _ _].
    assert (Er : r = ok) by (eapply load_valid; eauto). subst r. split; [reflexivity|].
    assert (Fl : free (lock (gl s)) (gl s) = true).
    { apply (alone_free s p LI Oth). destruct Hpc as [E|E]; rewrite E; reflexivity. }
    destruct (solo_hit p (procs s p) (gl s) asy ok Hpc Fl L eq_refl) as (q' & Lr & E1 & E2).
    destruct (run_solo p (hit_actions asy) s q' _ Ap Lr) as (s' & Rs & P1 & P2).
    exists s'. rewrite P1, P2. auto.
  Qed.

  (* whatever prefix of the pickle a dead writer left in _result.pklz, load_result does not
     return it as a result unless it is the whole pickle *)
  Theorem truncation g r n :
    resf g = Writing r n -> n < List.length (pickle r) -> load_result g = None.
  Proof. intros. eapply load_strict_prefix; eauto. Qed.
End C12.
