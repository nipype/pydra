(* Proofs/SchedJ.v — one poll (Submitter.get_runnable_tasks): the state it leaves each node in and the jobs it
   returns, as a relation over the node list, proved once against `scan`; then what that gives under the scheduler
   invariant: the invariant is kept, every job returned may run, and a job returned for a node that was started
   before the poll has no result yet. *)
From Pydra Require Import Base.Prelude Base.SchedBase Model.Sched Spec.Sched Proofs.SchedA Proofs.SchedSpec Proofs.SchedC Proofs.SchedD Proofs.ListFacts.
Local Open Scope nat_scope.

Section Poll.
Variable V : Type.
Variable fails : job -> bool.
Variable vr : variant.
Hypothesis F14 : fix14 vr = true.
Variable g : graph.
Hypothesis WF : wf_graph g.
Variable kmax : option nat.

Notation world := (world V).
Notation nstate := (nstate V).
Notation sstate := (sstate V).
Notation GInv := (GInv V fails g).
Notation WInv := (WInv V fails).
Notation Updated := (@Updated V).
Notation task_ok := (task_ok V fails g).
Notation runs := (@runs V).
Notation refresh := (refresh V vr).
Notation runnable_state := (runnable_state V g).

(* a poll never clears a started flag *)
Definition flag_mono (st st' : nstates V) : Prop :=
  forall n, started_flag (st n) = true -> started_flag (st' n) = true.

Lemma update_ns_running (w : world) n (s : nstate) i :
  In i (running (fst (update_ns vr w n s))) -> In i (running s) \/ mem_job (n, i) (visible w) = true.
Proof.
  unfold update_ns. destruct (negb (is_started s)); [cbn; auto|]. rewrite F14. cbn.
  rewrite filter_In, in_app_iff, filter_In. intros [[H|[_ H]] _]; [left; exact H|right].
  apply andb_true_iff in H. tauto.
Qed.

(* The scan of the node list from the states st, in world w, leaving the states st' and returning tl.  What makes
   this a description without a threaded state: the state a node is left in is a function of the states BEFORE the
   poll (its own after update_status, and those of its predecessors after update_status); the order of the list
   matters only for where the scan breaks off.  A node found done stays as refreshed; the first node that is not
   done and has a predecessor that was not started ends the scan; every other node goes through
   get_runnable_tasks and contributes what it then has queued. *)
Inductive scanned (w : world) (st st' : nstates V) : list node -> list job -> Prop :=
| sc_nil : scanned w st st' [] []
| sc_done nd rest tl :
    done_ns (refresh w st (nid nd)) = true -> st' (nid nd) = refresh w st (nid nd) ->
    scanned w st st' rest tl -> scanned w st st' (nd :: rest) tl
| sc_break nd rest :
    done_ns (refresh w st (nid nd)) = false ->
    (exists p, In p (npreds nd) /\ started_flag (st p) = false) ->
    st' (nid nd) = refresh w st (nid nd) -> (forall x, In x rest -> st' (nid x) = st (nid x)) ->
    scanned w st st' (nd :: rest) []
| sc_run nd rest tl :
    done_ns (refresh w st (nid nd)) = false ->
    (forall p, In p (npreds nd) -> started_flag (st p) = true) ->
    st' (nid nd) = runnable_state w (refresh w st) (refresh w st (nid nd)) nd ->
    (started_flag (st (nid nd)) = true -> st' (nid nd) = refresh w st (nid nd)) ->
    scanned w st st' rest tl ->
    scanned w st st' (nd :: rest) (map (fun i => (nid nd, i)) (queued (st' (nid nd))) ++ tl).

(* the scan's list of nodes found not started, after one more node *)
Lemma not_started_step (st : nstates V) pre nd ns :
  (forall p, In p ns <-> In p (map nid pre) /\ started_flag (st p) = false) ->
  forall p, In p (if started_flag (st (nid nd)) then ns else nid nd :: ns)
            <-> In p (map nid (pre ++ [nd])) /\ started_flag (st p) = false.
Proof.
  intros H p. rewrite map_app, in_app_iff. cbn [map In].
  destruct (started_flag (st (nid nd))) eqn:X; cbn [In]; rewrite H; split.
  - intros [Y Z]; auto.
  - intros [[Y|[<-|[]]] Z]; [auto|congruence].
  - intros [<-|[Y Z]]; auto.
  - intros [[Y|[<-|[]]] Z]; auto.
Qed.

(* pre: the nodes already scanned; ns is the scan's not_started list, that is the nodes of pre whose flag was not set
   before the poll; a node of pre that was started has been left refreshed, hence Updated, so that all(p.done ...)
   on it as a predecessor changes nothing *)
Lemma scan_scanned (w : world) (st : nstates V) : forall rest pre ss ns acc,
  g = pre ++ rest -> GInv w ss -> WInv w ->
  (forall x, In x rest -> nst ss (nid x) = st (nid x)) ->
  (forall p, In p ns <-> In p (map nid pre) /\ started_flag (st p) = false) ->
  (forall p, In p (map nid pre) -> started_flag (st p) = true -> nst ss p = refresh w st p /\ Updated w p (nst ss p)) ->
  forall ss' tasks, scan vr g w rest ss ns acc = (ss', tasks) ->
  GInv w ss' /\ (forall m, ~ In m (map nid rest) -> nst ss' m = nst ss m)
  /\ exists tl, tasks = acc ++ tl /\ scanned w st (nst ss') rest tl.
Proof.
  induction rest as [|nd rest IH]; intros pre ss ns acc E G W Hun Hns Hfl ss' tasks ES; cbn [scan] in ES.
  - injection ES as <- <-. split; [exact G|split; [reflexivity|]]. exists []. split; [symmetry; apply app_nil_r|constructor].
  - assert (Hnd : In nd g). { rewrite E. apply in_or_app. right; left; reflexivity. }
    destruct (topo_at g pre nd rest WF E) as [Hpre [Hnpre Hnrest]].
    destruct (update_spec V fails vr F14 g w ss (nid nd) G) as [G1 [F1 K1]].
    set (ss1 := update vr w ss (nid nd)) in *.
    assert (E1 : nst ss1 (nid nd) = refresh w st (nid nd)).
    { unfold ss1, refresh. rewrite nst_update, Nat.eqb_refl, (Hun nd (or_introl eq_refl)). reflexivity. }
    assert (O1 : forall m, m <> nid nd -> nst ss1 m = nst ss m) by (intros m; apply nst_update_other).
    assert (E' : g = (pre ++ [nd]) ++ rest). { rewrite <- app_assoc. exact E. }
    assert (Hne : forall x, In x rest -> nid x <> nid nd).
    { intros x Hx Ex. apply Hnrest. rewrite <- Ex. apply in_map, Hx. }
    pose proof (gi_node G1 (nid nd)) as N1. rewrite E1 in N1.
    assert (Fl1 : started_flag (refresh w st (nid nd)) = started_flag (st (nid nd))) by apply (update_ns_flag V vr F14).
    rewrite E1 in ES. destruct (done_ns (refresh w st (nid nd))) eqn:D.
    + destruct (IH (pre ++ [nd]) ss1 ns acc E' G1 W) with (4 := ES) as [A [B [tl [C S]]]].
      * intros x Hx. rewrite (O1 _ (Hne x Hx)). apply Hun. right; exact Hx.
      * assert (X : started_flag (st (nid nd)) = true).
        { rewrite <- Fl1. apply (NInv_done V fails g w _ _ N1), D. }
        pose proof (not_started_step st pre nd ns Hns) as Y. rewrite X in Y. exact Y.
      * intros p Hp X. rewrite map_app in Hp. apply in_app_or in Hp. destruct Hp as [Hp|[<-|[]]]; [|auto].
        rewrite O1 by (intros ->; contradiction). apply Hfl; assumption.
      * split; [exact A|split].
        -- intros m Hm. cbn [map In] in Hm. rewrite B by (intros X; apply Hm; auto). apply O1. intros ->. apply Hm. left; reflexivity.
        -- exists tl. split; [exact C|]. apply sc_done; [exact D| |exact S]. rewrite (B _ Hnrest). exact E1.
    + assert (Brk : existsb (fun p => mem_nat p ns) (npreds nd) = true <->
                    exists p, In p (npreds nd) /\ started_flag (st p) = false).
      { rewrite existsb_exists. split; intros [p [Hp X]]; exists p; (split; [exact Hp|]).
        - apply mem_nat_In, Hns in X. tauto.
        - apply mem_nat_In, Hns. split; [apply (Hpre p Hp)|exact X]. }
      destruct (existsb (fun p => mem_nat p ns) (npreds nd)) eqn:BR.
      * injection ES as <- <-. split; [exact G1|split].
        -- intros m Hm. apply O1. intros ->. apply Hm. left; reflexivity.
        -- exists []. split; [symmetry; apply app_nil_r|].
           apply sc_break; [exact D|apply Brk; reflexivity|exact E1|].
           intros x Hx. rewrite (O1 _ (Hne x Hx)). apply Hun. right; exact Hx.
      * assert (Hpf : forall p, In p (npreds nd) -> started_flag (st p) = true).
        { intros p Hp. destruct (started_flag (st p)) eqn:X; [reflexivity|].
          assert (Y : false = true) by (apply Brk; exists p; auto). discriminate Y. }
        assert (Hpr : forall p, In p (npreds nd) -> nst ss1 p = refresh w st p /\ Updated w p (nst ss1 p)).
        { intros p Hp. destruct (Hpre p Hp) as [P1 P2]. rewrite O1 by (intros ->; apply P2; left; reflexivity).
          apply Hfl; auto. }
        destruct (node_runnable vr g w ss1 nd) as [ss2 tl] eqn:NR.
        destruct (node_runnable_spec V fails vr F14 g WF w ss1 nd ss2 tl G1 W Hnd (fun p Hp => proj2 (Hpr p Hp)) NR)
          as [G2 [O2 [E2 [T2 S2]]]].
        rewrite E1, (runnable_state_ext V g w _ (refresh w st)) in E2 by (intros p Hp; apply Hpr, Hp).
        rewrite E1 in S2.
        destruct (IH (pre ++ [nd]) ss2 (if is_started (refresh w st (nid nd)) then ns else nid nd :: ns) (acc ++ tl) E' G2 W)
          with (4 := ES) as [A [B [tl0 [C S]]]].
        -- intros x Hx. rewrite (O2 _ (Hne x Hx)), (O1 _ (Hne x Hx)). apply Hun. right; exact Hx.
        -- rewrite (NInv_started V fails g w _ _ N1), Fl1. apply not_started_step, Hns.
        -- intros p Hp X. rewrite map_app in Hp. apply in_app_or in Hp. destruct Hp as [Hp|[<-|[]]].
           ++ assert (Ne : p <> nid nd) by (intros ->; contradiction). rewrite (O2 _ Ne), (O1 _ Ne). apply Hfl; assumption.
           ++ rewrite <- Fl1 in X. rewrite (S2 X (not_done_runnable V fails g w _ _ N1 D X)). split; [reflexivity|].
              rewrite <- E1. exact F1.
        -- split; [exact A|split].
           ++ intros m Hm. cbn [map In] in Hm. rewrite B, O2 by (intros X; apply Hm; auto). apply O1. intros ->. apply Hm. left; reflexivity.
           ++ exists (tl ++ tl0). split; [rewrite C; symmetry; apply app_assoc|]. rewrite T2, <- (B _ Hnrest).
              apply sc_run; [exact D|exact Hpf| | |exact S]; rewrite (B _ Hnrest); [exact E2|].
              intros X. rewrite <- Fl1 in X. exact (S2 X (not_done_runnable V fails g w _ _ N1 D X)).
Qed.

Lemma poll_scanned (w : world) ss ss' tasks :
  GInv w ss -> WInv w -> poll vr g kmax w ss = (ss', tasks) ->
  GInv w ss' /\ (forall m, ~ In m (map nid g) -> nst ss' m = nst ss m)
  /\ exists tl, tasks = truncate kmax tl /\ scanned w (nst ss) (nst ss') g tl.
Proof.
  intros G W. unfold poll. destruct (scan vr g w g ss [] []) as [ss1 t1] eqn:ES. intros EP. injection EP as <- <-.
  destruct (scan_scanned w (nst ss) g [] ss [] [] eq_refl G W) with (4 := ES) as [[R N P] [B [tl [C S]]]];
    [reflexivity|intros p; cbn; tauto|intros p []|].
  split; [constructor; assumption|split; [exact B|]]. exists tl. rewrite C. auto.
Qed.

Lemma scanned_node (w : world) st st' l tl : scanned w st st' l tl -> forall nd, In nd l ->
  st' (nid nd) = st (nid nd) \/ st' (nid nd) = refresh w st (nid nd)
  \/ (started_flag (st (nid nd)) = false /\ st' (nid nd) = runnable_state w (refresh w st) (refresh w st (nid nd)) nd).
Proof.
  induction 1 as [|nd rest tl D E S IH|nd rest D Bk E O|nd rest tl D Pf E Fl S IH]; intros x Hx; [destruct Hx| | |];
    (destruct Hx as [<-|Hx]; [|auto]); auto.
  destruct (started_flag (st (nid nd))) eqn:X; auto.
Qed.

Lemma poll_node (w : world) ss ss' tasks :
  GInv w ss -> WInv w -> poll vr g kmax w ss = (ss', tasks) -> forall m,
  nst ss' m = nst ss m \/ nst ss' m = refresh w (nst ss) m
  \/ (started_flag (nst ss m) = false /\ exists nd, nst ss' m = runnable_state w (refresh w (nst ss)) (refresh w (nst ss) m) nd).
Proof.
  intros G W EP m. destruct (poll_scanned w ss ss' tasks G W EP) as [_ [B [tl [_ S]]]].
  destruct (in_dec Nat.eq_dec m (map nid g)) as [Hm|Hm]; [|auto].
  apply in_map_iff in Hm. destruct Hm as [nd [<- Hnd]].
  destruct (scanned_node w _ _ _ _ S nd Hnd) as [X|[X|[X Y]]]; eauto 6.
Qed.

Lemma poll_mono (w : world) ss ss' tasks :
  GInv w ss -> WInv w -> poll vr g kmax w ss = (ss', tasks) ->
  flag_mono (nst ss) (nst ss') /\ (forall j, runs ss j -> runs ss' j)
  /\ forall m i, In i (running (nst ss' m)) -> In i (running (nst ss m)) \/ mem_job (m, i) (visible w) = true.
Proof.
  intros G W EP. pose proof (poll_node w ss ss' tasks G W EP) as N.
  assert (Fl : forall m, started_flag (refresh w (nst ss) m) = started_flag (nst ss m)) by (intros m; apply (update_ns_flag V vr F14)).
  split; [|split].
  - intros m X. destruct (N m) as [Y|[Y|[Y _]]]; rewrite ?Y, ?Fl; congruence.
  - intros j [X U]. unfold SchedD.runs. destruct (N (fst j)) as [Y|[Y|[Y _]]]; rewrite ?Y, ?Fl; [auto| |congruence].
    unfold SchedC.refresh. rewrite (update_ns_unr V vr F14). auto.
  - intros m i Hi. destruct (N m) as [Y|[Y|[_ [nd Y]]]]; rewrite Y in Hi; [auto| |]; apply (update_ns_running w m _ i).
    + exact Hi.
    + revert Hi. unfold SchedC.runnable_state. destruct (existsb _ _); [intros []|]. destruct (_ && _); [intros []|auto].
Qed.

(* what is known of a job a poll returns.  st0 is the node-state map the poll started from: a job returned for a
   node that had its flag set then comes from an Updated `queued` and so has no result yet. *)
Definition returned (w : world) (st0 : nstates V) (ss : sstate) (j : job) : Prop :=
  task_ok w j /\ runs ss j /\ (started_flag (st0 (fst j)) = true -> is_none w j = true).

Lemma scanned_tasks (w : world) st st' l tl : scanned w st st' l tl -> forall j, In j tl ->
  exists nd, In nd l /\ fst j = nid nd /\ In (snd j) (queued (st' (nid nd)))
             /\ (started_flag (st (nid nd)) = true -> st' (nid nd) = refresh w st (nid nd)).
Proof.
  induction 1 as [|nd rest tl D E S IH|nd rest D Bk E O|nd rest tl D Pf E Fl S IH]; intros j Hj; try destruct Hj.
  - destruct (IH j Hj) as [x [A B]]. exists x. split; [right; exact A|exact B].
  - apply in_app_or in Hj. destruct Hj as [Hj|Hj].
    + apply in_queued_jobs in Hj. exists nd. split; [left; reflexivity|tauto].
    + destruct (IH j Hj) as [x [A B]]. exists x. split; [right; exact A|exact B].
Qed.

Lemma poll_spec (w : world) ss ss' tasks :
  GInv w ss -> WInv w -> poll vr g kmax w ss = (ss', tasks) ->
  GInv w ss' /\ (forall j, In j tasks -> returned w (nst ss) ss' j) /\ (forall j, runs ss j -> runs ss' j).
Proof.
  intros G W EP. destruct (poll_scanned w ss ss' tasks G W EP) as [G' [_ [tl [-> S]]]].
  split; [exact G'|split; [|apply (poll_mono w ss ss' _ G W EP)]].
  intros j Hj. assert (Hj' : In j tl) by (unfold truncate in Hj; destruct kmax; [eapply firstn_In; eauto|exact Hj]).
  destruct (scanned_tasks w _ _ _ _ S j Hj') as [nd [Hnd [Ej [Hq Hfl]]]]. destruct j as [n i]. cbn in Ej, Hq. subst n.
  pose proof (gi_node G' (nid nd)) as I2.
  destruct (queued_started V fails g w (nid nd) _ i I2 Hq) as [Fl Un].
  split; [split; [|split]; cbn|split; [split; assumption|cbn]].
  - apply (ni_upstream I2 Fl Un).
  - apply (in_all_jobs g nd i Hnd). rewrite <- (njobs_of_nd g WF nd Hnd).
    apply (ni_range I2). unfold SchedA.members. apply in_or_app. left; exact Hq.
  - apply (ni_taint_run I2 Fl Un).
  - intros F0. rewrite (Hfl F0) in Hq. apply (proj1 (proj2 (refresh_spec V fails vr F14 g w ss (nid nd) G)) i Hq).
Qed.

Lemma returned_none (w : world) ss ss' j :
  (forall j, is_none w j = false -> started_flag (nst ss (fst j)) = true) ->
  returned w (nst ss) ss' j -> is_none w j = true.
Proof. intros Hfin [_ [_ H]]. destruct (is_none w j) eqn:N; [reflexivity|]. apply H, Hfin, N. Qed.

End Poll.
