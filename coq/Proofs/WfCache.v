(* Proofs/WfCache.v — C30.  Every cache entry is the fresh construction of an earlier request (cache_ok), kept by every
   step whatever the constructor does; under the digest hypotheses and outside `excluded` each step shows what the
   cache-free spec shows (step_sim, run_ops_sim).  Object identities (no_alias) are a separate machine over the same steps.
   Then the concrete workflow definitions of Model/WfCache.v: the theorem at them (concrete_partial), its hypotheses met
   once the branches on an input are stripped from the constructors (family_transparent), and a history with such a
   branch on which the unrestricted statement fails (full_statement_refuted). *)
From Pydra Require Import Base.Prelude Model.WfCache Spec.WfCache Proofs.ListFacts.

Local Open Scope string_scope.
Local Open Scope list_scope.

Lemma mem_true_iff f l : mem f l = true <-> In f l.
Proof. exact (existsb_eqb_In String.eqb String.eqb_eq f l). Qed.

Lemma subset_spec a b : subset a b = true <-> forall f, mem f a = true -> mem f b = true.
Proof. unfold subset. rewrite forallb_forall. split; intros H f I; apply H; now apply mem_true_iff. Qed.

Lemma keys_eqb_spec a b : keys_eqb a b = true <-> forall f, mem f a = mem f b.
Proof.
  unfold keys_eqb. rewrite andb_true_iff, !subset_spec. split.
  - intros [H1 H2] f. apply eq_true_iff_eq. split; auto.
  - intros H. split; intros f; rewrite H; auto.
Qed.

Lemma keys_eqb_refl a : keys_eqb a a = true.
Proof. now apply keys_eqb_spec. Qed.

Lemma keys_eqb_trans a b c : keys_eqb a b = true -> keys_eqb b c = true -> keys_eqb a c = true.
Proof. rewrite !keys_eqb_spec. intros H1 H2 f. now rewrite H1. Qed.

Lemma subset_keys_eqb_l a a' b : keys_eqb a' a = true -> subset a b = true -> subset a' b = true.
Proof. rewrite keys_eqb_spec, !subset_spec. intros E S f. rewrite E. apply S. Qed.

Lemma find_h_In {A B} (eqb : A -> A -> bool) (l : list (A * B)) k b :
  find_h eqb l k = Some b -> exists k', In (k', b) l /\ eqb k k' = true.
Proof.
  induction l as [|[k' b'] l IH]; cbn; [discriminate|].
  destruct (eqb k k') eqn:E.
  - intros H. inversion H; subst. exists k'. split; [now left | assumption].
  - intros H. destruct (IH H) as [k'' [Hi He]]. exists k''. split; [now right | assumption].
Qed.

Lemma find_h_eq_In {A B} (eqb : A -> A -> bool) (Heqb : forall a b, eqb a b = true <-> a = b) (l : list (A * B)) k b :
  find_h eqb l k = Some b -> In (k, b) l.
Proof. intros H. destruct (find_h_In _ _ _ _ H) as (k' & Hin & He). apply Heqb in He. now subst. Qed.

Lemma lookup_notin {A} (l : list (fname * A)) f : ~ In f (map fst l) -> lookup l f = None.
Proof.
  induction l as [|[g a] r IH]; cbn; [reflexivity|]. intros Hn.
  destruct (String.eqb f g) eqn:E; [apply String.eqb_eq in E; subst; elim Hn; now left|].
  apply IH. intros Hi. apply Hn. now right.
Qed.

Lemma replace_nth_map {A B} (g : A -> B) l i x :
  map g (replace_nth l i x) = replace_nth (map g l) i (g x).
Proof.
  revert i. induction l as [|y l IH]; intros [|i]; cbn; try reflexivity. now rewrite IH.
Qed.

Lemma Forall_replace_nth {A} (P : A -> Prop) l i x : Forall P l -> P x -> Forall P (replace_nth l i x).
Proof. intros H Hx. revert i. induction H; intros [|i]; cbn; auto. Qed.

Definition idobs_ok (o : idobs) : Prop :=
  (forall n, id_ret o = Some n -> ~ In n (id_user o)) /\
  (forall n, id_written o = Some n -> ~ In n (id_cached o)).

Lemma idobs_ok_none u c : idobs_ok {| id_ret := None; id_written := None; id_user := u; id_cached := c |}.
Proof. split; intros n H; discriminate. Qed.

Lemma idobs_ok_ret n u c : ~ In n u -> idobs_ok {| id_ret := Some n; id_written := None; id_user := u; id_cached := c |}.
Proof. intros H. split; cbn; intros m Hm; [inversion Hm; now subst | discriminate]. Qed.

Section Abstract.
  Variable V : Type.
  Variable T : Type.
  Variable G : Type.
  Variable R : Type.
  Variable HT HD HC : Type.
  Variable ht_eqb : HT -> HT -> bool.
  Variable hd_eqb : HD -> HD -> bool.
  Variable hc_eqb : HC -> HC -> bool.
  Variable hash_type : T -> HT.
  Variable hash_dict : list (fname * V) -> HD.
  Variable checksum : T -> list (fname * V) -> HC.
  Variable type_name : T -> string.
  Variable fields : T -> list fname.
  Variable default : T -> fname -> attr V.
  Variable ctor : T -> list (fname * arg V) -> G.
  Variable subst : list (fname * V) -> G -> G.
  Variable eval : G -> R.
  Variable g_eqb : G -> G -> bool.

  (* digests are compared by equality *)
  Hypothesis ht_eqb_spec : forall a b, ht_eqb a b = true <-> a = b.
  Hypothesis hd_eqb_spec : forall a b, hd_eqb a b = true <-> a = b.
  Hypothesis hc_eqb_spec : forall a b, hc_eqb a b = true <-> a = b.
  (* graph equality is decidable: only the classifier [excluded] uses it *)
  Hypothesis g_eqb_spec : forall a b, g_eqb a b = true <-> a = b.
  (* no hash collision *)
  Hypothesis hash_type_inj : forall a b, hash_type a = hash_type b -> a = b.
  Hypothesis hash_dict_inj : forall a b, hash_dict a = hash_dict b -> a = b.
  Hypothesis checksum_inj : forall t l t' l', checksum t l = checksum t' l' -> t = t' /\ l = l'.
  (* a class has distinct field names *)
  Hypothesis fields_nodup : forall t, NoDup (fields t).

  Notation wfT := (wf V G).
  Notation cacheT := (cache V G HT HD).
  Notation nlv := (non_lazy_vals V).
  Notation mk_inputs' := (mk_inputs V).
  Notation build' := (build V T G type_name ctor).
  Notation construct' := (construct V T G HT HD ht_eqb hd_eqb hash_type hash_dict type_name ctor).
  Notation fresh' := (fresh V T G type_name ctor).
  Notation view' := (view V G subst).
  Notation spec_inputs' := (spec_inputs V).
  Notation given' := (given_values V).
  Notation excluded_req' := (excluded_req V T G ctor subst g_eqb).
  Notation step' := (step V T G R HT HD HC ht_eqb hd_eqb hc_eqb hash_type hash_dict checksum type_name fields
                           default ctor subst eval).
  Notation run_ops' := (run_ops V T G R HT HD HC ht_eqb hd_eqb hc_eqb hash_type hash_dict checksum type_name fields
                           default ctor subst eval).
  Notation spec_obs' := (spec_obs V T G R type_name ctor subst eval).
  Notation obj_step' := (obj_step V T fields default).
  Notation spec_run' := (spec_run V T G R type_name fields default ctor subst eval).
  Notation excluded_from' := (excluded_from V T G fields default ctor subst g_eqb).
  Notation abs' := (abs_obs V G R subst).

  Lemma nlv_names attrs lazy f : In f (map fst (nlv attrs lazy)) -> In f (map fst attrs).
  Proof.
    induction attrs as [|[g [v|]] r IH]; cbn; [auto| |auto].
    destruct (mem g lazy); cbn; [auto|]. intros [H|H]; auto.
  Qed.

  Lemma lookup_nlv attrs lazy f a :
    NoDup (map fst attrs) -> In (f, a) attrs ->
    lookup (nlv attrs lazy) f =
      match a with AVal v => if mem f lazy then None else Some v | ALazy => None end.
  Proof.
    induction attrs as [|[g b] r IH]; cbn [nlv In map fst]; [intros _ []|].
    intros Hnd Hi. inversion Hnd as [|? ? Hnot Hnd']; subst.
    assert (Hr : lookup (nlv r lazy) g = None) by (apply lookup_notin; intros X; now apply nlv_names in X).
    destruct Hi as [He|Hi].
    - inversion He; subst g b. destruct a as [v|]; [|exact Hr].
      destruct (mem f lazy); [exact Hr|]. cbn. now rewrite String.eqb_refl.
    - assert (E : String.eqb f g = false).
      { apply String.eqb_neq. intros ->. apply Hnot. change g with (fst (g, a)). now apply in_map. }
      destruct b as [v|]; [|now apply IH]. destruct (mem g lazy); [now apply IH|]. cbn. rewrite E. now apply IH.
  Qed.

  Lemma mk_inputs_spec attrs lazy :
    NoDup (map fst attrs) -> mk_inputs' attrs (nlv attrs lazy) = spec_inputs' attrs lazy.
  Proof.
    intros Hnd. unfold mk_inputs, spec_inputs. apply map_ext_in. intros [f a] Hi. cbn.
    rewrite (lookup_nlv attrs lazy f a Hnd Hi).
    destruct a as [v|]; [destruct (mem f lazy)|]; reflexivity.
  Qed.

  Lemma lookup_restrict (l : list (fname * V)) ks f :
    lookup (restrict V l ks) f = if mem f ks then lookup l f else None.
  Proof.
    unfold restrict. induction l as [|[g v] r IH]; cbn; [now destruct (mem f ks)|].
    destruct (mem g ks) eqn:Eg; cbn.
    - destruct (String.eqb f g) eqn:E.
      + apply String.eqb_eq in E. subst. now rewrite Eg.
      + apply IH.
    - rewrite IH. destruct (String.eqb f g) eqn:E; [|reflexivity].
      apply String.eqb_eq in E. subst. now rewrite Eg.
  Qed.

  Lemma mk_inputs_restrict attrs lazy ks :
    NoDup (map fst attrs) ->
    mk_inputs' attrs (restrict V (nlv attrs lazy) ks) = lazy_except V attrs lazy ks.
  Proof.
    intros Hnd. unfold mk_inputs, lazy_except. apply map_ext_in. intros [f a] Hi. cbn.
    rewrite lookup_restrict, (lookup_nlv attrs lazy f a Hnd Hi).
    destruct a as [v|]; [destruct (mem f lazy); destruct (mem f ks)| destruct (mem f ks)]; reflexivity.
  Qed.

  Lemma restrict_ext (l : list (fname * V)) ks ks' :
    (forall f, mem f ks = mem f ks') -> restrict V l ks = restrict V l ks'.
  Proof. intros H. unfold restrict. apply filter_ext. intros [f v]. cbn. apply H. Qed.

  Lemma mk_inputs_names (a b : list (fname * attr V)) l :
    map fst a = map fst b -> mk_inputs' a l = mk_inputs' b l.
  Proof.
    intros H. unfold mk_inputs.
    transitivity (map (fun f => (f, match lookup l f with Some v => Conc v | None => LzIn f end)) (map fst a)).
    - rewrite map_map. reflexivity.
    - rewrite H, map_map. reflexivity.
  Qed.

  Lemma given_spec_inputs attrs lazy : given' (spec_inputs' attrs lazy) = nlv attrs lazy.
  Proof.
    unfold spec_inputs. induction attrs as [|[f a] r IH]; cbn; [reflexivity|].
    destruct a as [v|]; [destruct (mem f lazy)|]; cbn; now rewrite IH.
  Qed.

  Lemma conc_given (i : list (fname * arg V)) : conc_part V i = given' i.
  Proof. induction i as [|[f [v|g]] r IH]; cbn; now rewrite ?IH. Qed.

  Lemma build_fresh t attrs lazy :
    map fst attrs = fields t -> build' t attrs (nlv attrs lazy) = fresh' t attrs lazy.
  Proof.
    intros Hn. unfold build, fresh. rewrite mk_inputs_spec; [reflexivity|].
    rewrite Hn. apply fields_nodup.
  Qed.

  Definition In_cache (c : cacheT) (th : HT) (ks : list fname) (vh : HD) (w : wfT) : Prop :=
    exists tc kc, In (th, tc) c /\ In (ks, kc) tc /\ In (vh, w) kc.

  (* every entry is the fresh construction of a request made earlier in the history *)
  Definition entry_ok (earlier : list (list fname)) (th : HT) (ks : list fname) (vh : HD) (w : wfT) : Prop :=
    exists t attrs lazy,
      map fst attrs = fields t /\ hash_type t = th /\
      keys_eqb (map fst (nlv attrs lazy)) ks = true /\
      hash_dict (nlv attrs lazy) = vh /\
      w = fresh' t attrs lazy /\
      In (map fst (nlv attrs lazy)) earlier.

  Definition cache_ok (earlier : list (list fname)) (c : cacheT) : Prop :=
    forall th ks vh w, In_cache c th ks vh w -> entry_ok earlier th ks vh w.

  Lemma entry_ok_mono e e' th ks vh w : entry_ok e th ks vh w -> entry_ok (e ++ e') th ks vh w.
  Proof.
    intros (t & attrs & lazy & H1 & H2 & H3 & H4 & H5 & H6).
    exists t, attrs, lazy. repeat split; try assumption. apply in_or_app. now left.
  Qed.

  Lemma cache_ok_mono e e' c : cache_ok e c -> cache_ok (e ++ e') c.
  Proof. intros H th ks vh w Hi. apply entry_ok_mono. now apply H. Qed.

  Definition In_tc (tc : tcache V G HD) (ks : list fname) (vh : HD) (w : wfT) : Prop :=
    exists kc, In (ks, kc) tc /\ In (vh, w) kc.

  Lemma In_tc_cons ks0 kc0 (tc : tcache V G HD) ks vh w :
    In_tc ((ks0, kc0) :: tc) ks vh w <-> ks = ks0 /\ In (vh, w) kc0 \/ In_tc tc ks vh w.
  Proof.
    split.
    - intros (kc & [E|I] & H); [inversion E; subst; auto | right; now exists kc].
    - intros [[-> H]|(kc & I & H)]; [exists kc0 | exists kc]; cbn; auto.
  Qed.

  Lemma In_cache_cons th0 tc0 (c : cacheT) th ks vh w :
    In_cache ((th0, tc0) :: c) th ks vh w <-> th = th0 /\ In_tc tc0 ks vh w \/ In_cache c th ks vh w.
  Proof.
    split.
    - intros (tc & kc & [E|I] & H); [|right; now exists tc, kc].
      inversion E; subst. left. split; [reflexivity | now exists kc].
    - intros [[-> (kc & H)]|(tc & kc & I & H)]; [exists tc0, kc | exists tc, kc]; cbn; auto.
  Qed.

  Lemma In_tc_insert (tc : tcache V G HD) keys vh w ks' vh' w' :
    In_tc (insert_k V G HD tc keys vh w) ks' vh' w' ->
    In_tc tc ks' vh' w' \/ (keys_eqb keys ks' = true /\ vh' = vh /\ w' = w).
  Proof.
    induction tc as [|[ks0 kc0] r IH]; cbn [insert_k].
    - rewrite In_tc_cons. intros [[-> [E|[]]]|(kc & [] & _)]. inversion E. auto using keys_eqb_refl.
    - destruct (keys_eqb keys ks0) eqn:E; rewrite !In_tc_cons.
      + intros [[-> H]|H]; [|auto]. apply in_app_or in H. destruct H as [H|[H|[]]]; [auto|]. inversion H; subst. auto.
      + intros [H|H]; [auto|]. destruct (IH H); auto.
  Qed.

  Lemma In_cache_insert (c : cacheT) th keys vh w th' ks' vh' w' :
    In_cache (insert_t V G HT HD ht_eqb c th keys vh w) th' ks' vh' w' ->
    In_cache c th' ks' vh' w' \/ (th' = th /\ keys_eqb keys ks' = true /\ vh' = vh /\ w' = w).
  Proof.
    induction c as [|[th0 tc0] r IH]; cbn [insert_t].
    - rewrite In_cache_cons. intros [[-> H]|(tc & kc & [] & _)].
      destruct (In_tc_insert [] _ _ _ _ _ _ H) as [(kc & [] & _)|N]. auto.
    - destruct (ht_eqb th th0) eqn:E; rewrite !In_cache_cons.
      + apply ht_eqb_spec in E. subst th0. intros [[-> H]|H]; [|auto]. destruct (In_tc_insert _ _ _ _ _ _ _ H); auto.
      + intros [H|H]; [auto|]. destruct (IH H); auto.
  Qed.

  Lemma In_cache_clear (c : cacheT) th th' ks vh w :
    In_cache (clear_type V G HT HD ht_eqb c th) th' ks vh w -> In_cache c th' ks vh w.
  Proof.
    induction c as [|[th0 tc0] r IH]; cbn [clear_type]; [auto|].
    destruct (ht_eqb th th0); rewrite !In_cache_cons; [intros [[_ (kc & [] & _)]|H] | intros [H|H]]; auto.
  Qed.

  Lemma exact_lookup_In (tc : tcache V G HD) keys vh w :
    exact_lookup V G HD hd_eqb tc keys vh = Some w -> exists ks, keys_eqb keys ks = true /\ In_tc tc ks vh w.
  Proof.
    unfold exact_lookup. destruct (find_h keys_eqb tc keys) as [kc|] eqn:E; [|discriminate].
    intros H. apply find_h_In in E. destruct E as [ks [Hin He]].
    apply (find_h_eq_In _ hd_eqb_spec) in H. exists ks. split; [assumption|now exists kc].
  Qed.

  Lemma superset_lookup_In (tc : tcache V G HD) l keys ks w :
    superset_lookup V G HD hd_eqb hash_dict tc l keys = Some (ks, w) ->
    subset ks keys = true /\ In_tc tc ks (hash_dict (restrict V l ks)) w.
  Proof.
    induction tc as [|[ks' kc'] r IH]; cbn [superset_lookup]; [discriminate|]. rewrite In_tc_cons.
    destruct (subset ks' keys) eqn:Es; [destruct (find_h hd_eqb kc' (hash_dict (restrict V l ks'))) as [w'|] eqn:Ef|].
    2,3: intros H; destruct (IH H); auto.
    intros H. inversion H; subst ks' w'. apply (find_h_eq_In _ hd_eqb_spec) in Ef. auto.
  Qed.

  Lemma set_extra_inputs (w0 : wfT) attrs l ks :
    winputs w0 = mk_inputs' attrs (restrict V l ks) ->
    winputs (set_extra V G w0 l ks) = mk_inputs' attrs l.
  Proof.
    intros H. cbn. rewrite H. unfold mk_inputs. rewrite map_map. apply map_ext. intros [f a]. cbn.
    rewrite lookup_restrict. destruct (mem f ks); cbn; [reflexivity|].
    destruct (lookup l f); reflexivity.
  Qed.

  Lemma req_keys_nlv attrs lazy : req_keys V attrs lazy = map fst (nlv attrs lazy).
  Proof. unfold req_keys. now rewrite given_spec_inputs. Qed.

  Lemma cache_hit earlier c t attrs ks l w :
    cache_ok earlier c -> map fst attrs = fields t ->
    In_tc (type_cache V G HT HD ht_eqb c (hash_type t)) ks (hash_dict l) w ->
    w = build' t attrs l /\ keys_eqb (map fst l) ks = true /\ In (map fst l) earlier.
  Proof.
    intros Hok Hn. unfold type_cache.
    destruct (find_h ht_eqb c (hash_type t)) as [tc|] eqn:E; [|intros (kc & [] & _)]. intros (kc & Hk).
    apply (find_h_eq_In _ ht_eqb_spec) in E.
    destruct (Hok (hash_type t) ks (hash_dict l) w) as (t0 & a0 & l0 & Hn0 & Hth & Hk0 & Hvh & -> & Hin0);
      [now exists tc, kc|].
    apply hash_type_inj in Hth. apply hash_dict_inj in Hvh. subst t0 l.
    rewrite <- (build_fresh t a0 l0 Hn0). unfold build. rewrite (mk_inputs_names a0 attrs) by congruence. auto.
  Qed.

  (* on a superset-of-lazy hit the graph is the one built while only the keys k0 of an earlier request were concrete *)
  Lemma construct_result c t attrs lazy dc earlier c' w h :
    cache_ok earlier c -> map fst attrs = fields t ->
    construct' c t attrs lazy dc = (c', w, h) ->
    cache_ok (earlier ++ [req_keys V attrs lazy]) c' /\
    (w = fresh' t attrs lazy \/
     h = Superset /\ exists k0, In k0 earlier /\ subset k0 (req_keys V attrs lazy) = true /\
       w = {| wname := type_name t; winputs := spec_inputs' attrs lazy;
              wgraph := ctor t (lazy_except V attrs lazy k0) |}).
  Proof.
    intros Hok Hn. unfold construct. rewrite req_keys_nlv.
    assert (Hnd : NoDup (map fst attrs)) by (rewrite Hn; apply fields_nodup).
    destruct (exact_lookup V G HD hd_eqb (type_cache V G HT HD ht_eqb c (hash_type t))
                (map fst (nlv attrs lazy)) (hash_dict (nlv attrs lazy))) as [we|] eqn:Ee.
    - intros H. inversion H; subst c' w h. clear H. split; [now apply cache_ok_mono|]. left.
      apply exact_lookup_In in Ee. destruct Ee as (ks & _ & Hin).
      destruct (cache_hit _ _ _ attrs _ _ _ Hok Hn Hin) as [-> _]. now apply build_fresh.
    - destruct (superset_lookup V G HD hd_eqb hash_dict (type_cache V G HT HD ht_eqb c (hash_type t))
                  (nlv attrs lazy) (map fst (nlv attrs lazy))) as [[ks w0]|] eqn:Es.
      + intros H. inversion H; subst c' w h. clear H. split; [now apply cache_ok_mono|]. right. split; [reflexivity|].
        apply superset_lookup_In in Es. destruct Es as (Hsub & Hin).
        destruct (cache_hit _ _ _ attrs _ _ _ Hok Hn Hin) as (-> & Hk0 & Hin0).
        (* [earlier] holds the earlier request's own key list; ks is known equal to it only as a set *)
        exists (map fst (restrict V (nlv attrs lazy) ks)). split; [exact Hin0|].
        split; [now apply (subset_keys_eqb_l ks)|]. unfold set_extra. f_equal.
        * rewrite <- (mk_inputs_spec attrs lazy Hnd). exact (set_extra_inputs (build' t attrs _) attrs _ _ eq_refl).
        * cbn [wgraph build]. rewrite <- (mk_inputs_restrict attrs lazy _ Hnd). do 2 f_equal.
          apply restrict_ext. intros f. symmetry. now apply keys_eqb_spec.
      + intros H. inversion H; subst c' w h. clear H. rewrite (build_fresh t attrs lazy Hn).
        split; [|now left]. destruct dc; [now apply cache_ok_mono|].
        intros th ks vh w Hi. apply In_cache_insert in Hi.
        destruct Hi as [Hi|(-> & Hke & -> & ->)]; [apply entry_ok_mono; now apply Hok|].
        exists t, attrs, lazy. repeat split; try assumption. apply in_or_app. right. now left.
  Qed.

  Lemma construct_view c t attrs lazy dc earlier c' w h :
    cache_ok earlier c -> map fst attrs = fields t ->
    construct' c t attrs lazy dc = (c', w, h) ->
    excluded_req' earlier t attrs lazy = false -> view' w = view' (fresh' t attrs lazy).
  Proof.
    intros Hok Hn Hc Hex.
    destruct (construct_result _ _ _ _ _ _ _ _ _ Hok Hn Hc) as [_ [->|(_ & k0 & Hin & Hs & ->)]]; [reflexivity|].
    pose proof (existsb_false_at Hex Hin) as H. cbv beta in H. rewrite Hs in H.
    apply negb_false_iff, g_eqb_spec in H. unfold view. cbn [wname winputs wgraph fresh]. now f_equal.
  Qed.

  Notation objT := (obj V T).
  Notation sobjT := (sobj V T).
  Definition o2s (ob : objT) : sobjT := (otype V T ob, oattrs V T ob).

  Definition have_fields (os : list sobjT) : Prop := Forall (fun '(t, a) => map fst a = fields t) os.

  Lemma new_attrs_names t given : map fst (new_attrs V T fields default t given) = fields t.
  Proof. unfold new_attrs. rewrite map_map. cbn. apply map_id. Qed.

  Lemma set_attr_names attrs f a : map fst (set_attr V attrs f a) = map fst attrs.
  Proof.
    unfold set_attr. rewrite map_map. apply map_ext. intros [g b]. cbn.
    now destruct (String.eqb f g).
  Qed.

  Lemma set_attrs_names attrs ch : map fst (set_attrs V attrs ch) = map fst attrs.
  Proof.
    unfold set_attrs. rewrite map_map. apply map_ext. intros [g b]. cbn.
    now destruct (lookup ch g).
  Qed.

  Lemma have_fields_app os t a : have_fields os -> map fst a = fields t -> have_fields (os ++ [(t, a)]).
  Proof.
    intros H Ha. apply Forall_app. split; [exact H|]. now constructor.
  Qed.

  Lemma all_vals_spec attrs : forall vals,
    all_vals V attrs = Some vals ->
    spec_inputs' attrs [] = map (fun fv => (fst fv, Conc (snd fv))) vals /\ nlv attrs [] = vals.
  Proof.
    induction attrs as [|[f [v|]] r IH]; cbn; intros vals H; [inversion H; now split| |discriminate].
    destruct (all_vals V r) as [l|]; [|discriminate]. inversion H; subst.
    destruct (IH l eq_refl) as [E1 E2]. split; [cbn [map fst snd]|]; f_equal; [exact E1|exact E2].
  Qed.

  Notation stT := (st V T G R HT HD HC).
  Notation objs' := (objs V T G R HT HD HC).
  Notation wcache' := (wcache V T G R HT HD HC).
  Notation store' := (store V T G R HT HD HC).
  Notation req_of' := (req_of V T).
  Notation earlier_after' := (earlier_after V T).

  Definition sim_st (s : stT) (os : list sobjT) (earlier : list (list fname)) : Prop :=
    os = map o2s (objs' s) /\ have_fields os /\ cache_ok earlier (wcache' s).

  Definition store_ok (s : stT) : Prop :=
    forall ck r, In (ck, r) (store' s) ->
                 exists t vals, ck = checksum t vals /\ r = fresh_result V T G R ctor subst eval t vals.

  Lemma cache_ok_after os o e c : cache_ok e c -> cache_ok (earlier_after' os o e) c.
  Proof. intros H. unfold earlier_after. destruct (req_of' os o) as [[[t a] l]|]; [now apply cache_ok_mono | exact H]. Qed.

  Lemma cache_ok_nil e : cache_ok e [].
  Proof. intros th ks vh w (tc & kc & [] & _). Qed.

  Lemma nth_has_fields os i t a : have_fields os -> nth_error os i = Some (t, a) -> map fst a = fields t.
  Proof. intros H En. apply nth_error_In in En. exact (proj1 (Forall_forall _ _) H _ En). Qed.

  Lemma nth_obj_has_fields so i t a :
    have_fields (map o2s so) -> nth_error so i = Some {| otype := t; oattrs := a |} -> map fst a = fields t.
  Proof. intros H En. apply (nth_has_fields _ i _ _ H). now rewrite nth_error_map, En. Qed.

  Lemma obj_step_have_fields os o : have_fields os -> have_fields (obj_step' os o).
  Proof.
    intros Hwf. destruct o as [t given|i f a|i|i ch|i|i lazy dc|i nr|t]; cbn [obj_step]; try assumption.
    - apply have_fields_app; [assumption | apply new_attrs_names].
    - destruct (nth_error os i) as [[t0 a0]|] eqn:En; [|assumption].
      destruct (mem f (map fst a0)); [|assumption].
      apply Forall_replace_nth; [assumption|]. rewrite set_attr_names. eapply nth_has_fields; eassumption.
    - destruct (nth_error os i) as [[t0 a0]|] eqn:En; [|assumption].
      apply have_fields_app; [assumption|]. eapply nth_has_fields; eassumption.
    - destruct (nth_error os i) as [[t0 a0]|] eqn:En; [|assumption].
      apply have_fields_app; [assumption|]. rewrite set_attrs_names. eapply nth_has_fields; eassumption.
  Qed.

  Lemma req_of_has_fields os o t a l : have_fields os -> req_of' os o = Some (t, a, l) -> map fst a = fields t.
  Proof.
    intros Hwf. destruct o as [t1 given|i f a1|i|i ch|i|i lazy dc|i nr|t1]; try discriminate; cbn [req_of];
      (destruct (nth_error os i) as [[t0 a0]|] eqn:En; [|discriminate]).
    3: destruct (all_vals V a0); [|discriminate].
    all: intros E; inversion E; subst; eapply nth_has_fields; eassumption.
  Qed.

  Lemma step_objs (s : stT) o : map o2s (objs' (fst (step' s o))) = obj_step' (map o2s (objs' s)) o.
  Proof.
    destruct o as [t given|i f a|i|i ch|i|i lazy dc|i nr|[t|]]; cbn [step obj_step objs fst]; rewrite ?nth_error_map;
      try (destruct (nth_error (objs' s) i) as [[t0 a0]|]; cbn [option_map o2s otype oattrs]); try reflexivity.
    - apply map_app.
    - destruct (mem f (map fst a0)); [exact (replace_nth_map o2s _ _ _) | reflexivity].
    - apply map_app.
    - apply map_app.
    - now destruct (construct' _ _ _ _ _) as [[c w] h].
    - now destruct (construct' _ _ _ _ _) as [[c w] h].
    - destruct (all_vals V a0); [|reflexivity]. destruct (if nr then _ else _); [reflexivity|].
      now destruct (construct' _ _ _ _ _) as [[c w] h].
  Qed.

  (* the cache part of the invariant is kept whatever the constructor does *)
  Lemma step_cache (s : stT) o e :
    have_fields (map o2s (objs' s)) -> cache_ok e (wcache' s) ->
    cache_ok (earlier_after' (map o2s (objs' s)) o e) (wcache' (fst (step' s o))).
  Proof.
    intros Hwf Hc.
    destruct o as [t given|i f a|i|i ch|i|i lazy dc|i nr|[t|]]; unfold earlier_after;
      cbn [step req_of wcache fst]; rewrite ?nth_error_map;
      try (destruct (nth_error (objs' s) i) as [[t0 a0]|] eqn:En; cbn [option_map o2s otype oattrs]);
      try assumption.
    - now destruct (mem f (map fst a0)).
    - destruct (construct' _ _ _ _ _) as [[c w] h] eqn:Ec. eapply proj1, construct_result; eauto using nth_obj_has_fields.
    - destruct (construct' _ _ _ _ _) as [[c w] h] eqn:Ec. eapply proj1, construct_result; eauto using nth_obj_has_fields.
    - destruct (all_vals V a0); [|assumption]. destruct (if nr then _ else _); [now apply cache_ok_mono|].
      destruct (construct' _ _ _ _ _) as [[c w] h] eqn:Ec. eapply proj1, construct_result; eauto using nth_obj_has_fields.
    - intros th' ks vh w Hi. apply Hc. now apply In_cache_clear in Hi.
    - apply cache_ok_nil.
  Qed.

  Lemma step_inv s os earlier o :
    sim_st s os earlier -> sim_st (fst (step' s o)) (obj_step' os o) (earlier_after' os o earlier).
  Proof.
    intros (-> & Hwf & Hc). split; [symmetry; apply step_objs|]. split; [now apply obj_step_have_fields | now apply step_cache].
  Qed.

  Notation state_after' := (state_after V T G R HT HD HC ht_eqb hd_eqb hc_eqb hash_type hash_dict checksum type_name
                              fields default ctor subst eval).
  Notation st0' := (st0 V T G R HT HD HC).

  Lemma sim_st_init : sim_st st0' [] [].
  Proof. unfold sim_st. cbn. repeat split. - constructor. - apply cache_ok_nil. Qed.

  Lemma state_after_inv ops : forall s os e,
    sim_st s os e -> exists os' e', sim_st (state_after' s ops) os' e'.
  Proof.
    induction ops as [|o r IH]; intros s os e Hi; cbn [state_after].
    - now exists os, e.
    - eapply IH, step_inv, Hi.
  Qed.

  Lemma reachable_cache_ok ops : exists e, cache_ok e (wcache' (state_after' st0' ops)).
  Proof. destruct (state_after_inv ops _ _ _ sim_st_init) as (os & e & _ & _ & H). now exists e. Qed.

  Theorem exact_hit_sound ops t attrs lazy dc c' w :
    map fst attrs = fields t ->
    construct' (wcache' (state_after' st0' ops)) t attrs lazy dc = (c', w, Exact) ->
    w = fresh' t attrs lazy.
  Proof.
    intros Hn Hc. destruct (reachable_cache_ok ops) as (e & Hok).
    destruct (construct_result _ _ _ _ _ _ _ _ _ Hok Hn Hc) as [_ [H|[H _]]]; [exact H|discriminate].
  Qed.

  Theorem no_leak ops t attrs lazy dc c' w h :
    map fst attrs = fields t ->
    construct' (wcache' (state_after' st0' ops)) t attrs lazy dc = (c', w, h) ->
    wname w = type_name t /\ winputs w = spec_inputs' attrs lazy.
  Proof.
    intros Hn Hc. destruct (reachable_cache_ok ops) as (e & Hok).
    destruct (construct_result _ _ _ _ _ _ _ _ _ Hok Hn Hc) as [_ [->|(_ & k0 & _ & _ & ->)]]; now split.
  Qed.

  Lemma excluded_req_param earlier t attrs lazy :
    (forall ks, nonparam_at V T G ctor subst g_eqb t attrs lazy ks = false) ->
    excluded_req' earlier t attrs lazy = false.
  Proof.
    intros H. unfold excluded_req. induction earlier as [|k r IH]; cbn; [reflexivity|].
    rewrite H, andb_false_r. exact IH.
  Qed.

  Theorem superset_hit_sound ops t attrs lazy dc c' w :
    map fst attrs = fields t ->
    (forall ks, nonparam_at V T G ctor subst g_eqb t attrs lazy ks = false) ->
    construct' (wcache' (state_after' st0' ops)) t attrs lazy dc = (c', w, Superset) ->
    view' w = view' (fresh' t attrs lazy).
  Proof.
    intros Hn Hp Hc. destruct (reachable_cache_ok ops) as (e & Hok).
    eapply construct_view; eauto using excluded_req_param.
  Qed.

  Lemma inst_lazy_except attrs lazy ks :
    NoDup (map fst attrs) ->
    inst V (nlv attrs lazy) (lazy_except V attrs lazy ks) = spec_inputs' attrs lazy.
  Proof.
    intros Hnd. unfold inst, lazy_except, spec_inputs. rewrite map_map. apply map_ext_in.
    intros [f a] Hi. cbn. pose proof (lookup_nlv attrs lazy f a Hnd Hi) as L.
    destruct a as [v|]; [destruct (mem f lazy), (mem f ks)|]; cbn; rewrite ?L; reflexivity.
  Qed.

  Lemma parametric_nonparam t attrs lazy ks :
    parametric V T G ctor subst -> map fst attrs = fields t ->
    nonparam_at V T G ctor subst g_eqb t attrs lazy ks = false.
  Proof.
    intros Hp Hn. unfold nonparam_at. apply negb_false_iff, g_eqb_spec.
    rewrite given_spec_inputs. rewrite (Hp t (nlv attrs lazy) (lazy_except V attrs lazy ks)).
    rewrite inst_lazy_except; [reflexivity|]. rewrite Hn. apply fields_nodup.
  Qed.

  Lemma view_result w t a vals :
    view' w = view' (fresh' t a []) -> all_vals V a = Some vals ->
    eval (resolved V G subst w) = fresh_result V T G R ctor subst eval t vals.
  Proof.
    intros Hv Ea. destruct (all_vals_spec a vals Ea) as [Hsi Hnl]. apply (f_equal snd) in Hv. cbn [view snd] in Hv.
    unfold resolved, fresh_result. rewrite conc_given, Hv. cbn [wgraph winputs fresh].
    now rewrite given_spec_inputs, Hnl, Hsi.
  Qed.

  Lemma step_sim (s : stT) os earlier o :
    sim_st s os earlier -> store_ok s ->
    match req_of' os o with Some (t, a, lazy) => excluded_req' earlier t a lazy | None => false end = false ->
    abs' (snd (step' s o)) = spec_obs' os o /\ store_ok (fst (step' s o)).
  Proof.
    intros (-> & Hwf & Hc) Hs Hop.
    destruct o as [t given|i f a|i|i ch|i|i lazy dc|i nr|[t|]];
      cbn [step spec_obs req_of fst snd] in Hop |- *; rewrite ?nth_error_map; rewrite ?nth_error_map in Hop;
      try (destruct (nth_error (objs' s) i) as [[t0 a0]|] eqn:En; cbn [option_map o2s otype oattrs] in Hop |- *);
      try (split; [reflexivity | assumption]).
    - now destruct (mem f (map fst a0)).
    - destruct (construct' _ _ _ _ _) as [[c w] h] eqn:Ec. split; [|assumption]. cbn. f_equal.
      eapply construct_view; eauto using nth_obj_has_fields.
    - destruct (construct' _ _ _ _ _) as [[c w] h] eqn:Ec. split; [|assumption]. cbn. f_equal.
      eapply construct_view; eauto using nth_obj_has_fields.
    - destruct (all_vals V a0) as [vals|] eqn:Ea; [|now split].
      destruct (if nr then None else find_h hc_eqb (store' s) (checksum t0 vals)) as [r|] eqn:Ef.
      + split; [|assumption]. cbn. f_equal.
        destruct nr; [discriminate|]. apply (find_h_eq_In _ hc_eqb_spec) in Ef.
        destruct (Hs _ _ Ef) as (t1 & v1 & Hck & Hr). apply checksum_inj in Hck.
        destruct Hck; now subst.
      + destruct (construct' _ _ _ _ _) as [[c w] h] eqn:Ec.
        pose proof (view_result _ _ _ _ (construct_view _ _ _ _ _ _ _ _ _ Hc (nth_obj_has_fields _ _ _ _ Hwf En) Ec Hop) Ea) as Hr.
        cbn [fst snd abs_obs]. split; [now f_equal|].
        destruct nr; [assumption|]. intros ck r Hi. apply in_app_or in Hi.
        destruct Hi as [Hi|[Hi|[]]]; [now apply Hs|]. inversion Hi; subst.
        now exists t0, vals.
  Qed.

  Theorem run_ops_sim ops : forall s os earlier,
    sim_st s os earlier -> store_ok s -> excluded_from' os earlier ops = false ->
    map abs' (run_ops' s ops) = spec_run' os ops.
  Proof.
    induction ops as [|o r IH]; intros s os e Hi Hs Hex; [reflexivity|].
    cbn in Hex. apply orb_false_iff in Hex. destruct Hex as [He1 He2].
    destruct (step_sim _ _ _ _ Hi Hs He1) as [Hobs Hs']. apply (step_inv _ _ _ o) in Hi.
    cbn [run_ops spec_run spec_step]. destruct (step' s o) as [s' ob]. cbn [map fst snd] in *.
    rewrite Hobs. f_equal. eapply IH; eassumption.
  Qed.

  (* C30, positive part: every history outside the excluded class is transparent *)
  Theorem history_transparent ops :
    excluded V T G fields default ctor subst g_eqb ops = false ->
    map abs' (history V T G R HT HD HC ht_eqb hd_eqb hc_eqb hash_type hash_dict checksum type_name fields
                      default ctor subst eval ops)
    = spec_history V T G R type_name fields default ctor subst eval ops.
  Proof.
    intros H. unfold history, spec_history. apply (run_ops_sim ops st0' [] []); [apply sim_st_init| |exact H].
    intros ck r [].
  Qed.

  Lemma parametric_not_excluded (Hp : parametric V T G ctor subst) ops : forall os e,
    have_fields os -> excluded_from' os e ops = false.
  Proof.
    induction ops as [|o r IH]; intros os e Hwf; [reflexivity|]. cbn [excluded_from].
    rewrite (IH _ _ (obj_step_have_fields _ o Hwf)), orb_false_r.
    destruct (req_of' os o) as [[[t a] l]|] eqn:Er; [|reflexivity].
    apply excluded_req_param. intros ks. apply parametric_nonparam; [assumption|]. eapply req_of_has_fields; eassumption.
  Qed.

  Theorem parametric_transparent (Hp : parametric V T G ctor subst) ops :
    map abs' (history V T G R HT HD HC ht_eqb hd_eqb hc_eqb hash_type hash_dict checksum type_name fields
                      default ctor subst eval ops)
    = spec_history V T G R type_name fields default ctor subst eval ops.
  Proof.
    apply history_transparent. unfold excluded. apply parametric_not_excluded; [assumption|]. constructor.
  Qed.

  Notation idsT := (ids HT HD).
  Notation iconstruct' := (iconstruct V T HT HD ht_eqb hd_eqb hash_type hash_dict).
  Notation istep' := (istep V T G R HT HD HC ht_eqb hd_eqb hc_eqb hash_type hash_dict checksum type_name ctor).
  Notation irun' := (irun V T G R HT HD HC ht_eqb hd_eqb hc_eqb hash_type hash_dict checksum type_name fields
                          default ctor subst eval).

  Definition ids_ok (i : idsT) : Prop :=
    (forall n, In n (iuser HT HD i) -> n < inext HT HD i) /\
    (forall n, In n (cache_ids HT HD i) -> n < inext HT HD i) /\
    (forall n, In n (iuser HT HD i) -> ~ In n (cache_ids HT HD i)).

  Lemma ids0_ok : ids_ok (ids0 HT HD).
  Proof. unfold ids_ok, cache_ids. cbn. repeat split; intros n []. Qed.

  Lemma ids_ok_shrink i j :
    ids_ok i -> inext HT HD i <= inext HT HD j -> iuser HT HD j = iuser HT HD i ->
    incl (cache_ids HT HD j) (cache_ids HT HD i) -> ids_ok j.
  Proof.
    intros (Hu & Hc & Hd) Hn Eu Hi. unfold ids_ok. rewrite Eu. repeat split; intros m Hm.
    - apply Hu in Hm. lia.
    - apply Hi, Hc in Hm. lia.
    - intros X. exact (Hd _ Hm (Hi _ X)).
  Qed.

  Lemma alloc_user_ok i : ids_ok i -> ids_ok (alloc_user HT HD i).
  Proof.
    intros (Hu & Hc & Hd). unfold ids_ok, alloc_user, cache_ids. cbn. repeat split; intros m Hm.
    - apply in_app_or in Hm. destruct Hm as [Hm|[Hm|[]]]; [apply Hu in Hm; lia | lia].
    - apply Hc in Hm. lia.
    - apply in_app_or in Hm. destruct Hm as [Hm|[Hm|[]]]; [now apply Hd|].
      subst m. intros Hi. apply Hc in Hi. lia.
  Qed.

  Lemma alloc_cache_ok i k :
    ids_ok i ->
    ids_ok {| inext := S (inext HT HD i); iuser := iuser HT HD i;
              icache := icache HT HD i ++ [(k, inext HT HD i)] |}.
  Proof.
    intros (Hu & Hc & Hd). unfold ids_ok, cache_ids. cbn. rewrite map_app. repeat split; intros m Hm.
    - apply Hu in Hm. lia.
    - apply in_app_or in Hm. destruct Hm as [Hm|[Hm|[]]]; [apply Hc in Hm; lia | cbn in Hm; lia].
    - intros Hi. apply in_app_or in Hi. destruct Hi as [Hi|[Hi|[]]]; [exact (Hd _ Hm Hi)|].
      cbn in Hi. apply Hu in Hm. lia.
  Qed.

  Lemma ifind_In ic th keys vh n :
    ifind HT HD ht_eqb hd_eqb ic th keys vh = Some n -> In n (map snd ic).
  Proof.
    induction ic as [|[[[th' ks] vh'] m] r IH]; cbn; [discriminate|].
    destruct (ht_eqb th th' && keys_eqb keys ks && hd_eqb vh vh').
    - intros H. inversion H. now left.
    - intros H. right. now apply IH.
  Qed.

  Lemma iconstruct_ok i t attrs lazy dc h :
    ids_ok i ->
    ids_ok (fst (iconstruct' i t attrs lazy dc h))
    /\ ~ In (snd (iconstruct' i t attrs lazy dc h)) (iuser HT HD (fst (iconstruct' i t attrs lazy dc h))).
  Proof.
    intros Hok. pose proof Hok as (Hu & Hc & Hd).
    assert (Hnew : ~ In (inext HT HD i) (iuser HT HD i)) by (intros Hi; apply Hu in Hi; lia).
    unfold iconstruct. destruct h; cbn [fst snd iuser].
    - split; [assumption|]. destruct (ifind _ _ _ _ _ _ _ _) as [m|] eqn:E; [|assumption].
      apply ifind_In in E. intros Hi. exact (Hd _ Hi E).
    - split; [|assumption]. apply (ids_ok_shrink i); cbn; auto using incl_refl.
    - split; [|assumption].
      destruct dc; [apply (ids_ok_shrink i); cbn; auto using incl_refl | now apply alloc_cache_ok].
  Qed.

  Lemma istep_ok s i o : ids_ok i -> ids_ok (fst (istep' s i o)) /\ idobs_ok (snd (istep' s i o)).
  Proof.
    intros Hok.
    destruct o as [t given|k f a|k|k ch|k|k lazy dc|k nr|[t|]]; cbn [istep];
      try (destruct (nth_error _ k) as [ob|] eqn:En); cbn [fst snd];
      try (split; [solve [auto using alloc_user_ok] | apply idobs_ok_none]).
    - destruct (mem f _); cbn [fst snd]; (split; [assumption|]); [|apply idobs_ok_none].
      split; cbn; intros n Hn; [discriminate|].
      destruct Hok as (_ & _ & Hd). apply Hd. eapply nth_error_In; eassumption.
    - destruct (construct' _ _ _ _ _) as [[c w] h].
      pose proof (iconstruct_ok i (otype V T ob) (oattrs V T ob) [] false h Hok) as [Hj Hn].
      destruct (iconstruct' _ _ _ _ _ _) as [j n]. split; [assumption|now apply idobs_ok_ret].
    - destruct (construct' _ _ _ _ _) as [[c w] h].
      pose proof (iconstruct_ok i (otype V T ob) (oattrs V T ob) lazy dc h Hok) as [Hj Hn].
      destruct (iconstruct' _ _ _ _ _ _) as [j n]. split; [assumption|now apply idobs_ok_ret].
    - destruct (all_vals V _) as [vals|]; [|split; [assumption|apply idobs_ok_none]].
      destruct (if nr then None else find_h hc_eqb _ _); [split; [assumption|apply idobs_ok_none]|].
      destruct (construct' _ _ _ _ _) as [[c w] h]. split; [now apply iconstruct_ok | apply idobs_ok_none].
    - split; [|apply idobs_ok_none]. apply (ids_ok_shrink i); cbn; auto. apply incl_map, incl_filter.
    - split; [|apply idobs_ok_none]. apply (ids_ok_shrink i); cbn; auto. intros n [].
  Qed.

  (* in every history: the inputs object of a returned workflow is never one of the user's task objects,
     and a setattr never writes to an object held by the cache *)
  Theorem no_alias ops : forall s i, ids_ok i -> Forall idobs_ok (irun' s i ops).
  Proof.
    induction ops as [|o r IH]; intros s i Hok; cbn [irun]; [constructor|].
    destruct (istep_ok s i o Hok) as [Hj Hob]. destruct (istep' s i o) as [j ob].
    constructor; [assumption | now apply IH].
  Qed.

  Theorem history_no_alias ops :
    Forall idobs_ok (id_history V T G R HT HD HC ht_eqb hd_eqb hc_eqb hash_type hash_dict checksum type_name fields
                              default ctor subst eval ops).
  Proof. apply no_alias. apply ids0_ok. Qed.
End Abstract.

Lemma eqb_of_dec_spec {A} (dec : forall a b : A, {a = b} + {a <> b}) a b :
  eqb_of_dec dec a b = true <-> a = b.
Proof. unfold eqb_of_dec. destruct (dec a b); split; congruence. Qed.

Lemma wd_names_nodup d : NoDup (wd_names d).
Proof. apply NoDup_nodup. Qed.

(* the sub-family without `if <field>:` -- every constructor in it is parametric *)
Definition strip_else (d : wfdef) : wfdef :=
  {| wd_name := wd_name d; wd_fields := wd_fields d;
     wd_nodes := map (fun n => {| nd_name := nd_name n; nd_op := nd_op n; nd_else := None;
                                  nd_a := nd_a n; nd_b := nd_b n; nd_split := nd_split n;
                                  nd_combine := nd_combine n |}) (wd_nodes d);
     wd_out := wd_out d |}.

Definition cond_free (d : wfdef) : bool :=
  forallb (fun n => match nd_else n with None => true | Some _ => false end) (wd_nodes d).

Lemma strip_else_id d : cond_free d = true -> strip_else d = d.
Proof.
  destruct d as [nm fs ns o]. unfold cond_free, strip_else. cbn. intros H. f_equal.
  induction ns as [|n r IH]; cbn in *; [reflexivity|].
  apply andb_true_iff in H. destruct H as [H1 H2]. rewrite (IH H2). f_equal.
  destruct n as [a b e c d f g]. cbn in *. destruct e; [discriminate|reflexivity].
Qed.

Lemma lookup_inst (s : list (fname * val)) (args : list (fname * arg val)) f :
  lookup (inst val s args) f =
  option_map (fun a => match a with
                       | LzIn g => match lookup s g with Some v => Conc v | None => LzIn g end
                       | Conc v => Conc v
                       end) (lookup args f).
Proof.
  unfold inst. induction args as [|[g a] r IH]; cbn; [reflexivity|].
  destruct (String.eqb f g); [reflexivity | exact IH].
Qed.

Lemma bind_param s args r : subst_bind s (bind_of args r) = subst_bind s (bind_of (inst val s args) r).
Proof.
  destruct r as [f|v|n]; cbn; try reflexivity.
  rewrite lookup_inst. destruct (lookup args f) as [[v|g]|]; cbn; try reflexivity.
  destruct (lookup s g) as [v|] eqn:E; cbn; [reflexivity | now rewrite E].
Qed.

Lemma ctor_strip_parametric :
  parametric val wfdef graph (fun d => ctor_of (strip_else d)) subst_graph.
Proof.
  intros d s args. unfold ctor_of, subst_graph, strip_else. cbn. f_equal.
  - rewrite !map_map. apply map_ext. intros n. cbn. f_equal; apply bind_param.
  - apply bind_param.
Qed.

Definition pf_history (ops : list cop) : list cobs :=
  history val wfdef graph (option val) wfdef (list (fname * val)) (wfdef * list (fname * val))
          (eqb_of_dec wfdef_dec) (eqb_of_dec dict_dec) (eqb_of_dec ck_dec)
          (fun d => d) (fun l => l) (fun d l => (d, l))
          wd_name wd_names wd_default (fun d => ctor_of (strip_else d)) subst_graph eval_graph ops.
Definition pf_spec_history (ops : list cop) : list (sobs val graph (option val)) :=
  spec_history val wfdef graph (option val) wd_name wd_names wd_default
               (fun d => ctor_of (strip_else d)) subst_graph eval_graph ops.

Lemma concrete_transparent (ctor : wfdef -> list (fname * arg val) -> graph) (ops : list cop) :
  excluded val wfdef graph wd_names wd_default ctor subst_graph (eqb_of_dec graph_dec) ops = false ->
  map c_abs
      (history val wfdef graph (option val) wfdef (list (fname * val)) (wfdef * list (fname * val))
               (eqb_of_dec wfdef_dec) (eqb_of_dec dict_dec) (eqb_of_dec ck_dec)
               (fun d => d) (fun l => l) (fun d l => (d, l))
               wd_name wd_names wd_default ctor subst_graph eval_graph ops)
  = spec_history val wfdef graph (option val) wd_name wd_names wd_default ctor subst_graph eval_graph ops.
Proof.
  apply history_transparent; try apply eqb_of_dec_spec; auto using wd_names_nodup.
  intros t l t' l' H. inversion H. now split.
Qed.

Theorem concrete_partial (ops : list cop) :
  c_excluded ops = false -> map c_abs (c_history ops) = c_spec_history ops.
Proof. apply concrete_transparent. Qed.

(* the positive theorem instantiated: its hypotheses are satisfiable, by a non-trivial family *)
Theorem family_transparent (ops : list cop) : map c_abs (pf_history ops) = pf_spec_history ops.
Proof.
  apply concrete_transparent, parametric_not_excluded;
    auto using eqb_of_dec_spec, wd_names_nodup, ctor_strip_parametric.
  constructor.
Qed.

(* the full statement fails: a constructor that branches on an input (finding F30b) *)
Local Open Scope Z_scope.
Definition W_cond : wfdef :=
  {| wd_name := "Inner";
     wd_fields := [("x", AVal VNothing); ("flag", AVal VNothing)];
     wd_nodes := [ {| nd_name := "n"; nd_op := "Add"; nd_else := Some ("flag", "Sub");
                      nd_a := RIn "x"; nd_b := RConst (VInt 100); nd_split := false; nd_combine := false |} ];
     wd_out := RNode "n" |}.

(* t = Inner(x=5, flag=0); Workflow.construct(t, lazy=["flag"]) (what plotting a nested graph does);
   then run t: the graph built while `flag` was lazy (Add) is reused, the result is 105 instead of -95 *)
Definition refuting_history : list cop :=
  [ ONew W_cond [("x", AVal (VInt 5)); ("flag", AVal (VInt 0))];
    OWConstruct 0%nat ["flag"] false;
    ORun 0%nat false ].

Lemma refuting_history_model :
  nth 2 (c_history refuting_history) NoObs = ObsOut (Some (VInt 105)) (Some Superset).
Proof. vm_compute. reflexivity. Qed.
Lemma refuting_history_spec :
  nth 2 (c_spec_history refuting_history) SNone = SOut (Some (VInt (-95))).
Proof. vm_compute. reflexivity. Qed.
Lemma refuting_history_excluded : c_excluded refuting_history = true.
Proof. vm_compute. reflexivity. Qed.

Lemma full_statement_refuted :
  ~ (forall ops : list cop, map c_abs (c_history ops) = c_spec_history ops).
Proof.
  intros H. pose proof refuting_history_spec as S. rewrite <- H in S.
  change SNone with (c_abs NoObs) in S. rewrite map_nth, refuting_history_model in S. discriminate.
Qed.
