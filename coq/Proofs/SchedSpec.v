(* Proofs/SchedSpec.v — facts about the specification objects of Spec/Sched.v themselves: graphs in
   topological order and induction along them, the one-pass computation of "downstream of a failure" and
   its inductive definition, the defining equation of the reference evaluation. *)
From Pydra Require Import Base.Prelude Base.SchedBase Spec.Sched Proofs.SchedA.
Local Open Scope nat_scope.

Lemma topo_b_nodup seen g :
  topo_b seen g = true -> NoDup (map nid g) /\ (forall x, In x (map nid g) -> ~ In x seen).
Proof.
  revert seen. induction g as [|nd g IH]; intros seen; cbn.
  - intros _. split; [constructor|tauto].
  - rewrite !andb_true_iff, negb_true_iff. intros [[_ Hx] H3].
    destruct (IH _ H3) as [ND Hs]. split.
    + constructor; [|exact ND]. intros H. apply (Hs _ H). left; reflexivity.
    + intros x [<-|Hin].
      * intros H. apply mem_nat_In in H. congruence.
      * intros H. apply (Hs _ Hin). right; exact H.
Qed.

Lemma topo_at g pre nd rest :
  wf_graph g -> g = pre ++ nd :: rest ->
  (forall p, In p (npreds nd) -> In p (map nid pre) /\ ~ In p (map nid (nd :: rest)))
  /\ ~ In (nid nd) (map nid pre) /\ ~ In (nid nd) (map nid rest).
Proof.
  intros W ->. destruct (topo_b_split _ _ _ _ W) as [Hp [_ Hn]].
  destruct (topo_b_nodup _ _ W) as [ND _]. rewrite map_app in ND. cbn in ND.
  split; [|split; [exact Hn|]].
  - intros p Hpp. destruct (Hp p Hpp) as [[]|Hpre]. split; [exact Hpre|].
    intros H. apply in_split in Hpre. destruct Hpre as [l1 [l2 El]].
    rewrite El, <- app_assoc in ND. cbn in ND. apply NoDup_remove_2 in ND. apply ND.
    apply in_or_app. right. apply in_or_app. right. exact H.
  - intros H. apply (NoDup_remove_2 _ _ _ ND). apply in_or_app. right; exact H.
Qed.

Lemma topo_ind g (P : nat -> Prop) :
  wf_graph g ->
  (forall nd, In nd g -> (forall p, In p (npreds nd) -> P p) -> P (nid nd)) ->
  forall nd, In nd g -> P (nid nd).
Proof.
  intros WF Step.
  assert (H : forall pre rest, g = pre ++ rest -> forall nd, In nd pre -> P (nid nd)).
  { induction pre as [|x pre IH] using rev_ind; intros rest E nd Hin; [destruct Hin|].
    rewrite <- app_assoc in E. cbn in E.
    apply in_app_or in Hin. destruct Hin as [Hin|[<-|[]]]; [eapply IH; eauto|].
    apply Step; [rewrite E; apply in_or_app; right; left; reflexivity|].
    intros p Hp. destruct (topo_at g pre x rest WF E) as [Hpre _]. destruct (Hpre p Hp) as [Hin _].
    apply in_map_iff in Hin. destruct Hin as [nd' [<- Hnd']]. eapply IH; eauto. }
  intros nd Hin. apply (H g [] (eq_sym (app_nil_r g)) nd Hin).
Qed.

Lemma existsb_ext_in {A} (f h : A -> bool) l :
  (forall x, In x l -> f x = h x) -> existsb f l = existsb h l.
Proof.
  induction l as [|x l IH]; cbn; intros H; [reflexivity|].
  rewrite (H x (or_introl eq_refl)). f_equal. apply IH. intros y Hy. apply H. right; exact Hy.
Qed.

Lemma forallb_ext_in {A} (f h : A -> bool) l :
  (forall x, In x l -> f x = h x) -> forallb f l = forallb h l.
Proof.
  induction l as [|x l IH]; cbn; intros H; [reflexivity|].
  rewrite (H x (or_introl eq_refl)). f_equal. apply IH. intros y Hy. apply H. right; exact Hy.
Qed.

Lemma should_run_b_true g fails j :
  should_run_b g fails j = true <-> In j (all_jobs g) /\ tainted_b g fails (fst j) = false.
Proof. unfold should_run_b. rewrite andb_true_iff, negb_true_iff, mem_job_In. reflexivity. Qed.

(* A pass over the node list that keeps a table, the step at a node writing only at the keys of that node.  For a graph
   in topological order: at a key of nd the finished table says what the step at nd wrote, at a key of a predecessor
   of nd what that step saw. *)
Section OnePass.
Variables (S K R : Type) (node_of : K -> nat) (rd : K -> S -> R) (step : S -> node -> S).
Hypothesis step_other : forall nd s k, node_of k <> nid nd -> rd k (step s nd) = rd k s.

Lemma pass_other nodes : forall s k, ~ In (node_of k) (map nid nodes) -> rd k (fold_left step nodes s) = rd k s.
Proof.
  induction nodes as [|nd r IH]; intros s k H; cbn [fold_left]; [reflexivity|]. cbn [map In] in H.
  rewrite IH by tauto. apply step_other. intros E. apply H. left. symmetry; exact E.
Qed.

Lemma pass_at g nd s :
  wf_graph g -> In nd g ->
  exists s1,
    (forall k, node_of k = nid nd -> rd k (fold_left step g s) = rd k (step s1 nd) /\ rd k s1 = rd k s)
    /\ (forall k, In (node_of k) (npreds nd) -> rd k (fold_left step g s) = rd k s1).
Proof.
  intros WF Hin. apply in_split in Hin. destruct Hin as [pre [rest E]].
  destruct (topo_at g pre nd rest WF E) as [Hp [Hn Hrest]].
  exists (fold_left step pre s). rewrite E, fold_left_app. cbn [fold_left]. split.
  - intros k Ek. rewrite <- Ek in Hn, Hrest. split; apply pass_other; assumption.
  - intros k Hk. destruct (Hp _ Hk) as [_ H2]. cbn [map In] in H2. rewrite pass_other by tauto.
    apply step_other. intros Ek. apply H2. left. symmetry; exact Ek.
Qed.
End OnePass.

Section Taint.
Variable g : graph.
Variable fails : job -> bool.
Hypothesis WF : wf_graph g.

Definition taint_step (acc : list nat) (nd : node) : list nat :=
  if existsb (fun p => mem_nat p acc || has_fail_b g fails p) (npreds nd) then nid nd :: acc else acc.

Lemma tainted_nodes_fold nodes : forall acc, tainted_nodes g fails nodes acc = fold_left taint_step nodes acc.
Proof.
  induction nodes as [|nd r IH]; intros acc; cbn [tainted_nodes fold_left]; [reflexivity|].
  unfold taint_step at 2. destruct (existsb _ (npreds nd)); apply IH.
Qed.

Lemma taint_step_other nd acc x : x <> nid nd -> mem_nat x (taint_step acc nd) = mem_nat x acc.
Proof.
  intros H. unfold taint_step. destruct (existsb _ (npreds nd)); [|reflexivity].
  unfold mem_nat. cbn [existsb]. apply Nat.eqb_neq in H. rewrite H. reflexivity.
Qed.

Lemma tainted_char nd :
  In nd g ->
  tainted_b g fails (nid nd) =
  existsb (fun p => tainted_b g fails p || has_fail_b g fails p) (npreds nd).
Proof.
  intros Hin. destruct (pass_at _ _ _ (fun n => n) mem_nat taint_step taint_step_other g nd [] WF Hin) as [acc [A B]].
  unfold tainted_b. rewrite tainted_nodes_fold. destruct (A (nid nd) eq_refl) as [-> A2].
  rewrite (existsb_ext_in _ (fun p => mem_nat p acc || has_fail_b g fails p) (npreds nd))
    by (intros p Hp; rewrite (B p Hp); reflexivity).
  unfold taint_step at 1. destruct (existsb _ (npreds nd)); [|exact A2].
  unfold mem_nat. cbn [existsb]. rewrite Nat.eqb_refl. reflexivity.
Qed.

Lemma has_fail_b_iff a : has_fail_b g fails a = true <-> has_fail g fails a.
Proof.
  unfold has_fail_b, has_fail. rewrite existsb_exists. split.
  - intros [i [Hi F]]. apply in_seq in Hi. exists i. split; [lia|exact F].
  - intros [i [Hi F]]. exists i. split; [apply in_seq; lia|exact F].
Qed.

Lemma tainted_b_in n : tainted_b g fails n = true -> exists nd, In nd g /\ nid nd = n.
Proof.
  unfold tainted_b. rewrite tainted_nodes_fold. intros H.
  destruct (in_dec Nat.eq_dec n (map nid g)) as [Hin|Hout].
  - apply in_map_iff in Hin. destruct Hin as [nd [E Hin]]. exists nd; auto.
  - rewrite (pass_other _ _ _ (fun n => n) mem_nat taint_step taint_step_other g [] n Hout) in H. discriminate H.
Qed.

Lemma tainted_b_iff n : tainted_b g fails n = true <-> downstream_of_failure g fails n.
Proof.
  split.
  - intros H. destruct (tainted_b_in n H) as [nd [Hnd <-]]. revert H.
    apply (topo_ind g (fun n => tainted_b g fails n = true -> downstream_of_failure g fails n) WF); [|exact Hnd].
    clear nd Hnd. intros nd Hnd IH H.
    rewrite (tainted_char nd Hnd) in H. apply existsb_exists in H. destruct H as [p [Hp H]].
    apply orb_true_iff in H. destruct H as [H|H].
    + destruct (IH p Hp H) as [a [A1 A2]].
      exists a. split; [|exact A2]. eapply anc_trans; [exact A1|]. apply anc_pred; auto.
    + exists p. split; [apply anc_pred; auto|apply has_fail_b_iff; exact H].
  - intros [a [A1 A2]].
    assert (Q : forall a n, ancestor g a n -> (has_fail g fails a \/ tainted_b g fails a = true) -> tainted_b g fails n = true).
    { intros a0 n0 A. induction A as [nd p Hnd Hp|a0 b c B1 IH1 B2 IH2]; intros H.
      - rewrite (tainted_char nd Hnd). apply existsb_exists. exists p. split; [exact Hp|].
        apply orb_true_iff. destruct H as [H|H]; [right; apply has_fail_b_iff; exact H|left; exact H].
      - apply IH2. right. apply IH1. exact H. }
    apply (Q a n A1). left; exact A2.
Qed.

Lemma no_fail_no_taint n : (forall j, fails j = false) -> tainted_b g fails n = false.
Proof.
  intros NF. destruct (tainted_b g fails n) eqn:E; [|reflexivity].
  apply tainted_b_iff in E. destruct E as [a [_ [i [_ F]]]]. rewrite NF in F. discriminate.
Qed.

Lemma should_run_iff j : should_run_b g fails j = true <-> should_run g fails j.
Proof.
  rewrite should_run_b_true. unfold should_run. split.
  - intros [A B]. split; [exact A|]. intros H. apply tainted_b_iff in H. congruence.
  - intros [A B]. split; [exact A|]. destruct (tainted_b g fails (fst j)) eqn:E; [|reflexivity].
    exfalso. apply B. apply tainted_b_iff. exact E.
Qed.
Lemma should_fail_iff j : should_fail_b g fails j = true <-> should_fail g fails j.
Proof. unfold should_fail_b, should_fail. rewrite andb_true_iff, should_run_iff. tauto. Qed.
End Taint.

Section Ref.
Variable V : Type.
Variable body : nat -> nat -> list (list (option V)) -> V.
Variable g : graph.
Hypothesis WF : wf_graph g.

Lemma env_lookup_app j (a b : list (job * V)) :
  env_lookup V j (a ++ b) = match env_lookup V j a with Some v => Some v | None => env_lookup V j b end.
Proof.
  induction a as [|[j' v] a IH]; cbn; [reflexivity|]. destruct (job_eqb j j'); [reflexivity|exact IH].
Qed.

Lemma env_lookup_new_hit n (f : nat -> V) k i :
  i < k -> env_lookup V (n, i) (map (fun i => ((n, i), f i)) (seq 0 k)) = Some (f i).
Proof.
  assert (H : forall k s, s <= i < s + k ->
              env_lookup V (n, i) (map (fun i => ((n, i), f i)) (seq s k)) = Some (f i)).
  { induction k0 as [|k0 IH]; intros s Hs; [lia|]. cbn [seq map env_lookup].
    destruct (job_eqb (n, i) (n, s)) eqn:E.
    - apply job_eqb_eq in E. inversion E. reflexivity.
    - apply IH. apply job_eqb_neq in E. assert (i <> s) by (intros ->; apply E; reflexivity). lia. }
  intros Hi. apply H. lia.
Qed.
Lemma env_lookup_new_miss n (f : nat -> V) l j i :
  j <> n -> env_lookup V (j, i) (map (fun i => ((n, i), f i)) l) = None.
Proof.
  intros Ne. induction l as [|x l IH]; cbn; [reflexivity|].
  destruct (job_eqb (j, i) (n, x)) eqn:E; [|exact IH].
  apply job_eqb_eq in E. inversion E. contradiction.
Qed.

Definition ref_step (env : list (job * V)) (nd : node) : list (job * V) :=
  env ++ map (fun i => ((nid nd, i), body (nid nd) i (ref_inputs V g env nd))) (seq 0 (njobs nd)).

Lemma ref_eval_fold nodes : forall env, ref_eval V body g nodes env = fold_left ref_step nodes env.
Proof. induction nodes as [|nd r IH]; intros env; cbn [ref_eval fold_left]; [reflexivity|apply IH]. Qed.

Lemma ref_step_other nd env j : fst j <> nid nd -> env_lookup V j (ref_step env nd) = env_lookup V j env.
Proof.
  intros H. unfold ref_step. rewrite env_lookup_app. destruct (env_lookup V j env); [reflexivity|].
  destruct j as [n i]. apply env_lookup_new_miss, H.
Qed.

Lemma reference_char nd i :
  In nd g -> i < njobs nd ->
  env_lookup V (nid nd, i) (reference V body g) =
  Some (body (nid nd) i (ref_inputs V g (reference V body g) nd)).
Proof.
  intros Hin Hi. destruct (pass_at _ _ _ fst (env_lookup V) ref_step ref_step_other g nd [] WF Hin) as [env [A B]].
  unfold reference. rewrite ref_eval_fold. destruct (A (nid nd, i) eq_refl) as [-> A2].
  unfold ref_step at 1. rewrite env_lookup_app, A2. cbn [env_lookup]. rewrite env_lookup_new_hit by exact Hi.
  do 2 f_equal. unfold ref_inputs. apply map_ext_in. intros p Hp. apply map_ext_in. intros k _.
  symmetry. apply (B (p, k) Hp).
Qed.

End Ref.
