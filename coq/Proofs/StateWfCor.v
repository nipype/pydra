(* Proofs/StateWfCor.v — C03: classes inside C03_partial's that are stated on the workflow graph alone (every node
   fed by one node; inputs without a common ancestor), for every number of nodes and every list length, and the
   example workflows: members of the classes, the family shared_direct (aligned, not separate), zip_example. *)
From Pydra Require Import Base.Prelude Model.StateWf Spec.StateWf Proofs.StateWfLists Proofs.StateWfStep
  Proofs.StateWfMain Proofs.StateWf Proofs.ListFacts.

Local Open Scope nat_scope.

(* every input that comes from another node comes from the same node (chains, fan-out, trees of pipelines) *)
Definition single_input (nd : node) : bool :=
  forallb (fun b => forallb (fun b' => match b, b' with BUp x, BUp y => Nat.eqb x y | _, _ => true end) (n_fields nd)) (n_fields nd).

(* a concrete, non-trivial member: N0 split over two fields -> N1 relay -> N2 with an own splitter and a
   combiner over an inherited axis; N3 consumes N2 *)
Definition chain_example : workflow :=
  [ {| n_fields := [BSplit [1; 2]%Z; BSplit [5; 6; 7]%Z]; n_split := [1; 0]; n_zip := []; n_osel := []; n_comb := [] |};
    {| n_fields := [BUp 0; BConst 9%Z]; n_split := []; n_zip := []; n_osel := []; n_comb := [] |};
    {| n_fields := [BSplit [3; 4]%Z; BUp 1; BUp 1]; n_split := [0]; n_zip := []; n_osel := []; n_comb := [(0, 0)] |};
    {| n_fields := [BUp 2]; n_split := []; n_zip := []; n_osel := []; n_comb := [] |} ].
Lemma chain_example_in_class :
  wf_ok chain_example = true /\ forallb single_input chain_example = true.
Proof. split; vm_compute; reflexivity. Qed.

(* fan-in of independent origins, in the class of separate origins (c03_domain, C03_separate_origins) *)
Definition fanin_example : workflow :=
  [ {| n_fields := [BSplit [1; 2]%Z; BSplit [5; 6]%Z]; n_split := [0; 1]; n_zip := []; n_osel := []; n_comb := [] |};
    {| n_fields := [BSplit [8; 9; 10]%Z]; n_split := [0]; n_zip := []; n_osel := []; n_comb := [] |};
    {| n_fields := [BUp 0; BUp 1; BUp 1]; n_split := []; n_zip := []; n_osel := []; n_comb := [(0, 1)] |};
    {| n_fields := [BUp 2; BSplit [3; 4]%Z]; n_split := [1]; n_zip := []; n_osel := []; n_comb := [] |} ].
Lemma fanin_example_in_class : c03_domain fanin_example = true.
Proof. vm_compute. reflexivity. Qed.

(* ancestors of every node (itself included), by node index *)
Definition anc_entry (tab : list (list nat)) (n : nat) (nd : node) : list nat :=
  n :: flat_map (fun b => match b with BUp j => nth j tab [] | _ => [] end) (n_fields nd).
Fixpoint anc_from (tab : list (list nat)) (nodes : list node) : list (list nat) :=
  match nodes with
  | [] => tab
  | nd :: r => anc_from (tab ++ [anc_entry tab (List.length tab) nd]) r
  end.
Definition anc_table (wf : workflow) : list (list nat) := anc_from [] wf.
Definition disjointn (a b : list nat) : bool := forallb (fun x => negb (memn x b)) a.
(* the inputs of every node come from sub-workflows without a common ancestor (a node is its own
   ancestor); that x is not a direct input of y follows from it, and is tested as well *)
Definition feeds (wf : workflow) (x y : nat) : bool :=
  existsb (fun b => match b with BUp j => Nat.eqb j x | _ => false end) (n_fields (node_at wf y)).
Definition indep (wf : workflow) (x y : nat) : bool :=
  Nat.eqb x y || (disjointn (nth x (anc_table wf) []) (nth y (anc_table wf) []) && negb (feeds wf x y)).
Definition independent_inputs (wf : workflow) : bool :=
  forallb (fun nd =>
    forallb (fun b => forallb (fun b' =>
      match b, b' with BUp x, BUp y => indep wf x y | _, _ => true end) (n_fields nd)) (n_fields nd)) wf.

(* the axes of every entry belong to ancestors of its node *)
Definition anc_ok (e : sentry) (a : list nat) : Prop :=
  incl (s_faxes e) (s_axes e) /\ forall k, In k (s_axes e) -> In (fst k) a.
Lemma anc_invariant wf : forall rest stab atab,
  Forall2 anc_ok stab atab -> Forall2 anc_ok (spec_from wf stab rest) (anc_from atab rest).
Proof.
  induction rest as [|nd rest IH]; intros stab atab H; cbn [spec_from anc_from]; [exact H|].
  apply IH. apply Forall2_app; [exact H|]. constructor; [|constructor]. rewrite <- (Forall2_length _ _ _ H). split.
  - cbn [s_faxes s_axes spec_entry]. intros k Hk. apply filter_In in Hk. tauto.
  - intros k Hk. cbn [s_axes spec_entry] in Hk. apply in_app_or in Hk. destruct Hk as [Hk|Hk].
    + right. apply In_up_axes in Hk. destruct Hk as [x [Hx Hk]]. apply in_flat_map. exists (BUp x). split; [exact Hx|].
      unfold s_faxes_of in Hk. destruct (nth_error stab x) as [ex|] eqn:Ex; [|contradiction].
      destruct (Forall2_nth_error _ _ _ x ex [] H Ex) as [Hsub Hanc]. apply Hanc, Hsub, Hk.
    + left. apply in_map_iff in Hk. destruct Hk as [f [<- _]]. reflexivity.
Qed.
Lemma anc_ok_at wf j e : nth_error (spec_table wf) j = Some e -> anc_ok e (nth j (anc_table wf) []).
Proof. exact (Forall2_nth_error _ _ _ j e [] (anc_invariant wf wf [] [] (Forall2_nil _))). Qed.
Lemma axes_in_anc wf j e k :
  nth_error (spec_table wf) j = Some e -> In k (s_axes e) -> In (fst k) (nth j (anc_table wf) []).
Proof. intros Hj Hk. exact (proj2 (anc_ok_at wf j e Hj) k Hk). Qed.
Lemma faxes_in_anc wf j k : In k (s_faxes_of (spec_table wf) j) -> In (fst k) (nth j (anc_table wf) []).
Proof.
  unfold s_faxes_of. destruct (nth_error (spec_table wf) j) as [e|] eqn:E; [|intros []]. intros Hk.
  destruct (anc_ok_at wf j e E) as [Hs H]. exact (H k (Hs k Hk)).
Qed.

Lemma independent_separate wf : independent_inputs wf = true -> separate_class wf = true.
Proof.
  intros H. apply on_nodes_intro. intros n e nd Hnd. unfold independent_inputs in H. rewrite forallb_forall in H.
  specialize (H nd Hnd). unfold separate_ok. apply pairwise_intro; [|apply ups_nodup].
  intros x y Hx Hy Hne. apply ups_in in Hx. apply ups_in in Hy. destruct Hx as [Hx HFx], Hy as [Hy HFy].
  rewrite forallb_forall in H. specialize (H _ Hx). rewrite forallb_forall in H. specialize (H _ Hy). cbn in H.
  unfold indep in H. apply orb_true_iff in H. destruct H as [H|H]; [apply Nat.eqb_eq in H; contradiction|].
  apply andb_true_iff in H. destruct H as [HD HN]. apply sep_ok_iff. split.
  - intros k Hk Hk'. apply faxes_in_anc in Hk, Hk'. unfold disjointn in HD. rewrite forallb_forall in HD.
    specialize (HD _ Hk). apply negb_true_iff, memn_false in HD. contradiction.
  - intros Hin. unfold parents in Hin. apply ups_in in Hin. destruct Hin as [Hin _].
    apply negb_true_iff in HN. unfold feeds in HN.
    assert (E : existsb (fun b => match b with BUp j => Nat.eqb j x | _ => false end) (n_fields (node_at wf y)) = true).
    { apply existsb_exists. exists (BUp x). split; [exact Hin | apply Nat.eqb_refl]. }
    congruence.
Qed.

Theorem fanin_class : forall wf,
  wf_ok wf = true -> zip_len_ok wf = true -> independent_inputs wf = true -> model_run wf = Some (spec_run wf).
Proof.
  intros wf H1 Z H2. apply partial; [|exact Z]. unfold c03_domain.
  rewrite H1, (independent_separate wf H2). reflexivity.
Qed.
Lemma single_input_independent wf : forallb single_input wf = true -> independent_inputs wf = true.
Proof.
  intros H. unfold independent_inputs. rewrite forallb_forall in H |- *. intros nd Hnd. specialize (H nd Hnd).
  unfold single_input in H. rewrite forallb_forall in H |- *. intros b Hb. specialize (H b Hb).
  rewrite forallb_forall in H |- *. intros b' Hb'. specialize (H b' Hb').
  destruct b as [z|vs|x], b' as [z'|vs'|y]; try reflexivity. unfold indep. rewrite H. reflexivity.
Qed.
Theorem chain_class : forall wf,
  wf_ok wf = true -> zip_len_ok wf = true -> forallb single_input wf = true -> model_run wf = Some (spec_run wf).
Proof. intros wf H1 Z H2. exact (fanin_class wf H1 Z (single_input_independent wf H2)). Qed.
Lemma fanin_example_independent : independent_inputs fanin_example = true.
Proof. vm_compute. reflexivity. Qed.
(* the diamond is outside: N1 and N2 share the ancestor N0 *)
Lemma diamond_not_independent : independent_inputs diamond = false /\ c03_domain diamond = false.
Proof. split; vm_compute; reflexivity. Qed.

(* the shared origin the code aligns: N0 split over vs (and us) -> N1 hands N0's state on -> N2 consumes N0
   directly and through N1 (in either field order) and has an own splitter over ws; N3 consumes N2 *)
Definition shared_direct (vs us ws : list Z) (flip : bool) : workflow :=
  [ {| n_fields := [BSplit vs; BSplit us]; n_split := [0; 1]; n_zip := []; n_osel := []; n_comb := [] |};
    {| n_fields := [BUp 0; BConst 7%Z]; n_split := []; n_zip := []; n_osel := []; n_comb := [] |};
    {| n_fields := (if flip then [BUp 1; BUp 0] else [BUp 0; BUp 1]) ++ [BSplit ws]; n_split := [2]; n_zip := []; n_osel := []; n_comb := [] |};
    {| n_fields := [BUp 2]; n_split := []; n_zip := []; n_osel := []; n_comb := [] |} ].
Lemma shared_direct_not_separate : c03_domain (shared_direct [1; 2]%Z [3]%Z [4; 5]%Z false) = false.
Proof. vm_compute. reflexivity. Qed.
Theorem shared_direct_ok : forall vs us ws flip,
  model_run (shared_direct vs us ws flip) = Some (spec_run (shared_direct vs us ws flip)).
Proof. intros. apply aligned; destruct flip; reflexivity. Qed.
(* the aligned job count: N2 runs |vs|*|us|*|ws| times, not (|vs|*|us|)^2*|ws| *)
Lemma shared_direct_counts : spec_njobs (shared_direct [1; 2]%Z [3]%Z [4; 5]%Z false) = [2; 2; 4; 4]
  /\ option_map (map (fun v => match v with VList l => List.length l | _ => 0 end))
       (model_run (shared_direct [1; 2]%Z [3]%Z [4; 5]%Z false)) = Some [2; 2; 4; 4].
Proof. split; vm_compute; reflexivity. Qed.

(* a member of C03_partial2's class with inner splitters and a partly consumed second output.  N0: splitter
   [(b, a), c] (a zipped to b), N1 consumes both outputs of N0 and combines the zip group by naming both of its
   fields; N2 has an own inner pair as well *)
Definition zip_example : workflow :=
  [ {| n_fields := [BSplit [1; 2]%Z; BSplit [5; 6]%Z; BSplit [8; 9; 10]%Z]; n_split := [1; 2]; n_zip := [(0, 1)];
       n_osel := []; n_comb := [] |};
    {| n_fields := [BUp 0; BUp 0]; n_split := []; n_zip := []; n_osel := [1; 0]; n_comb := [(0, 0); (0, 1)] |};
    {| n_fields := [BUp 1; BSplit [3; 4]%Z; BSplit [6; 7]%Z]; n_split := [2]; n_zip := [(1, 2)]; n_osel := [1];
       n_comb := [] |} ].
Lemma zip_example_in_class : c03_class2 zip_example = true.
Proof. vm_compute. reflexivity. Qed.
Lemma zip_example_njobs : spec_njobs (normalize zip_example) = [6; 6; 6].
Proof. vm_compute. reflexivity. Qed.
