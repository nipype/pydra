(* Proofs/Lmod.v — environment modules (C39).  The regex scanner, run on a program printed statement by statement
   with plain keys and values, finds exactly the assignments, in order: a line without "[" holds no match, and an
   assignment is matched at its first character and consumed up to the closing quote.  The child environment is
   then the caller's with each assigned variable set to its last value. *)
From Pydra Require Import Base.Prelude Proofs.Assoc Model.Lmod Spec.Lmod.
Local Open Scope char_scope.

Lemma lookup_set_item e k v k0 :
  lookup k0 (set_item e k v) = if String.eqb k0 k then Some v else lookup k0 e.
Proof. exact (assoc_get_set String.eqb String.eqb_eq e k v k0). Qed.

Lemma nodup_set_item e k v : NoDup (map fst e) -> NoDup (map fst (set_item e k v)).
Proof. exact (assoc_nodup_set String.eqb String.eqb_eq e k v). Qed.

(* the value of the last pair with key k0: Spec.Lmod.final read on the pairs a program assigns (final_last_of) *)
Fixpoint last_of (kvs : list (string * string)) (k0 : string) : option string :=
  match kvs with
  | [] => None
  | (k, v) :: r => match last_of r k0 with
                   | Some w => Some w
                   | None => if String.eqb k0 k then Some v else None
                   end
  end.

Lemma lookup_set_all kvs : forall e k0,
  lookup k0 (set_all e kvs) = match last_of kvs k0 with Some v => Some v | None => lookup k0 e end.
Proof.
  unfold set_all. induction kvs as [|[k v] kvs IH]; intros e k0; cbn; [reflexivity|].
  rewrite IH. destruct (last_of kvs k0); [reflexivity|].
  rewrite lookup_set_item. destruct (String.eqb k0 k); reflexivity.
Qed.

Lemma nodup_set_all kvs : forall e, NoDup (map fst e) -> NoDup (map fst (set_all e kvs)).
Proof.
  unfold set_all. induction kvs as [|[k v] kvs IH]; intros e H; cbn; [exact H|].
  apply IH. apply nodup_set_item. exact H.
Qed.

Lemma skipn_exact {A} (p x : list A) : skipn (List.length p) (p ++ x) = x.
Proof. induction p; cbn; auto. Qed.

Lemma prefix_in_line (p : chars) : forall N rest, no_nl p = true ->
  is_prefix Ascii.eqb p (N ++ nl :: rest) = true -> no_lbracket N = true -> no_lbracket p = true.
Proof.
  induction p as [|x p IH]; intros N rest Hp E HN; [reflexivity|].
  apply andb_prop in Hp. destruct Hp as [Hx Hp].
  destruct N as [|y N]; cbn [app is_prefix] in E; apply andb_prop in E; destruct E as [Exy E].
  - unfold is_nl in Hx. now rewrite Exy in Hx.
  - apply Ascii.eqb_eq in Exy. subst y. apply andb_prop in HN. destruct HN as [Hy HN].
    cbn. rewrite Hy. exact (IH N rest Hp E HN).
Qed.

(* a line without an opening bracket cannot contain (or begin, across its newline) the literal prefix *)
Lemma no_match_in_line (N rest : chars) :
  no_lbracket N = true -> is_prefix Ascii.eqb prefix_lit (N ++ nl :: rest) = false.
Proof.
  intros HN. destruct (is_prefix Ascii.eqb prefix_lit (N ++ nl :: rest)) eqn:E; [|reflexivity].
  discriminate (prefix_in_line prefix_lit N rest eq_refl E HN).
Qed.

Lemma match_here_line (N rest : chars) : no_lbracket N = true -> match_here (N ++ nl :: rest) = None.
Proof. intros H. unfold match_here. rewrite no_match_in_line by exact H. reflexivity. Qed.

Lemma scan_line (N rest : chars) : no_lbracket N = true -> scan (N ++ nl :: rest) 0 = scan rest 0.
Proof.
  induction N as [|c N IH]; intros H; cbn [app scan].
  - now rewrite (match_here_line [] rest eq_refl : match_here (nl :: rest) = None).
  - rewrite (match_here_line (c :: N) rest H : match_here (c :: N ++ nl :: rest) = None). apply IH. now apply andb_prop in H.
Qed.

Lemma scan_skip (pre rest : chars) : scan (pre ++ rest) (List.length pre) = scan rest 0.
Proof. induction pre as [|c pre IH]; cbn [app List.length scan]; [destruct rest; reflexivity| exact IH]. Qed.

Lemma scan_match l pre k v rest' :
  l = pre ++ rest' -> pre <> [] -> match_here l = Some (k, v, rest') ->
  scan l 0 = (str_of k, str_of v) :: scan rest' 0.
Proof.
  intros -> Hne H. destruct pre as [|c pre]; [congruence|]. cbn [app scan]. cbn [app] in H.
  rewrite H, app_length, Nat.add_sub. f_equal. apply scan_skip.
Qed.

Lemma plain_cons c l : plain (c :: l) = true ->
  is_quote c = false /\ is_nl c = false /\ Ascii.eqb c bslash = false /\ plain l = true.
Proof.
  unfold plain. cbn [forallb]. intros H. apply andb_prop in H. destruct H as [H Hl].
  apply andb_prop in H. destruct H as [H Hn]. apply andb_prop in H. destruct H as [Hq Hb].
  rewrite negb_true_iff in Hq, Hb, Hn. auto.
Qed.

Lemma escape_plain q l : is_quote q = true -> plain l = true -> escape q l = l.
Proof.
  intros HQ. induction l as [|c l IH]; intros H; [reflexivity|].
  apply plain_cons in H. destruct H as (Hq & _ & Hb & Hl). cbn. rewrite Hb.
  assert (Ascii.eqb c q = false) as ->.
  { destruct (Ascii.eqb c q) eqn:E; [|reflexivity]. apply Ascii.eqb_eq in E. subst c. congruence. }
  cbn. now rewrite IH.
Qed.

Lemma lazy_to_quote_plain v : forall q T acc, plain v = true -> is_quote q = true ->
  lazy_to_quote (v ++ q :: T) acc = Some (rev acc ++ v, T).
Proof.
  induction v as [|c v IH]; intros q T acc Hv Hq; cbn.
  - rewrite Hq, app_nil_r. reflexivity.
  - apply plain_cons in Hv. destruct Hv as (H1 & H2 & _ & H4). rewrite H1, H2.
    rewrite IH by assumption. cbn. now rewrite <- app_assoc.
Qed.

Lemma skip_ws_blanks w : forall c X, forallb is_blank w = true -> is_ws c = false ->
  skip_ws (w ++ c :: X) = c :: X.
Proof.
  induction w as [|b w IH]; intros c X Hw Hc; cbn.
  - now rewrite Hc.
  - cbn in Hw. apply andb_true_iff in Hw. destruct Hw as [Hb Hw].
    assert (is_ws b = true) as ->.
    { unfold is_blank in Hb. apply orb_true_iff in Hb.
      destruct Hb as [Hb|Hb]; apply Ascii.eqb_eq in Hb; subst b; reflexivity. }
    now apply IH.
Qed.

Lemma is_quote_qc b : is_quote (qc b) = true.
Proof. destruct b; reflexivity. Qed.
Lemma is_ws_quote q : is_quote q = true -> is_ws q = false.
Proof.
  unfold is_quote. rewrite orb_true_iff. intros [H|H]; apply Ascii.eqb_eq in H; subst q; reflexivity.
Qed.

Lemma tail_match_ok q1 q2 q3 w1 w2 v T :
  is_quote q1 = true -> is_quote q2 = true -> is_quote q3 = true ->
  forallb is_blank w1 = true -> forallb is_blank w2 = true -> plain v = true ->
  tail_match (q1 :: "]" :: w1 ++ "=" :: w2 ++ q2 :: v ++ q3 :: T) = Some (v, T).
Proof.
  intros H1 H2 H3 Hw1 Hw2 Hv. unfold tail_match. rewrite H1. cbn [andb Ascii.eqb].
  change (Ascii.eqb "]" "]") with true. cbn iota.
  rewrite (skip_ws_blanks w1 "=") by (auto; reflexivity).
  change (Ascii.eqb "=" "=") with true. cbn iota.
  rewrite (skip_ws_blanks w2 q2) by (auto using is_ws_quote).
  rewrite H2. rewrite lazy_to_quote_plain by assumption. reflexivity.
Qed.

Lemma key_match_plain k : forall acc q W v T, plain k = true ->
  tail_match (q :: "]" :: W) = Some (v, T) ->
  key_match (k ++ q :: "]" :: W) acc = Some (rev acc ++ k, v, T).
Proof.
  induction k as [|c k IH]; intros acc q W v T Hk Ht.
  - cbn [app]. destruct W; cbn [key_match]; rewrite Ht; now rewrite app_nil_r.
  - apply plain_cons in Hk. destruct Hk as (H1 & H2 & _ & H4).
    change ((c :: k) ++ q :: "]" :: W) with (c :: (k ++ q :: "]" :: W)).
    assert (tail_match (c :: (k ++ q :: "]" :: W)) = None) as Hn.
    { destruct (k ++ q :: "]" :: W) eqn:E; [reflexivity|]. unfold tail_match. rewrite H1. reflexivity. }
    cbn [key_match]. rewrite Hn, H2.
    rewrite (IH (c :: acc) q W v T H4 Ht). cbn [rev]. now rewrite <- app_assoc.
Qed.

Definition pair_of (s : stmt) : list (string * string) :=
  match s with Assign _ k v => [(k, v)] | Other _ => [] end.
Definition assigns (stmts : list stmt) : list (string * string) := flat_map pair_of stmts.

Lemma scan_assign q q' (k wb wa v tr rest : chars) :
  is_quote q = true -> is_quote q' = true -> plain k = true ->
  forallb is_blank wb = true -> forallb is_blank wa = true -> plain v = true -> no_lbracket tr = true ->
  scan (prefix_lit ++ q :: k ++ q :: "]" :: wb ++ "=" :: wa ++ q' :: v ++ q' :: tr ++ nl :: rest) 0 =
  (str_of k, str_of v) :: scan rest 0.
Proof.
  intros Hq Hq' Hk Hwb Hwa Hv Htr.
  rewrite (scan_match _ (prefix_lit ++ q :: k ++ q :: "]" :: wb ++ "=" :: wa ++ q' :: v ++ [q']) k v (tr ++ nl :: rest)).
  - f_equal. now apply scan_line.
  - repeat (rewrite <- app_assoc; cbn [app]). reflexivity.
  - discriminate.
  - unfold match_here. rewrite (is_prefix_app _ Ascii.eqb_refl), skipn_exact, Hq.
    apply (key_match_plain k []); [exact Hk|]. now apply tail_match_ok.
Qed.

Lemma scan_stmt s rest : wf_stmt s = true -> plain_stmt s = true ->
  scan (render_stmt s ++ rest) 0 = pair_of s ++ scan rest 0.
Proof.
  destruct s as [sty k v|line]; intros Hwf Hp; cbn [render_stmt pair_of app].
  - cbn [wf_stmt] in Hwf. unfold wf_style in Hwf. repeat (apply andb_prop in Hwf; destruct Hwf as [Hwf ?]).
    rewrite !escape_plain by (auto using is_quote_qc). repeat (rewrite <- app_assoc; cbn [app]).
    rewrite scan_assign by (auto using is_quote_qc). now rewrite !str_of_la_of.
  - apply andb_prop in Hwf. rewrite <- app_assoc. now apply scan_line.
Qed.

Lemma findall_render stmts :
  forallb wf_stmt stmts = true -> forallb plain_stmt stmts = true ->
  findall (str_of (render stmts)) = assigns stmts.
Proof.
  unfold findall. rewrite la_of_str_of. induction stmts as [|s stmts IH]; intros Hwf Hp; [reflexivity|].
  cbn in Hwf, Hp. apply andb_true_iff in Hwf. apply andb_true_iff in Hp.
  destruct Hwf as [Hs Hwf]. destruct Hp as [Hps Hp].
  unfold render, assigns. cbn [flat_map]. rewrite scan_stmt by assumption.
  f_equal. apply IH; assumption.
Qed.

Lemma final_last_of stmts k : final stmts k = last_of (assigns stmts) k.
Proof.
  induction stmts as [|s stmts IH]; [reflexivity|].
  cbn [final]. rewrite IH. unfold assigns. cbn [flat_map]. fold (assigns stmts).
  destruct s as [sty k' v|line]; cbn [pair_of app last_of].
  - reflexivity.
  - destruct (last_of (assigns stmts) k); reflexivity.
Qed.

Lemma final_unassigned stmts k : ~ In k (assigned stmts) -> final stmts k = None.
Proof.
  induction stmts as [|s stmts IH]; intros Hk; [reflexivity|].
  unfold assigned in Hk. cbn [flat_map] in Hk. fold (assigned stmts) in Hk. rewrite in_app_iff in Hk.
  cbn [final]. rewrite IH by tauto.
  destruct s as [sty k' v|line]; [|reflexivity].
  destruct (String.eqb k k') eqn:E; [|reflexivity].
  apply String.eqb_eq in E. subst k'. exfalso. apply Hk. left. now left.
Qed.

Lemma execute_ran caller out argv child argv' :
  execute caller out argv = Ran child argv' -> child = set_all caller (findall out) /\ argv' = argv.
Proof.
  unfold execute. destruct (lookup "MODULESHOME"%string caller); [|discriminate].
  destruct (String.eqb out mlstatus_false); [discriminate|]. intros H. now inversion H.
Qed.

Theorem partial :
  forall (caller : env) (stmts : list stmt) (argv : list string) (home : string),
    lookup "MODULESHOME"%string caller = Some home -> NoDup (map fst caller) ->
    forallb wf_stmt stmts = true -> forallb plain_stmt stmts = true ->
    str_of (render stmts) <> mlstatus_false ->
    exists child, execute caller (str_of (render stmts)) argv = Ran child argv /\
                  spec_child_env caller stmts child.
Proof.
  intros caller stmts argv home Hh Hnd Hwf Hp Hne.
  unfold execute. rewrite Hh.
  destruct (String.eqb (str_of (render stmts)) mlstatus_false) eqn:E.
  { apply String.eqb_eq in E. contradiction. }
  eexists. split; [reflexivity|]. split; [now apply nodup_set_all|].
  intros k. rewrite lookup_set_all, findall_render by assumption. unfold spec_lookup. now rewrite final_last_of.
Qed.

Definition sty0 : style := {| key_dq := true; val_dq := true; ws_before := [" "]; ws_after := [" "]; trailer := [] |}.
Definition witness_caller : env := [("MODULESHOME", "/opt/lmod"); ("HOME", "/home/u")]%string.
(* a value with an apostrophe, printed as Lmod prints it: the scanner cuts it at the apostrophe *)
Definition witness_stmts : list stmt := [Assign sty0 "MSG" "it's"]%string.

Lemma witness_nodup : NoDup (map fst witness_caller).
Proof. apply NoDup_cons; [cbn; intros [X|[]]; discriminate|]. apply NoDup_cons; [intros []|apply NoDup_nil]. Qed.

(* the tree before the fix commit: the caller environment was dropped *)
Definition pinned_statement : Prop :=
  forall (caller : env) (stmts : list stmt) (argv : list string) (home : string),
    lookup "MODULESHOME"%string caller = Some home -> NoDup (map fst caller) ->
    forallb wf_stmt stmts = true -> forallb plain_stmt stmts = true ->
    str_of (render stmts) <> mlstatus_false ->
    exists child, execute_pinned caller (str_of (render stmts)) argv = Ran child argv /\
                  spec_child_env caller stmts child.

Theorem errors caller argv :
  (lookup "MODULESHOME"%string caller = None -> forall out, execute caller out argv = ErrNoLmod) /\
  (forall home, lookup "MODULESHOME"%string caller = Some home -> execute caller mlstatus_false argv = ErrModule).
Proof.
  split; unfold execute.
  - intros -> out. reflexivity.
  - intros home ->. rewrite String.eqb_refl. reflexivity.
Qed.

Example partial_nonvacuous :
  let stmts := [Assign sty0 "PATH" "/opt/m/bin:/usr/bin"; Other "_mlstatus = True";
                Assign {| key_dq := false; val_dq := false; ws_before := []; ws_after := []; trailer := [";"%char] |} "FOO" "a b"]%string in
  forallb wf_stmt stmts = true /\ forallb plain_stmt stmts = true /\
  execute (("PATH", "/usr/bin") :: witness_caller)%string (str_of (render stmts)) ["cmd"%string]
  = Ran [("PATH", "/opt/m/bin:/usr/bin"); ("MODULESHOME", "/opt/lmod"); ("HOME", "/home/u"); ("FOO", "a b")]%string ["cmd"%string].
Proof. vm_compute. auto. Qed.

(* what Lmod prints for an unset (unsetenv / unload): an assignment of the empty string followed by a del.
   The scanner reads the assignment and never the del, so the command sees the variable set to the empty string.
   Recorded as behaviour, not as a violation: the property speaks of variables the modules set and of
   variables they do not touch; a variable a module unsets is neither. *)
Definition unset_text : string :=
  str_of (la_of "os.environ[""X""] = ''" ++ [nl] ++ la_of "del os.environ[""X""]" ++ [nl]).
Example unset_reads_as_empty :
  execute [("MODULESHOME", "/m"); ("X", "old"); ("HOME", "/h")]%string unset_text ["cmd"%string]
  = Ran [("MODULESHOME", "/m"); ("X", ""); ("HOME", "/h")]%string ["cmd"%string] /\
  findall unset_text = [("X", "")]%string.
Proof. vm_compute. auto. Qed.
