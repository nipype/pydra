(* Proofs/StateClass.v — C02: the axis bookkeeping of the combiner path as the class theorem of StateClass2.v uses it: the
   groups table (gset/gget, fields_of), ready_check, combiner_all_of on a run of groups_run, and that sort_set is canonical. *)
From Coq Require Import Sorting.Sorted Sorting.Permutation.
From Pydra Require Import Base.Prelude Model.State Proofs.State Proofs.ListFacts Proofs.Assoc.

Lemma keys_gset_fresh k v g : ~ In k (map fst g) -> map fst (gset k v g) = map fst g ++ [k].
Proof.
  intros H. change (gset k v g) with (assoc_put Nat.eqb k v g). rewrite (assoc_put_set Nat.eqb Nat.eqb_eq), assoc_keys_set.
  rewrite (proj2 (existsb_eqb_notIn Nat.eqb Nat.eqb_eq k (map fst g)) H). reflexivity.
Qed.

Lemma nodup_gset k v g : NoDup (map fst g) -> NoDup (map fst (gset k v g)).
Proof.
  change (gset k v g) with (assoc_put Nat.eqb k v g). rewrite (assoc_put_set Nat.eqb Nat.eqb_eq). apply (assoc_nodup_set Nat.eqb Nat.eqb_eq).
Qed.

Lemma gget_gset x k v g : gget x (gset k v g) = if Nat.eqb x k then Some v else gget x g.
Proof. exact (assoc_get_put Nat.eqb Nat.eqb_eq k v g x). Qed.

Lemma gget_none_keys x g : gget x g = None -> ~ In x (map fst g).
Proof. exact (proj1 (assoc_get_none Nat.eqb Nat.eqb_eq x g)). Qed.
Lemma gget_some_in x v g : gget x g = Some v -> In (x, v) g.
Proof. exact (assoc_get_in Nat.eqb Nat.eqb_eq x v g). Qed.
Lemma in_gget x v g : NoDup (map fst g) -> In (x, v) g -> gget x g = Some v.
Proof. exact (assoc_in_get Nat.eqb Nat.eqb_eq x v g). Qed.

Lemma remove_first_in g x : forall l, In x l -> x <> g -> In x (remove_first g l).
Proof.
  induction l as [|y l IH]; intros Hx Hne; [contradiction|]. cbn [remove_first].
  destruct (Nat.eqb g y) eqn:E.
  - apply Nat.eqb_eq in E. subst. destruct Hx as [->|Hx]; [congruence| exact Hx].
  - destruct Hx as [->|Hx]; [left; reflexivity| right; apply IH; assumption].
Qed.

Lemma ready_check_ok : forall grs stack removed,
  (forall g, In g grs -> In g stack \/ In g removed) -> ready_check grs stack removed <> None.
Proof.
  induction grs as [|g grs IH]; intros stack removed H; cbn [ready_check]; [discriminate|].
  destruct (memb g stack) eqn:Ms.
  - apply IH. intros g' Hg'. destruct (H g' (or_intror Hg')) as [Hs|Hr]; [|right; right; exact Hr].
    destruct (Nat.eq_dec g' g) as [->|Hne]; [right; left; reflexivity| left; apply remove_first_in; assumption].
  - destruct (memb g removed) eqn:Mr.
    + apply IH. intros g' Hg'. apply H. right. exact Hg'.
    + exfalso. destruct (H g (or_introl eq_refl)) as [Hs|Hr]; apply memb_In in Hs || apply memb_In in Hr; congruence.
Qed.

Definition gsetl (ks : list nat) (v : list nat) (g : gmap) : gmap := fold_left (fun g k => gset k v g) ks g.

Lemma gget_gsetl x v : forall ks g, gget x (gsetl ks v g) = if memb x ks then Some v else gget x g.
Proof.
  unfold gsetl. induction ks as [|k ks IH]; intros g; cbn [fold_left memb existsb]; [reflexivity|].
  rewrite IH, gget_gset. unfold memb. destruct (Nat.eqb x k); cbn [orb]; [|reflexivity].
  destruct (existsb (Nat.eqb x) ks); reflexivity.
Qed.

Lemma nodup_gsetl v : forall ks g, NoDup (map fst g) -> NoDup (map fst (gsetl ks v g)).
Proof.
  unfold gsetl. induction ks as [|k ks IH]; intros g N; cbn [fold_left]; [exact N|]. apply IH, nodup_gset, N.
Qed.

(* input_for_groups[gr]: the fields that have gr among their axes *)
Definition fields_of (g : gmap) (gr : nat) : list nat := map fst (filter (fun kv => memb gr (snd kv)) g).

Lemma fields_of_in g gr x : NoDup (map fst g) -> In x (fields_of g gr) <-> exists w, gget x g = Some w /\ In gr w.
Proof.
  intros N. unfold fields_of. rewrite in_map_iff. split.
  - intros ([x' w] & <- & Hf). apply filter_In in Hf as [Hin Hm]. exists w.
    split; [apply in_gget; assumption| apply memb_In; exact Hm].
  - intros (w & E & Hw). exists (x, w). split; [reflexivity|]. apply filter_In.
    split; [apply gget_some_in; exact E| apply memb_In; exact Hw].
Qed.

Lemma combiner_all_run p comb al st g :
  groups_run p [] [] None = inr (GVal al :: st, g) ->
  (forall c, In c comb -> exists n, gget c g = Some [n] /\ In n al) ->
  combiner_all_of p comb =
  inr (sort_set (flat_map (fields_of g) (flat_map (fun c => match gget c g with Some v => v | None => [] end) comb))).
Proof.
  intros G Hc. unfold combiner_all_of. destruct p as [|t1 [|t2 p]]; [discriminate G| destruct t1; discriminate G|]. rewrite G.
  (* with two tokens or more p is not the one-field case, whatever its first token *)
  destruct comb as [|c0 comb']; [destruct t1; reflexivity|]. set (comb := c0 :: comb') in *.
  assert (A : forallb (fun c => match gget c g with Some _ => true | None => false end) comb = true).
  { apply forallb_forall. intros c Hc'. destruct (Hc c Hc') as (n & E & _). rewrite E. reflexivity. }
  rewrite A. cbn [negb].
  set (grs := flat_map (fun c => match gget c g with Some v => v | None => [] end) comb).
  assert (R : ready_check grs al [] <> None).
  { apply ready_check_ok. intros gr Hg. left. apply in_flat_map in Hg as (c & Hc' & Hg).
    destruct (Hc c Hc') as (n & E & Hn). rewrite E in Hg. destruct Hg as [<-|[]]. exact Hn. }
  destruct (ready_check grs al []); [|congruence]. destruct t1; reflexivity.
Qed.

Lemma nat_insert_in x l y : In y (nat_insert x l) <-> y = x \/ In y l.
Proof.
  assert (S : forall P : Prop, x = y \/ P <-> y = x \/ P) by (intros P; split; intros [E|H]; auto).
  induction l as [|z l IH]; cbn [nat_insert]; [apply S|].
  destruct (Nat.ltb x z); [apply S|]. destruct (Nat.eqb x z) eqn:E; cbn [In].
  - apply Nat.eqb_eq in E. subst z. rewrite <- S. clear. tauto.
  - rewrite IH. clear. tauto.
Qed.

Lemma nat_insert_sorted x l : StronglySorted lt l -> StronglySorted lt (nat_insert x l).
Proof.
  induction l as [|z l IH]; intros S; cbn [nat_insert]; [repeat constructor|].
  inversion S as [|? ? S' F]; subst. destruct (Nat.ltb x z) eqn:L.
  - apply Nat.ltb_lt in L. constructor; [exact S|]. constructor; [exact L|].
    eapply Forall_impl; [|exact F]. intros a Ha. lia.
  - destruct (Nat.eqb x z) eqn:E; [exact S|]. apply Nat.ltb_ge in L. apply Nat.eqb_neq in E.
    constructor; [apply IH; exact S'|]. apply Forall_forall. intros a Ha. apply nat_insert_in in Ha as [->|Ha]; [lia|].
    rewrite Forall_forall in F. apply F. exact Ha.
Qed.

Lemma sort_set_in l y : In y (sort_set l) <-> In y l.
Proof. unfold sort_set. induction l as [|x l IH]; cbn [fold_right]; [reflexivity|]. rewrite nat_insert_in, IH. cbn. clear. intuition. Qed.

Lemma sort_set_sorted l : StronglySorted lt (sort_set l).
Proof. unfold sort_set. induction l as [|x l IH]; cbn [fold_right]; [constructor| apply nat_insert_sorted; exact IH]. Qed.

Lemma sorted_ext (a : list nat) : forall b, StronglySorted lt a -> StronglySorted lt b ->
  (forall x, In x a <-> In x b) -> a = b.
Proof.
  assert (ND : forall l, StronglySorted lt l -> NoDup l).
  { induction 1 as [|x l _ IH F]; constructor; [|exact IH]. rewrite Forall_forall in F. intros H. apply F in H. lia. }
  intros b Sa Sb H. apply (sorted_perm_unique lt); auto; [intros; lia|]. apply NoDup_Permutation; auto.
Qed.

Lemma sort_set_ext a b : (forall x, In x a <-> In x b) -> sort_set a = sort_set b.
Proof. intros H. apply sorted_ext; try apply sort_set_sorted. intros x. rewrite !sort_set_in. apply H. Qed.
