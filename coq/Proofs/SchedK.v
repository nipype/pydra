(* Proofs/SchedK.v — progress: when no job fails, a poll made while no job is seen running or waiting for its
   result either returns a job, or has found every node done, or has started a node that has no jobs. *)
From Pydra Require Import Base.Prelude Base.SchedBase Model.Sched Spec.Sched Proofs.SchedA Proofs.SchedSpec Proofs.SchedC Proofs.SchedJ Proofs.ListFacts.
Local Open Scope nat_scope.

Lemma firstn_nonempty {A} k (l : list A) : 1 <= k -> l <> [] -> firstn k l <> [].
Proof. destruct k; [lia|]. destruct l; [congruence|]. cbn. discriminate. Qed.

Lemma mem_job_false_nil j : mem_job j [] = false.
Proof. reflexivity. Qed.

Section Live.
Variable V : Type.
Variable fails : job -> bool.
Variable vr : variant.
Hypothesis F14 : fix14 vr = true.
Variable g : graph.
Hypothesis WF : wf_graph g.
Variable kmax : option nat.
Hypothesis NF : forall j, fails j = false.
Hypothesis KP : forall k, kmax = Some k -> 1 <= k.

Notation world := (world V).
Notation nstate := (nstate V).
Notation GInv := (GInv V fails g).
Notation WInv := (WInv V fails).
Notation NInv := (NInv V fails g).
Notation refresh := (refresh V vr).
Notation scanned := (scanned V vr g).

(* with no failing job, nothing is errored or unrunnable *)
Lemma clean_node (w : world) n (s : nstate) : WInv w -> NInv w n s -> errored s = [] /\ unrunnable s = false.
Proof.
  intros W I. split.
  - destruct (errored s) as [|i l] eqn:E; [reflexivity|]. exfalso.
    assert (Hi : In i (errored s)) by (rewrite E; left; reflexivity).
    pose proof (ni_err I i Hi) as X. destruct (W (n, i)) as [_ B]. rewrite NF in B. specialize (B X). discriminate.
  - destruct (unrunnable s) eqn:E; [|reflexivity].
    pose proof (ni_taint_unr I E) as X. rewrite (no_fail_no_taint g fails WF n NF) in X. discriminate.
Qed.

Definition newly_started_zero (st st' : nstates V) : Prop :=
  exists nd, In nd g /\ njobs nd = 0 /\ started_flag (st (nid nd)) = false /\ started_flag (st' (nid nd)) = true.

(* the first node that is not done yields a job or is a node without jobs that is started now *)
Lemma scanned_progress (w : world) ss st' :
  GInv w ss -> WInv w ->
  (forall n i, In i (running (nst ss n)) -> is_none w (n, i) = false) ->
  (forall j, mem_job j (visible w) = false) ->
  forall rest tl, scanned w (nst ss) st' rest tl -> forall pre, g = pre ++ rest ->
  (forall p, In p (map nid pre) -> st' p = refresh w (nst ss) p /\ done_ns (refresh w (nst ss) p) = true) ->
  tl <> [] \/ (forall p, In p (map nid g) -> st' p = refresh w (nst ss) p /\ done_ns (refresh w (nst ss) p) = true)
  \/ newly_started_zero (nst ss) st'.
Proof.
  intros G W RF NV. induction 1 as [|nd rest tl D E S IH|nd rest D Bk E O|nd rest tl D Pf E Fl S IH]; intros pre Eg Hpre.
  - right; left. rewrite app_nil_r in Eg. subst pre. exact Hpre.
  - apply (IH (pre ++ [nd])); [rewrite <- app_assoc; exact Eg|].
    intros p Hp. rewrite map_app in Hp. apply in_app_or in Hp. destruct Hp as [Hp|[<-|[]]]; auto.
  - exfalso. destruct Bk as [p [Hp X]]. destruct (topo_at g pre nd rest WF Eg) as [Hpp _].
    rewrite (done_started V fails vr F14 g w ss _ G (proj2 (Hpre p (proj1 (Hpp p Hp))))) in X. discriminate.
  - assert (Hnd : In nd g). { rewrite Eg. apply in_or_app. right; left; reflexivity. }
    destruct (topo_at g pre nd rest WF Eg) as [Hpp _].
    destruct (refresh_spec V fails vr F14 g w ss (nid nd) G) as [N1 [_ Fr]]. set (s := refresh w (nst ss) (nid nd)) in *.
    assert (R1 : running s = []).
    { apply nil_of_no_mem. intros i Hi. pose proof (Fr i Hi) as X.
      destruct (update_ns_running V vr F14 w (nid nd) _ i Hi) as [Y|Y]; [rewrite (RF _ _ Y) in X; discriminate|rewrite NV in Y; discriminate]. }
    unfold SchedC.runnable_state in E.
    rewrite (proj2 (existsb_false_In _ (npreds nd))) in E
      by (intros p _; destruct (clean_node w p _ W (proj1 (refresh_spec V fails vr F14 g w ss p G))) as [-> ->]; reflexivity).
    rewrite (proj2 (forallb_forall _ (npreds nd))) in E by (intros p Hp; apply Hpre, Hpp, Hp).
    destruct (is_started s) eqn:St; cbn [andb negb] in E; rewrite E.
    + left. destruct (queued s) as [|i l] eqn:Q; [|cbn; discriminate].
      rewrite (proj2 (NInv_done V fails g w _ s N1)) in D; [discriminate|]. rewrite <- (NInv_started V fails g w _ s N1). auto.
    + cbn [queued]. destruct (njobs nd) as [|k] eqn:Z; [right; right|left; discriminate].
      exists nd. rewrite E. cbn [started_flag]. repeat split; auto.
      rewrite <- (refresh_started V fails vr F14 g w ss (nid nd) G). exact St.
Qed.

Lemma poll_makes_progress (w : world) ss ss' tasks :
  GInv w ss -> WInv w ->
  (forall n i, In i (running (nst ss n)) -> is_none w (n, i) = false) ->
  (forall j, mem_job j (visible w) = false) ->
  poll vr g kmax w ss = (ss', tasks) ->
  tasks <> [] \/ any_not_done vr g w ss' = false \/ newly_started_zero (nst ss) (nst ss').
Proof.
  intros G W RF NV EP. destruct (poll_scanned V fails vr F14 g WF kmax w ss ss' tasks G W EP) as [_ [_ [tl [-> S]]]].
  destruct (scanned_progress w ss _ G W RF NV g tl S [] eq_refl (fun p (H : In p []) => match H with end)) as [A|[A|A]]; auto.
  - left. unfold truncate. destruct kmax as [k|] eqn:K; [apply firstn_nonempty; auto|exact A].
  - right; left. apply any_not_done_false. intros nd Hnd. destruct (A (nid nd) (in_map nid g nd Hnd)) as [E D].
    unfold SchedC.refresh. rewrite E, (refresh_idem V fails vr F14 g w ss _ G). exact D.
Qed.

End Live.
