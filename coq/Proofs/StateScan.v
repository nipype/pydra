(* Proofs/StateScan.v — C02: what remove_rpn is, for every token list: a scan of the reversed RPN that keeps the tokens
   themselves (rscan, remove_rpn_scan), so that its users reason on token lists and never on positions. *)
From Coq Require Import Sorting.Sorted.
From Pydra Require Import Base.Prelude Model.State Proofs.State Proofs.StateComb Proofs.StateClass Proofs.ListFacts.

Lemma filter_rev {A} (p : A -> bool) l : filter p (rev l) = rev (filter p l).
Proof.
  induction l as [|x l IH]; [reflexivity|]. cbn [rev filter]. rewrite filter_app, IH. cbn [filter].
  destruct (p x); cbn [rev]; [reflexivity| apply app_nil_r].
Qed.

Lemma rev_sorted l : StronglySorted gt l -> StronglySorted lt (rev l).
Proof.
  induction 1 as [|x l Hs IH F]; [constructor|]. cbn [rev]. apply sorted_snoc; [exact IH|].
  intros y Hy. apply in_rev in Hy. rewrite Forall_forall in F. exact (F y Hy).
Qed.

Lemma sorted_Add [A] [R : A -> A -> Prop] [x o out] : Add x o out -> StronglySorted R out -> StronglySorted R o.
Proof.
  induction 1 as [o|y o out Ha IH]; intros S; inversion S as [|? ? S' F]; subst; [exact S'|].
  constructor; [exact (IH S')|]. rewrite Forall_forall in *. intros a Hin. apply F, (Add_in Ha). right. exact Hin.
Qed.

Lemma desc_up ii out : StronglySorted gt (ii :: out) -> StronglySorted gt (S ii :: out).
Proof. intros Hs. inversion Hs as [|? ? S' F]; subst. constructor; [exact S'|]. eapply Forall_impl; [|exact F]. intros a Ha. lia. Qed.

(* remove_inp_from_splitter_rpn keeps (position, token) pairs and sorts them at the end; the model keeps the positions and
   filters by them.  The same scan keeping the elements themselves, whatever they are (it sees them through tk): run on
   tokens it returns the remaining RPN at once, run on positions it is the model (Section Positions). *)
Section Scan.
  Context {A : Type} (tk : A -> tok).
  Variable rm : list nat.

  Definition sign (x : A) : bool := match tk x with TF _ => false | _ => true end.

  (* out without its k-th sign, the most recent being number 0 *)
  Fixpoint drop_sign (k : nat) (out : list A) : option (list A) :=
    match out with
    | [] => None
    | x :: r => if sign x then match k with 0 => Some r | S k' => option_map (cons x) (drop_sign k' r) end
                else option_map (cons x) (drop_sign k r)
    end.

  (* a removed field: stack_sgn.pop() when from_last_sign[-1] <= 1 (the model's tl, which leaves an empty list alone), else
     stack_sgn.pop(-c) *)
  Definition pop_sign (fls : list nat) (out : list A) : option (list A) :=
    match fls with
    | [] => Some out
    | c :: _ => if Nat.leb c 1 then Some (match drop_sign 0 out with Some o => o | None => out end) else drop_sign (c - 1) out
    end.

  Fixpoint rscan (rv out : list A) (fls : list nat) : option (list A) :=
    match rv with
    | [] => Some out
    | x :: rv' =>
        match tk x with
        | TF f => if negb (memb f rm) then rscan rv' (x :: out) (match fls with [] => [] | c :: r => S c :: r end)
                  else match pop_sign fls out with Some o => rscan rv' o (tl fls) | None => None end
        | _ => rscan rv' (x :: out) (0 :: fls)
        end
    end.
End Scan.

(* the scan sees an element only through its token *)
Lemma drop_sign_tk {A} (tk : A -> tok) : forall out k,
  drop_sign (fun t => t) k (map tk out) = option_map (map tk) (drop_sign tk k out).
Proof.
  induction out as [|x r IH]; intros k; [reflexivity|]. cbn [map drop_sign]. change (sign (fun t => t) (tk x)) with (sign tk x).
  destruct (sign tk x); [destruct k; [reflexivity|]|]; rewrite IH; destruct (drop_sign tk _ r); reflexivity.
Qed.

Lemma rscan_tk {A} (tk : A -> tok) rm : forall rv out fls,
  rscan (fun t => t) rm (map tk rv) (map tk out) fls = option_map (map tk) (rscan tk rm rv out fls).
Proof.
  induction rv as [|x rv IH]; intros out fls; [reflexivity|]. cbn [map rscan].
  destruct (tk x) as [f| |] eqn:E; try (rewrite <- E, <- IH; reflexivity).
  destruct (negb (memb f rm)); [rewrite <- E, <- IH; reflexivity|].
  unfold pop_sign. destruct fls as [|c fr]; [apply IH|]. rewrite !drop_sign_tk.
  destruct (Nat.leb c 1); [destruct (drop_sign tk 0 out)| destruct (drop_sign tk (c - 1) out)]; cbn [option_map]; rewrite <- ?IH; reflexivity.
Qed.

(* the elements are the positions ii, ii+1, ... themselves; sgs and fds of what is kept are stack_sgn and stack_inp.
   StronglySorted gt (ii :: out): the kept positions descend and lie below the scan position, which is what lets
   keep_positions read them back in order (desc_filter) *)
Section Positions.
  Variable tk : nat -> tok.
  Variable rm : list nat.
  Definition sgs (out : list nat) : list nat := filter (sign tk) out.
  Definition fds (out : list nat) : list nat := filter (fun i => negb (sign tk i)) out.

  Lemma sgs_cons i out : sgs (i :: out) = if sign tk i then i :: sgs out else sgs out.
  Proof. reflexivity. Qed.
  Lemma fds_cons i out : fds (i :: out) = if sign tk i then fds out else i :: fds out.
  Proof. unfold fds. cbn [filter]. destruct (sign tk i); reflexivity. Qed.

  (* the k-th sign of what is kept stands at the k-th of the kept sign positions; o is out without that one element *)
  Lemma drop_sign_positions : forall out k,
    match drop_sign tk k out with
    | Some o => drop_nth k (sgs out) = Some (sgs o) /\ fds o = fds out /\ exists x, Add x o out
    | None => drop_nth k (sgs out) = None
    end.
  Proof.
    induction out as [|x r IH]; intros k; [destruct k; reflexivity|].
    cbn [drop_sign]. rewrite sgs_cons, fds_cons.
    destruct (sign tk x) eqn:Sx; [destruct k as [|k]; [repeat split; exists x; constructor|]|];
      specialize (IH k); cbn [drop_nth];
      (destruct (drop_sign tk k r) as [o|]; cbn [option_map]; [|rewrite IH; reflexivity]);
      rewrite sgs_cons, fds_cons, Sx; destruct IH as (-> & -> & y & Ha); repeat split; exists y; constructor; exact Ha.
  Qed.

  Lemma scan_positions : forall n ii out fls, StronglySorted gt (ii :: out) ->
    match rscan tk rm (seq ii n) out fls with
    | Some o => remove_loop (map tk (seq ii n)) ii rm (sgs out) (fds out) fls = Some (sgs o, fds o) /\ StronglySorted gt (n + ii :: o)
    | None => remove_loop (map tk (seq ii n)) ii rm (sgs out) (fds out) fls = None
    end.
  Proof.
    induction n as [|n IHn]; intros ii out fls Hs; [split; [reflexivity| exact Hs]|]. cbn [seq map remove_loop rscan]. rewrite Nat.add_succ_comm.
    assert (Push : StronglySorted gt (S ii :: ii :: out)).
    { constructor; [exact Hs|]. constructor; [lia|]. apply desc_up in Hs. inversion Hs; assumption. }
    pose proof (IHn (S ii) (ii :: out)) as IH. rewrite sgs_cons, fds_cons in IH. unfold sign in IH.
    destruct (tk ii) as [f| |]; try exact (IH (0 :: fls) Push).
    destruct (negb (memb f rm)); [exact (IH _ Push)|]. clear IH Push. specialize (IHn (S ii)).
    unfold pop_sign. destruct fls as [|c fr]; [exact (IHn out [] (desc_up ii out Hs))|]. cbn [tl].
    pose proof (drop_sign_positions out (if Nat.leb c 1 then 0 else c - 1)) as D. destruct (Nat.leb c 1).
    - (* c <= 1: the model pops with tl, which leaves an empty list alone, where drop_nth 0 fails *)
      replace (tl (sgs out)) with (match drop_nth 0 (sgs out) with Some r => r | None => sgs out end) by (destruct (sgs out); reflexivity).
      destruct (drop_sign tk 0 out) as [o|]; [destruct D as (-> & <- & y & Ha); apply IHn, desc_up, (sorted_Add (Add_cons ii Ha) Hs)| rewrite D; apply IHn, desc_up, Hs].
    - destruct (drop_sign tk (c - 1) out) as [o|]; [|rewrite D; reflexivity]. destruct D as (-> & <- & y & Ha). apply IHn, desc_up, (sorted_Add (Add_cons ii Ha) Hs).
  Qed.

  Lemma keep_filter K : forall n ii, keep_positions (map tk (seq ii n)) ii K = map tk (filter (fun i => memb i K) (seq ii n)).
  Proof. induction n as [|n IH]; intros ii; [reflexivity|]. cbn [seq map keep_positions filter]. rewrite IH. destruct (memb ii K); reflexivity. Qed.

  Lemma desc_filter n o : StronglySorted gt (n :: o) -> filter (fun i => memb i (sgs o ++ fds o)) (seq 0 n) = rev o.
  Proof.
    intros Hs. inversion Hs as [|? ? So F]; subst. rewrite Forall_forall in F.
    apply sorted_ext; [apply StronglySorted_filter, sorted_seq| apply rev_sorted, So|].
    intros i. rewrite filter_In, in_seq, memb_In, in_app_iff, <- in_rev. unfold sgs, fds. rewrite !filter_In.
    split; [intros (_ & [[H _]|[H _]]); exact H|]. intros H. specialize (F i H). split; [lia|]. destruct (sign tk i); auto.
  Qed.

  Lemma remove_positions n :
    match remove_loop (map tk (seq 0 n)) 0 rm [] [] [] with
    | Some (sgn, inp) => Some (rev (keep_positions (map tk (seq 0 n)) 0 (sgn ++ inp)))
    | None => None
    end = rscan (fun t => t) rm (map tk (seq 0 n)) [] [].
  Proof.
    pose proof (rscan_tk tk rm (seq 0 n) [] []) as R. change (map tk []) with (@nil tok) in R. rewrite R. clear R.
    pose proof (scan_positions n 0 [] [] ltac:(repeat constructor)) as H. cbn [sgs fds filter] in H. rewrite Nat.add_0_r in H.
    destruct (rscan tk rm (seq 0 n) [] []) as [o|]; [|rewrite H; reflexivity].
    destruct H as [-> So]. cbn [option_map]. f_equal.
    rewrite keep_filter, desc_filter by exact So. rewrite <- map_rev, rev_involutive. reflexivity.
  Qed.
End Positions.

Theorem remove_rpn_scan p rm : remove_rpn p rm = rscan (fun t => t) rm (rev p) [] [].
Proof.
  pose proof (remove_positions (fun i => nth i (rev p) TMul) rm (List.length (rev p))) as H. rewrite map_nth_seq in H. exact H.
Qed.
