(* Proofs/StateSpell.v — C05: equivalent spellings have the same expansion; request validation. *)
From Pydra Require Import Base.Prelude Model.State Spec.State Proofs.State Proofs.ListFacts.

Lemma dstep_fold dot x : forall m d, dstep dot x (fold_left (dstep dot) m d) = fold_left (dstep dot) m (dstep dot x d).
Proof. induction m as [|d' m IH]; intros d; cbn [fold_left]; [reflexivity|]. rewrite IH, dstep_assoc. reflexivity. Qed.

Lemma dall_flatten dot l1 m l2 : m <> [] -> dall dot (l1 ++ dall dot m :: l2) = dall dot (l1 ++ m ++ l2).
Proof.
  intros Hm. destruct m as [|d m]; [congruence|]. destruct l1 as [|d0 l1]; cbn [app]; rewrite <- !fold_dall, !fold_left_app.
  - reflexivity.
  - cbn [fold_left]. rewrite fold_left_app, dstep_fold. reflexivity.
Qed.

Section LeftFold.
  Variable all : list (option denot) -> option denot.
  Variable step : option denot -> option denot -> option denot.
  Hypothesis Hfold : forall r d, fold_left step r d = all (d :: r).

  Lemma all_single d : all [d] = d.
  Proof. rewrite <- Hfold. reflexivity. Qed.
End LeftFold.

Lemma respell_expand e s t : respell s t -> expand e s = expand e t.
Proof.
  induction 1.
  - reflexivity.
  - congruence.
  - congruence.
  - reflexivity.
  - reflexivity.
  - rewrite !(expand_node e false), !map_app. cbn [map]. rewrite (expand_node e false).
    apply (dall_flatten false). destruct m; [congruence|discriminate].
  - rewrite !(expand_node e true), !map_app. cbn [map]. rewrite (expand_node e true).
    apply (dall_flatten true). destruct m; [congruence|discriminate].
  - rewrite !(expand_node e false), !map_app. cbn [map]. rewrite IHrespell. reflexivity.
  - rewrite !(expand_node e true), !map_app. cbn [map]. rewrite IHrespell. reflexivity.
Qed.

Lemma respell_leaves s t : respell s t -> leaves s = leaves t.
Proof.
  induction 1; rewrite ?(leaves_node false), ?(leaves_node true); try congruence.
  - cbn [flat_map]. apply app_nil_r.
  - cbn [flat_map]. apply app_nil_r.
  - rewrite !flat_map_app. cbn [flat_map]. rewrite (leaves_node false). reflexivity.
  - rewrite !flat_map_app. cbn [flat_map]. rewrite (leaves_node true). reflexivity.
  - rewrite !flat_map_app. cbn [flat_map]. rewrite IHrespell. reflexivity.
  - rewrite !flat_map_app. cbn [flat_map]. rewrite IHrespell. reflexivity.
Qed.

Theorem respell_same_jobs e s t : respell s t -> wfb s = true -> wfb t = true ->
  prepare_states e s = prepare_states e t.
Proof.
  intros R Ws Wt. rewrite (prepare_states_spec e s Ws), (prepare_states_spec e t Wt).
  unfold spec_result, jobs. rewrite (respell_expand e s t R). reflexivity.
Qed.

Lemma rpn_single s : rpn (Outer [s]) = rpn s /\ rpn (Inner [s]) = rpn s.
Proof. cbn [rpn flat_map]. rewrite app_nil_r. auto. Qed.

Lemma has_dup_spec l : has_dup l = false <-> NoDup l.
Proof. exact (has_dup_of_false Nat.eqb Nat.eqb_eq l). Qed.

Lemma subsetb_spec a b : subsetb a b = true <-> (forall x, In x a -> In x b).
Proof.
  unfold subsetb. rewrite forallb_forall. split; intros H x Hx; [apply memb_In|apply memb_In]; auto.
Qed.

Lemma forallb_false_ex {A} (p : A -> bool) l : forallb p l = false -> exists x, In x l /\ p x = false.
Proof.
  induction l as [|x l IH]; cbn [forallb]; [discriminate|]. destruct (p x) eqn:E; cbn [andb].
  - intros H. destruct (IH H) as (y & Hy & Ey). exists y. split; [right; exact Hy| exact Ey].
  - intros _. exists x. split; [left; reflexivity| exact E].
Qed.

Lemma subsetb_false a b : subsetb a b = false <-> exists x, In x a /\ ~ In x b.
Proof.
  split.
  - intros H. destruct (forallb_false_ex _ _ H) as (x & Hx & E). exists x. split; [exact Hx|].
    intros Hin. apply memb_In in Hin. congruence.
  - intros (x & Hx & Hn). destruct (subsetb a b) eqn:E; [|reflexivity].
    exfalso. apply Hn. rewrite subsetb_spec in E. auto.
Qed.

Lemma length_eqb0 {A} (l : list A) : Nat.eqb (List.length l) 0 = true <-> l = [].
Proof. destruct l; cbn; split; congruence. Qed.

Lemma split_stage_spec r :
  match split_stage r with
  | inl _ => split_twice r \/ field_without_value r \/ value_without_field r \/ value_not_sequence r
  | inr os => os = effective_split r /\
              ~ split_twice r /\ ~ field_without_value r /\ ~ value_without_field r /\ ~ value_not_sequence r
  end.
Proof.
  unfold split_stage, effective_split, split_twice, field_without_value, value_without_field, value_not_sequence.
  destruct (r_split_called r); cbn [negb].
  2:{ split; [reflexivity|]. repeat split; intros [? _]; discriminate. }
  destruct (r_split r) as [s|].
  - destruct (has_dup (leaves s)) eqn:D.
    { left. split; [reflexivity|]. exists s. split; [reflexivity|]. intros N. apply has_dup_spec in N. congruence. }
    destruct (subsetb (leaves s) (r_vals r)) eqn:M; cbn [negb].
    2:{ right; left. apply subsetb_false in M as (f & Hf & Hn). split; [reflexivity|]. exists s, f. auto. }
    destruct (subsetb (r_vals r) (leaves s)) eqn:St; cbn [negb].
    2:{ right; right; left. apply subsetb_false in St as (f & Hf & Hn). split; [reflexivity|]. exists s, f. auto. }
    destruct (Nat.eqb (List.length (r_nonseq r)) 0) eqn:N; cbn [negb].
    2:{ right; right; right. split; [reflexivity|]. intros E. apply length_eqb0 in E. congruence. }
    apply has_dup_spec in D. rewrite subsetb_spec in M, St. apply length_eqb0 in N. split; [reflexivity|]. repeat split.
    + intros (_ & s' & [= <-] & Hn). auto.
    + intros (_ & s' & f & [= <-] & Hin & Hn). auto.
    + intros (_ & s' & f & [= <-] & Hin & Hn). auto.
    + intros (_ & Hn). auto.
  - destruct (Nat.eqb (List.length (r_nonseq r)) 0) eqn:N; cbn [negb].
    2:{ right; right; right. split; [reflexivity|]. intros E. apply length_eqb0 in E. congruence. }
    apply length_eqb0 in N. split; [reflexivity|]. repeat split.
    + intros (_ & s' & [=] & _).
    + intros (_ & s' & f & [=] & _).
    + intros (_ & s' & f & [=] & _).
    + intros (_ & Hn). auto.
Qed.

Definition comb_stage (r : req) (os : option spl) : verr + option spl :=
  let comb := match r_comb r with Some c => c | None => [] end in
  if negb (subsetb comb (r_task r)) then inl VCombNotInTask
  else match os with
       | Some s => if negb (subsetb comb (leaves s)) then inl VCombNotSplit else inr (Some s)
       | None => match comb with [] => inr None | _ => inl VCombNoSplit end
       end.

(* the two sites that reject a combiner without a splitter (Submitter.__call__ for a directly submitted task,
   Node._set_state + State.depth for a workflow node) decide alike *)
Lemma validate_eq r : validate r = match split_stage r with inl x => inl x | inr os => comb_stage r os end.
Proof.
  unfold validate, comb_stage. destruct (split_stage r) as [x|[s|]]; try reflexivity.
  destruct (negb (subsetb _ (r_task r))); [reflexivity|].
  destruct (r_node r); [|reflexivity]. destruct (match r_comb r with Some c => c | None => [] end); reflexivity.
Qed.

Lemma comb_stage_spec r :
  match comb_stage r (effective_split r) with
  | inl _ => combiner_not_split r \/ combine_without_split r
  | inr _ => ~ combiner_not_split r /\ ~ combine_without_split r
  end.
Proof.
  unfold comb_stage, combiner_not_split, combine_without_split. destruct (r_comb r) as [comb|].
  - destruct (subsetb comb (r_task r)) eqn:CT; cbn [negb].
    2:{ left. apply subsetb_false in CT as (f & Hf & Hn). exists comb, f. auto. }
    rewrite subsetb_spec in CT. destruct (effective_split r) as [s|].
    + destruct (subsetb comb (leaves s)) eqn:CS; cbn [negb].
      * rewrite subsetb_spec in CS. split.
        -- intros (c & f & [= <-] & Hf & [Hbad|(s0 & [= <-] & Hbad)]); auto.
        -- intros (c & _ & _ & [=]).
      * left. apply subsetb_false in CS as (f & Hf & Hn). exists comb, f. eauto 6.
    + destruct comb as [|f c'].
      * split; [intros (c & f & [= <-] & [] & _)| intros (c & [= <-] & Hne & _); congruence].
      * right. exists (f :: c'). split; [reflexivity|]. split; [discriminate| reflexivity].
  - cbn [subsetb forallb negb]. destruct (effective_split r); (split; [intros (c & f & [=] & _)| intros (c & [=] & _)]).
Qed.

Lemma validate_spec r : match validate r with inl _ => illformed r | inr _ => ~ illformed r end.
Proof.
  rewrite validate_eq. unfold illformed. pose proof (split_stage_spec r) as S.
  destruct (split_stage r) as [x|os]; [tauto|]. destruct S as (-> & H1 & H2 & H3 & H4).
  pose proof (comb_stage_spec r) as C. destruct (comb_stage r (effective_split r)); tauto.
Qed.

Theorem validate_ok_iff r : (exists os, validate r = inr os) <-> ~ illformed r.
Proof.
  pose proof (validate_spec r) as S. destruct (validate r) as [v|os]; split; [intros [? [=]]| contradiction| auto| eauto].
Qed.

(* a rejected request runs no task body: validation is complete before any job exists *)
Theorem illformed_no_job e r : illformed r -> exists v, submit e r = Rejected v /\ bodies (submit e r) = 0.
Proof.
  intros I. unfold submit. destruct (validate r) as [v|os] eqn:V.
  - exists v. auto.
  - exfalso. assert (H : exists os, validate r = inr os) by eauto. apply validate_ok_iff in H. contradiction.
Qed.

Theorem rejected_shape_no_job e r : submit e r = RejectedShape -> bodies (submit e r) = 0.
Proof. intros ->. reflexivity. Qed.

Lemma illformedb_validate r : illformedb r = match validate r with inl _ => true | inr _ => false end.
Proof.
  rewrite validate_eq. unfold illformedb, comb_stage, split_stage, effective_split.
  set (comb := match r_comb r with Some c => c | None => [] end).
  destruct (r_split_called r); cbn [negb andb orb].
  - destruct (r_split r) as [s|].
    + destruct (has_dup (leaves s)); [reflexivity|]. destruct (subsetb (leaves s) (r_vals r)); [|reflexivity].
      destruct (subsetb (r_vals r) (leaves s)); [|reflexivity].
      destruct (Nat.eqb (List.length (r_nonseq r)) 0); [|reflexivity]. cbn [negb andb orb].
      destruct (subsetb comb (r_task r)); [|reflexivity]. destruct (subsetb comb (leaves s)); reflexivity.
    + destruct (Nat.eqb (List.length (r_nonseq r)) 0); [|reflexivity]. destruct (subsetb comb (r_task r)); [|reflexivity].
      destruct (r_vals r) as [|v vs]; cbn [negb andb orb]; [destruct comb; reflexivity|]. destruct (subsetb comb _); reflexivity.
  - destruct (subsetb comb (r_task r)); [|reflexivity]. destruct comb; reflexivity.
Qed.

Theorem illformedb_spec r : illformedb r = true <-> illformed r.
Proof.
  rewrite illformedb_validate. destruct (validate r) as [v|os] eqn:V.
  - split; [intros _; pose proof (validate_spec r) as S; rewrite V in S; exact S| reflexivity].
  - split; [discriminate|]. intros I. exfalso. apply (proj1 (validate_ok_iff r)); eauto.
Qed.
