(* Proofs/SchedTermS.v — termination of the sequential loop of Model/Sched.v (expand_workflow,
   debug worker) for EVERY set of failing jobs: the run either stops with the first failing job's
   exception (Raised) or coincides, step by step, with the run in which no job fails, which ends
   Finished (SchedI.sync_terminates). *)
From Pydra Require Import Base.Prelude Base.SchedBase Model.Sched Spec.Sched Proofs.SchedI.
Local Open Scope nat_scope.

Section TermS.
Variable V : Type.
Variable body : nat -> nat -> list (list (option V)) -> V.
Variable fails : job -> bool.
Variable vr : variant.
Hypothesis F14 : fix14 vr = true.
Variable g : graph.
Hypothesis WF : wf_graph g.
Variable kmax : option nat.
Hypothesis NJ : forall nd, In nd g -> 1 <= njobs nd.
Hypothesis KP : forall k, kmax = Some k -> 1 <= k.

Lemma run_tasks_sim : forall tasks ss (w : world V) errs tr acc,
  snd (run_tasks body fails tasks ss w errs tr acc) = true \/
  run_tasks body fails tasks ss w errs tr acc = run_tasks body (fun _ => false) tasks ss w errs tr acc.
Proof.
  induction tasks as [|j r IH]; intros ss w errs tr acc; cbn [run_tasks]; [right; reflexivity|].
  destruct (is_ok w j); [apply IH|].
  destruct (fails j) eqn:Fj.
  - left. unfold job_result. rewrite Fj. reflexivity.
  - assert (E : job_result body fails ss j = job_result body (fun _ => false) ss j)
      by (unfold job_result; rewrite Fj; reflexivity).
    rewrite E. apply IH.
Qed.

Lemma sync_step_sim (ls : lstate V) :
  (exists ls', sync_step body fails vr g kmax ls = Stop Raised ls') \/
  sync_step body fails vr g kmax ls = sync_step body (fun _ => false) vr g kmax ls.
Proof.
  unfold sync_step. destruct (raised (ls_ss ls)); [right; reflexivity|].
  destruct (negb (negb (is_nil (ls_tasks ls)) || any_not_done vr g (ls_w ls) (ls_ss ls))); [right; reflexivity|].
  destruct (run_tasks_sim (ls_tasks ls) (ls_ss ls) (ls_w ls) (ls_errors ls) (ls_trace ls) []) as [H|H].
  - left. destruct (run_tasks body fails (ls_tasks ls) (ls_ss ls) (ls_w ls) (ls_errors ls) (ls_trace ls) [])
      as [[[[w1 errs1] tr1] launched] failed]. cbn [snd] in H. subst failed. eauto.
  - right. rewrite H. reflexivity.
Qed.

Lemma run_sync_loop_sim : forall fuel (ls : lstate V),
  o_status (run_sync_loop body fails vr g kmax fuel ls) = Raised \/
  run_sync_loop body fails vr g kmax fuel ls = run_sync_loop body (fun _ => false) vr g kmax fuel ls.
Proof.
  induction fuel as [|f IH]; intros ls; cbn [run_sync_loop]; [right; reflexivity|].
  destruct (sync_step_sim ls) as [[ls' H]|H].
  - left. rewrite H. reflexivity.
  - rewrite H. destruct (sync_step body (fun _ => false) vr g kmax ls) as [ls'|st ls']; [apply IH|right; reflexivity].
Qed.

(* For every wf graph in which every node has at least one job, every set of failing jobs and every
   max_concurrent >= 1: |jobs| + 1 iterations of `while tasks or any(not n.done ...)` suffice; the loop
   ends Finished, or Raised (the failing job's exception propagates out of expand_workflow). *)
Theorem sync_terminates_full fuel :
  List.length (all_jobs g) + 1 <= fuel ->
  o_status (run_sync V body fails vr g kmax fuel) = Finished \/
  o_status (run_sync V body fails vr g kmax fuel) = Raised.
Proof.
  intros B. unfold run_sync. destruct (run_sync_loop_sim fuel (ls_init V vr g kmax)) as [H|H]; [right; exact H|].
  left. rewrite H.
  exact (sync_terminates V body (fun _ => false) vr F14 g WF kmax (fun _ => eq_refl) KP NJ fuel B).
Qed.

End TermS.
