(* Proofs/StateClass2.v — C02: good_removalb proved for flat outer products whose operands are plain fields or inner
   PAIRS of plain fields.  The removal is followed on tokens (StateScan.remove_rpn_scan), operand by operand. *)
From Coq Require Import Permutation.
From Pydra Require Import Base.Prelude Model.State Spec.State Proofs.State Proofs.StateComb
  Proofs.StateProj Proofs.StateClass Proofs.StateScan Proofs.ListFacts.

Inductive atom := AF (f : nat) | AP (g1 g2 : nat).
Definition sa (a : atom) : spl := match a with AF f => Fld f | AP g1 g2 => Inner [Fld g1; Fld g2] end.
Definition afields (a : atom) : list nat := match a with AF f => [f] | AP g1 g2 => [g1; g2] end.
Definition atoks (a : atom) : list tok := match a with AF f => [TF f] | AP g1 g2 => [TF g1; TF g2; TDot] end.
Definition atoms_spl (l : list atom) : spl := Outer (map sa l).
Definition atoms_rpn (L : list atom) : list tok :=
  match L with [] => [] | b :: bs => atoks b ++ flat_map (fun c => atoks c ++ [TMul]) bs end.

Lemma rpn_sa a : rpn (sa a) = atoks a.
Proof. destruct a; reflexivity. Qed.

Lemma rpn_atoms L : rpn (atoms_spl L) = atoms_rpn L.
Proof.
  destruct L as [|a l]; [reflexivity|]. unfold atoms_spl. cbn [map rpn atoms_rpn]. rewrite rpn_sa. f_equal.
  induction l as [|b l IH]; [reflexivity|]. cbn [map flat_map]. rewrite rpn_sa, IH. reflexivity.
Qed.

Lemma leaves_atoms l : leaves (atoms_spl l) = flat_map afields l.
Proof.
  unfold atoms_spl. cbn [leaves]. induction l as [|a l IH]; [reflexivity|]. cbn [map flat_map]. rewrite IH.
  destruct a; reflexivity.
Qed.

Definition keepa (rm : list nat) (a : atom) : bool :=
  match a with AF f => negb (memb f rm) | AP g1 _ => negb (memb g1 rm) end.
(* an inner pair is removed as a whole or not at all *)
Definition closeda (rm : list nat) (a : atom) : Prop :=
  match a with AF _ => True | AP g1 g2 => memb g2 rm = memb g1 rm end.

(* the reversed RPN is the blocks of the later operands, last operand first, then the first operand without a sign *)
Definition rblock (a : atom) : list tok := TMul :: rev (atoks a).
Definition rblocks (l : list atom) : list tok := flat_map rblock l.
Definition signed (a : atom) : list tok := atoks a ++ [TMul].
(* what a kept block leaves on from_last_sign *)
Definition block_fls (a : atom) : list nat := match a with AF _ => [1] | AP _ _ => [2; 0] end.

Lemma rev_rblocks l : rev (rblocks l) = flat_map signed (rev l).
Proof.
  unfold rblocks. induction l as [|b l IH]; [reflexivity|]. cbn [flat_map rev rblock]. rewrite rev_app_distr, IH, flat_map_app.
  unfold rblock, signed. cbn [flat_map rev]. rewrite rev_involutive, app_nil_r. reflexivity.
Qed.
Lemma rev_signed_atoms rest : rev (flat_map signed rest) = rblocks (rev rest).
Proof. rewrite <- (rev_involutive (rblocks _)), rev_rblocks, rev_involutive. reflexivity. Qed.

(* the sign that a removed first operand pops is the one after the most recent kept block *)
Lemma pop_sign_blocks ks : pop_sign (fun t => t) (flat_map block_fls ks) (flat_map signed ks) = Some (atoms_rpn ks).
Proof. destruct ks as [|[f|g1 g2] ks]; reflexivity. Qed.

Section RemoveA.
  Variable rm : list nat.

  Lemma scan_block a out fls tail : closeda rm a ->
    rscan (fun t => t) rm (rblock a ++ tail) out fls =
    if keepa rm a then rscan (fun t => t) rm tail (signed a ++ out) (block_fls a ++ fls) else rscan (fun t => t) rm tail out fls.
  Proof.
    intros C. destruct a as [f|g1 g2]; cbn [rblock atoks rev app rscan keepa closeda] in *.
    - destruct (memb f rm); reflexivity.
    - rewrite C. destruct (memb g1 rm); reflexivity.
  Qed.

  Lemma scan_blocks : forall l out fls tail, Forall (closeda rm) l ->
    rscan (fun t => t) rm (rblocks l ++ tail) out fls =
    rscan (fun t => t) rm tail (flat_map signed (rev (filter (keepa rm) l)) ++ out) (flat_map block_fls (rev (filter (keepa rm) l)) ++ fls).
  Proof.
    induction l as [|a l IH]; intros out fls tail C; [reflexivity|]. apply Forall_cons_iff in C as [Ca C].
    cbn [rblocks flat_map filter]. fold (rblocks l). rewrite <- app_assoc, (scan_block a _ _ _ Ca).
    destruct (keepa rm a); rewrite IH by exact C; [|reflexivity].
    cbn [rev]. rewrite !flat_map_app. cbn [flat_map]. rewrite !app_nil_r, <- !app_assoc. reflexivity.
  Qed.

  (* the first operand comes last: kept, it stands before what is kept; removed, its last field pops a sign *)
  Lemma scan_head a out fls : closeda rm a ->
    rscan (fun t => t) rm (rev (atoks a)) out fls = if keepa rm a then Some (atoks a ++ out) else pop_sign (fun t => t) fls out.
  Proof.
    destruct a as [f|g1 g2]; cbn [keepa closeda atoks rev app rscan]; intros C; rewrite ?C.
    - destruct (memb f rm); cbn [negb]; [destruct (pop_sign _ fls out); reflexivity| reflexivity].
    - destruct (memb g1 rm); cbn [negb]; [|reflexivity]. cbn [pop_sign Nat.leb drop_sign sign tl]. destruct (pop_sign _ fls out); reflexivity.
  Qed.

  Theorem remove_atoms a0 rest : Forall (closeda rm) (a0 :: rest) ->
    remove_rpn (rpn (atoms_spl (a0 :: rest))) rm = Some (atoms_rpn (filter (keepa rm) (a0 :: rest))).
  Proof.
    intros C. apply Forall_cons_iff in C as [C0 C]. apply Forall_rev in C.
    rewrite remove_rpn_scan, rpn_atoms. cbn [atoms_rpn filter]. rewrite rev_app_distr, rev_signed_atoms.
    rewrite (scan_blocks _ [] [] _ C), !app_nil_r, filter_rev, rev_involutive, (scan_head a0 _ _ C0).
    destruct (keepa rm a0); [reflexivity| apply pop_sign_blocks].
  Qed.
End RemoveA.

(* the groups table after the operands L: every operand has an axis of its own below bd, on the stack axs, the fields
   on that axis are exactly its own, and nothing else has an entry *)
Definition groups_inv (L : list atom) (axs : list nat) (g : gmap) (bd : nat) : Prop :=
  NoDup (map fst g) /\
  (forall x, gget x g <> None -> exists a, In a L /\ In x (afields a)) /\
  (forall a, In a L -> exists n, In n axs /\ n < bd /\ forall x, gget x g = Some [n] <-> In x (afields a)).

Lemma groups_inv_add L axs g bd b axs' :
  groups_inv L axs g bd -> NoDup (flat_map afields (L ++ [b])) -> incl axs axs' -> In bd axs' ->
  groups_inv (L ++ [b]) axs' (gsetl (afields b) [bd] g) (S bd).
Proof.
  intros (N & K2 & K3) Nb Sub Hin. rewrite flat_map_app in Nb.
  assert (Fresh : forall x a, In x (afields b) -> In a L -> ~ In x (afields a)).
  { intros x a Hx Ha Hxa. apply (NoDup_app_disj _ _ x Nb); [apply in_flat_map; eauto| cbn [flat_map]; rewrite app_nil_r; exact Hx]. }
  assert (Low : forall x m, gget x g = Some [m] -> m < bd).
  { intros x m G. destruct (K2 x ltac:(congruence)) as (a & Da & Ha). destruct (K3 a Da) as (m' & _ & Lm & Hm).
    apply Hm in Ha. congruence. }
  split; [|split].
  - apply nodup_gsetl, N.
  - intros x Hx. rewrite gget_gsetl in Hx. destruct (memb x (afields b)) eqn:E.
    + exists b. split; [apply in_or_app; right; left; reflexivity| apply memb_In; exact E].
    + destruct (K2 x Hx) as (a & Da & Ha). exists a. split; [apply in_or_app; left; exact Da| exact Ha].
  - intros a Ha. apply in_app_iff in Ha as [Da|[<-|[]]].
    + destruct (K3 a Da) as (m & Im & Lm & Hm). exists m. split; [apply Sub; exact Im|]. split; [lia|].
      intros x. rewrite gget_gsetl. destruct (memb x (afields b)) eqn:E; [|apply Hm].
      apply memb_In in E. split; [intros [= ->]; lia| intros Hx; exfalso; exact (Fresh x a E Da Hx)].
    + exists bd. split; [exact Hin|]. split; [lia|]. intros x. rewrite gget_gsetl, <- memb_In.
      destruct (memb x (afields b)); split; try reflexivity; try discriminate. intros G. apply Low in G. lia.
Qed.

Lemma groups_inv_ext L L' axs g bd : (forall a, In a L <-> In a L') -> groups_inv L axs g bd -> groups_inv L' axs g bd.
Proof.
  intros E (N & K2 & K3). split; [exact N|]. split.
  - intros x Hx. destruct (K2 x Hx) as (a & Da & Ha). exists a. split; [apply E; exact Da| exact Ha].
  - intros a Da. apply K3. apply E. exact Da.
Qed.

Lemma groups_inv_empty : groups_inv [] [] [] 0.
Proof. split; [constructor|]. split; [intros x H; exfalso; apply H; reflexivity| intros a []]. Qed.

Lemma groups_run_atom b al g c p :
  groups_run ((atoks b ++ [TMul]) ++ p) [GVal al] g (Some c) =
  groups_run p [GVal (al ++ [S c])] (gsetl (afields b) [S c] g) (Some (S c)).
Proof. destruct b; reflexivity. Qed.

Lemma groups_run_tail : forall rest L al g c,
  groups_inv L al g (S c) -> NoDup (flat_map afields (L ++ rest)) ->
  exists al' g' c', groups_run (flat_map (fun b => atoks b ++ [TMul]) rest) [GVal al] g (Some c) = inr ([GVal al'], g') /\
                    groups_inv (L ++ rest) al' g' (S c').
Proof.
  induction rest as [|b rest IH]; intros L al g c I N.
  - rewrite app_nil_r. exists al, g, c. split; [reflexivity| exact I].
  - cbn [flat_map]. rewrite groups_run_atom. change (b :: rest) with ([b] ++ rest) in *. rewrite app_assoc in *. apply IH; [|exact N].
    rewrite flat_map_app in N. apply NoDup_app_l in N.
    apply (groups_inv_add L al g (S c) b); [exact I| exact N| apply incl_appl, incl_refl| apply in_or_app; right; left; reflexivity].
Qed.

(* the first two operands: a field stays a name until the first operator, a pair is evaluated at once; in every case
   the two operands get the axes 0 and 1 *)
Lemma groups_run_head a0 a1 : NoDup (flat_map afields [a0; a1]) ->
  exists al g, (forall p, groups_run (atoks a0 ++ (atoks a1 ++ [TMul]) ++ p) [] [] None = groups_run p [GVal al] g (Some 1)) /\
               groups_inv [a0; a1] al g 2.
Proof.
  intros N.
  assert (Two : forall x y al, NoDup (flat_map afields [x; y]) -> In 0 al -> In 1 al ->
                groups_inv [x; y] al (gsetl (afields y) [1] (gsetl (afields x) [0] [])) 2).
  { intros x y al Nxy H0 H1. apply (groups_inv_add [x] al _ 1 y al); [|exact Nxy| apply incl_refl| exact H1].
    apply (groups_inv_add [] [] [] 0 x al groups_inv_empty); [|intros m []| exact H0].
    cbn [flat_map app] in *. rewrite app_nil_r. exact (NoDup_app_l _ _ Nxy). }
  destruct a0 as [f1|g1 g2]; [destruct a1 as [f2|h1 h2]|].
  - exists [0; 1], (gsetl (afields (AF f2)) [1] (gsetl (afields (AF f1)) [0] [])).
    split; [reflexivity| apply Two; [exact N| cbn; auto..]].
  - (* the pair is evaluated before the field is forced: it gets axis 0, the field axis 1 *)
    exists [1; 0], (gsetl (afields (AF f1)) [1] (gsetl (afields (AP h1 h2)) [0] [])). split; [reflexivity|].
    apply (groups_inv_ext [AP h1 h2; AF f1]); [intros a; cbn [In]; tauto|]. apply Two; [|cbn; auto..].
    eapply Permutation_NoDup; [|exact N]. apply Permutation_flat_map, perm_swap.
  - exists [0; 1], (gsetl (afields a1) [1] (gsetl (afields (AP g1 g2)) [0] [])).
    split; [intros p; destruct a1; reflexivity| apply Two; [exact N| cbn; auto..]].
Qed.

Theorem groups_run_atoms a0 a1 rest : NoDup (flat_map afields (a0 :: a1 :: rest)) ->
  exists al g bd, groups_run (rpn (atoms_spl (a0 :: a1 :: rest))) [] [] None = inr ([GVal al], g) /\
                  groups_inv (a0 :: a1 :: rest) al g bd.
Proof.
  intros N. pose proof N as N2. change (a0 :: a1 :: rest) with ([a0; a1] ++ rest) in N2. rewrite flat_map_app in N2.
  destruct (groups_run_head a0 a1 (NoDup_app_l _ _ N2)) as (al & g & R & I).
  destruct (groups_run_tail rest [a0; a1] al g 1 I N) as (al' & g' & c' & R' & I').
  exists al', g', (S c'). rewrite rpn_atoms. cbn [atoms_rpn flat_map]. rewrite R. split; [exact R'| exact I'].
Qed.

Lemma axes_atoms L : axes (atoms_spl L) = map afields L.
Proof.
  unfold atoms_spl. cbn [axes]. induction L as [|a L IH]; [reflexivity|]. cbn [map flat_map]. rewrite IH.
  destruct a; reflexivity.
Qed.

Lemma linked_atoms L comb x : In x (linked (atoms_spl L) comb) <->
  exists a, In a L /\ In x (afields a) /\ exists c, In c (afields a) /\ In c comb.
Proof.
  rewrite in_linked, axes_atoms. split.
  - intros (ax & Hax & H). apply in_map_iff in Hax as (a & <- & Ha). eauto.
  - intros (a & Ha & H). exists (afields a). split; [apply in_map; exact Ha| exact H].
Qed.

(* input_for_groups of an operand's axis is the operand's fields *)
Lemma groups_inv_fields L al g bd a c : groups_inv L al g bd -> In a L -> In c (afields a) ->
  exists n, gget c g = Some [n] /\ In n al /\ forall x, In x (fields_of g n) <-> In x (afields a).
Proof.
  intros (Ng & K2 & K3) Da Hc. destruct (K3 a Da) as (n & Hn & _ & En). exists n. split; [apply En, Hc|]. split; [exact Hn|].
  intros x. rewrite (fields_of_in g n x Ng). split.
  - intros (w & Ex & Hw). destruct (K2 x ltac:(congruence)) as (ax & Dax & Hxa). destruct (K3 ax Dax) as (m & _ & _ & Em).
    rewrite (proj2 (Em x) Hxa) in Ex. injection Ex as <-. destruct Hw as [->|[]]. apply En, Em, Hxa.
  - intros Hx. exists [n]. split; [apply En, Hx| left; reflexivity].
Qed.

Lemma combiner_all_atoms a0 a1 rest comb : NoDup (flat_map afields (a0 :: a1 :: rest)) ->
  (forall c, In c comb -> In c (flat_map afields (a0 :: a1 :: rest))) ->
  combiner_all_of (rpn (atoms_spl (a0 :: a1 :: rest))) comb = inr (sort_set (linked (atoms_spl (a0 :: a1 :: rest)) comb)).
Proof.
  intros N Hsub. set (L := a0 :: a1 :: rest) in *.
  destruct (groups_run_atoms a0 a1 rest N) as (al & g & bd & G & I). fold L in G, I.
  rewrite (combiner_all_run _ comb al [] g G).
  2:{ intros c Hc. apply Hsub, in_flat_map in Hc as (a & Da & Hca).
      destruct (groups_inv_fields L al g bd a c I Da Hca) as (n & E & Hn & _). eauto. }
  f_equal. apply sort_set_ext. intros x. rewrite linked_atoms, in_flat_map. split.
  - intros (gr & Hg & Hx). apply in_flat_map in Hg as (c & Hc & Hg). pose proof Hc as Hcc.
    apply Hsub, in_flat_map in Hc as (a & Da & Hca). destruct (groups_inv_fields L al g bd a c I Da Hca) as (n & E & _ & F).
    rewrite E in Hg. destruct Hg as [<-|[]]. exists a. split; [exact Da|]. split; [apply F, Hx| eauto].
  - intros (a & Da & Hxa & c & Hca & Hcc). destruct (groups_inv_fields L al g bd a c I Da Hca) as (n & E & _ & F). exists n. split.
    + apply in_flat_map. exists c. split; [exact Hcc|]. rewrite E. left. reflexivity.
    + apply F, Hxa.
Qed.

Lemma pruned_list_atoms gone L : Forall (closeda gone) L ->
  pruned_list gone (map sa L) = map sa (filter (keepa gone) L).
Proof.
  induction L as [|a L IH]; intros C; [reflexivity|]. apply Forall_cons_iff in C as [Ca C]. cbn [map].
  rewrite pruned_list_cons, (IH C).
  cbn [filter]. destruct a as [f|g1 g2]; cbn [sa keepa closeda] in *.
  - cbn [prune]. destruct (memb f gone); reflexivity.
  - rewrite prune_inner. cbn [pruned_list flat_map prune]. rewrite Ca. destruct (memb g1 gone); reflexivity.
Qed.

Lemma wfb_atoms L : L <> [] -> wfb (atoms_spl L) = true.
Proof.
  intros H. unfold atoms_spl. destruct L as [|a L]; [congruence|]. cbn [wfb]. apply forallb_forall. intros s Hs.
  apply in_map_iff in Hs as ([f|g1 g2] & <- & _); reflexivity.
Qed.
Lemma flat_inner_atoms L : flat_innerb (atoms_spl L) = true.
Proof.
  cbn [atoms_spl flat_innerb]. apply forallb_forall. intros s Hs.
  apply in_map_iff in Hs as ([f|g1 g2] & <- & _); reflexivity.
Qed.

Lemma linked_closeda L comb : NoDup (flat_map afields L) -> Forall (closeda (linked (atoms_spl L) comb)) L.
Proof.
  intros N. rewrite <- leaves_atoms in N.
  pose proof (linked_closed (atoms_spl L) comb (flat_inner_atoms L) N) as C.
  set (gone := linked (atoms_spl L) comb) in *. cbn [atoms_spl closedb] in C. rewrite forallb_forall in C.
  apply Forall_forall. intros a Ha. specialize (C (sa a) (in_map sa L a Ha)). destruct a as [f|g1 g2]; [exact I|].
  cbn [closeda sa closedb flat_map leaves app forallb] in C |- *. destruct (memb g1 gone), (memb g2 gone); try reflexivity; discriminate.
Qed.

Theorem good_removal_atoms L comb : 2 <= List.length L -> NoDup (flat_map afields L) ->
  (forall c, In c comb -> In c (flat_map afields L)) ->
  good_removalb (atoms_spl L) comb = true.
Proof.
  intros Len N Hsub. destruct L as [|a0 [|a1 rest]]; cbn [List.length] in Len; try lia.
  unfold good_removalb. rewrite (combiner_all_atoms a0 a1 rest comb N Hsub).
  rewrite (list_eqb_refl Nat.eqb Nat.eqb_refl). cbn [andb].
  set (gone := linked (atoms_spl (a0 :: a1 :: rest)) comb).
  pose proof (linked_closeda (a0 :: a1 :: rest) comb N) as Cg. fold gone in Cg.
  (* the model removes sort_set gone, prune deletes gone: the same members *)
  assert (Mem : forall x, memb x (sort_set gone) = memb x gone).
  { intros x. apply Bool.eq_true_iff_eq. rewrite !memb_In. apply sort_set_in. }
  assert (Cr : Forall (closeda (sort_set gone)) (a0 :: a1 :: rest)).
  { eapply Forall_impl; [|exact Cg]. intros [f|g1 g2]; cbn [closeda]; [auto|]. rewrite !Mem. auto. }
  rewrite (remove_atoms (sort_set gone) a0 (a1 :: rest) Cr).
  assert (Ef : filter (keepa (sort_set gone)) (a0 :: a1 :: rest) = filter (keepa gone) (a0 :: a1 :: rest)).
  { apply filter_ext. intros [f|g1 g2]; cbn [keepa]; rewrite Mem; reflexivity. }
  rewrite Ef. unfold atoms_spl at 1. rewrite prune_outer, (pruned_list_atoms gone _ Cg).
  destruct (filter (keepa gone) (a0 :: a1 :: rest)) as [|b bs] eqn:EF; [reflexivity|].
  cbn [map]. change (Outer (sa b :: map sa bs)) with (atoms_spl (b :: bs)). rewrite rpn_atoms.
  apply list_eqb_refl. intros t. now apply tok_eqb_eq.
Qed.

Theorem atoms_spec_groups e L comb : 2 <= List.length L -> NoDup (flat_map afields L) -> comb <> [] ->
  (forall c, In c comb -> In c (flat_map afields L)) ->
  (forall f, In f (flat_map afields L) -> nprod (e f) >= 1) ->
  groups_of (prepare_combined e (atoms_spl L) comb) = spec_groups e (atoms_spl L) comb.
Proof.
  intros Len N Hne Hsub Pos.
  assert (W : wfb (atoms_spl L) = true) by (apply wfb_atoms; intros ->; cbn [List.length] in Len; lia).
  pose proof (flat_inner_atoms L) as Fl.
  pose proof (good_removal_atoms L comb Len N Hsub) as G. rewrite <- leaves_atoms in N, Pos.
  apply combined_flat; assumption.
Qed.

Lemma atoms_of_fields fs : atoms_spl (map AF fs) = Outer (map Fld fs) /\ flat_map afields (map AF fs) = fs.
Proof.
  unfold atoms_spl. rewrite map_map. split; [reflexivity|]. induction fs as [|f fs IH]; [reflexivity|]. cbn [map flat_map afields app].
  rewrite IH. reflexivity.
Qed.
