(* Proofs/ShellOrderThm.v — C22, order: sorting the entries by the positions define() assigned gives the stated
   order (non-negative ascending, unpositioned in definition order, negative ascending) whenever every explicit
   non-negative position lies below the first implicit one.  Payload-generic: holds whatever each field contributes. *)
From Pydra Require Import Base.Prelude Base.Shlex Model.Shell Spec.Shell Proofs.ShellOrder Proofs.ShellAssign Proofs.ListFacts.
From Coq Require Import Sorting.Permutation.
Local Open Scope list_scope.
Local Open Scope Z_scope.

Lemma sort_pos_perm l : Permutation (sort_pos l) l.
Proof.
  induction l as [|f l IH]; cbn; [reflexivity|].
  rewrite (ins_perm posz insert_pos (fun _ => eq_refl) (fun _ _ _ => eq_refl)). now constructor.
Qed.

Lemma sort_pos_ordered l : kordered posz (sort_pos l).
Proof.
  induction l as [|f l IH]; cbn; [constructor|].
  exact (ins_ordered posz insert_pos (fun _ => eq_refl) (fun _ _ _ => eq_refl) f _ IH).
Qed.

Lemma spec_order_In f fs : In f (spec_order fs) -> In f fs.
Proof.
  unfold spec_order. intros H. apply in_app_or in H as [H|H]; [|apply in_app_or in H as [H|H]];
    try (eapply Permutation_in in H; [|apply sort_pos_perm]); now apply filter_In in H.
Qed.

Lemma order_ok_below fs f p q : order_ok fs = true -> In f fs -> sf_pos f = Some p -> 0 <= p ->
  In q (firstn (List.length (filter pos_none fs)) (free_slots (map to_field fs))) -> p < q.
Proof.
  unfold order_ok. pose proof (free_slots_sorted (map to_field fs)) as S.
  destruct (filter pos_none fs) as [|u us]; [now intros|].
  destruct (free_slots (map to_field fs)) as [|q0 rest]; [discriminate|].
  intros H Hf Hp H0 Hq. apply firstn_In in Hq. rewrite forallb_forall in H. specialize (H f Hf). rewrite Hp in H.
  inversion S as [|? ? _ Hr]; subst. destruct Hq as [<-|Hq]; [lia|]. rewrite Forall_forall in Hr. specialize (Hr q Hq). lia.
Qed.

(* the non-negative half in the order the property states: an explicit position lies below the first free slot, the
   implicit positions are a prefix of the free slots *)
Lemma nonneg_half_ordered fs : order_ok fs = true ->
  kordered posz (sort_pos (filter pos_nonneg fs) ++ implicit fs (free_slots (map to_field fs))).
Proof.
  intros Hok. apply kordered_app; [apply sort_pos_ordered| |].
  - apply kordered_of_keys. rewrite implicit_keys by apply enough_free. apply StronglySorted_firstn, free_slots_sorted.
  - intros a b Ha Hb. eapply Permutation_in in Ha; [|apply sort_pos_perm]. apply filter_In in Ha as [Ha Hann].
    unfold pos_nonneg in Hann. unfold posz at 1. destruct (sf_pos a) as [p|] eqn:Ep; [|discriminate].
    apply Z.lt_le_incl, (order_ok_below fs a p _ Hok Ha Ep); [lia|]. rewrite <- implicit_keys by apply enough_free. now apply in_map.
Qed.

Section Payload.
Variable g : sfield -> option (list la).           (* what the field contributes; None = no entry at all *)
Hypothesis g_pos : forall f p, g (set_spos f p) = g f.

Definition ents (L : list sfield) : list (option Z * list la) :=
  flat_map (fun f => match g f with Some x => [(sf_pos f, x)] | None => [] end) L.
Definition item (f : sfield) : list (Z * list la) := match g f with Some x => [(posz f, x)] | None => [] end.
Definition payload (f : sfield) : list la := match g f with Some x => x | None => [] end.

Lemma ents_items L : Forall (fun f => sf_pos f <> None) L -> ents L = map at_pos (flat_map item L).
Proof.
  induction 1 as [|f L Hf _ IH]; [reflexivity|]. unfold ents in *. cbn [flat_map]. rewrite map_app, IH.
  f_equal. unfold item, posz. destruct (g f); [|reflexivity]. cbn. destruct (sf_pos f); [reflexivity|congruence].
Qed.
Lemma item_Forall (Q : Z -> Prop) L : Forall (fun b => Q (posz b)) L -> Forall (fun i => Q (fst i)) (flat_map item L).
Proof.
  induction 1 as [|f L Hf _ IH]; cbn; [constructor|]. apply Forall_app. split; [|exact IH].
  unfold item. destruct (g f); repeat constructor. exact Hf.
Qed.
Lemma item_keys_incl L k : In k (map fst (flat_map item L)) -> In k (map posz L).
Proof.
  intros H. apply in_map_iff in H as (i & <- & Hi). revert i Hi.
  apply Forall_forall, (item_Forall (fun k => In k (map posz L))), Forall_forall. intros b. apply in_map.
Qed.
Lemma item_keys_NoDup L : NoDup (map posz L) -> NoDup (map fst (flat_map item L)).
Proof.
  induction L as [|f L IH]; cbn; intros H; [constructor|]. inversion H; subst. rewrite map_app.
  unfold item at 1. destruct (g f); cbn; [|auto]. constructor; [|auto]. intros Hin. apply H2, item_keys_incl, Hin.
Qed.
Lemma item_ordered L : kordered posz L -> kordered (@fst Z (list la)) (flat_map item L).
Proof.
  induction 1 as [|f L S IH F]; cbn; [constructor|]. unfold item at 1. destruct (g f); cbn; [|exact IH].
  constructor; [exact IH|]. exact (item_Forall (fun k => posz f <= k) L F).
Qed.
Lemma concat_item L : List.concat (map snd (flat_map item L)) = List.concat (map payload L).
Proof.
  induction L as [|f L IH]; [reflexivity|]. cbn. rewrite map_app, concat_app, IH. f_equal.
  unfold item, payload. destruct (g f); cbn; [apply app_nil_r|reflexivity].
Qed.
Lemma filter_item (p : Z -> bool) L : filter (fun i => p (fst i)) (flat_map item L) = flat_map item (filter (fun f => p (posz f)) L).
Proof.
  induction L as [|f L IH]; [reflexivity|]. cbn [flat_map filter]. rewrite filter_app, IH.
  destruct (p (posz f)) eqn:E; cbn [flat_map]; unfold item at 1 3; destruct (g f); cbn; rewrite ?E; reflexivity.
Qed.
Lemma payload_implicit fs free : map payload (implicit fs free) = map payload (filter pos_none fs).
Proof. apply sassign_map. intros f p. unfold payload. now rewrite g_pos. Qed.

Lemma sorted_entries L ex P N :
  NoDup (0 :: map posz L) ->
  kordered posz P -> kordered posz N ->
  Permutation P (filter pos_nonneg L) -> Permutation N (filter pos_neg L) ->
  List.concat (position_sort ((Some 0, ex) :: ents L)) = ex ++ List.concat (map payload (P ++ N)).
Proof.
  intros ND SP SN PP PN. inversion ND as [|? ? N0 NDL]; subst.
  (* [posz] gives a field without position the executable's 0: every field of L has one *)
  assert (Hsome : forall f, In f L -> sf_pos f <> None).
  { intros f Hf E. apply N0, in_map_iff. exists f. unfold posz. rewrite E. now split. }
  assert (Hposz : forall f, In f L -> pos_nonneg f = (0 <=? posz f) /\ pos_neg f = (posz f <? 0)).
  { intros f Hf. specialize (Hsome f Hf). unfold pos_nonneg, pos_neg, posz. destruct (sf_pos f); [auto|congruence]. }
  rewrite (ents_items L (proj2 (Forall_forall _ L) Hsome)).
  change ((Some 0, ex) :: map at_pos (flat_map item L)) with (map at_pos ((0, ex) :: flat_map item L)).
  rewrite (position_sort_unique _ ((0, ex) :: flat_map item P) (flat_map item N)).
  - cbn [map snd]. rewrite concat_app. cbn [List.concat]. now rewrite <- app_assoc, !concat_item, map_app, concat_app.
  - cbn [map fst]. constructor; [|apply item_keys_NoDup, NDL]. intros Hin. apply N0, item_keys_incl, Hin.
  - constructor; [apply item_ordered, SP|]. apply (item_Forall (fun k => 0 <= k)), Forall_forall. intros b Hb.
    apply (Permutation_in _ PP), filter_In in Hb as [_ Hb]. unfold pos_nonneg, posz in *. destruct (sf_pos b); lia.
  - apply item_ordered, SN.
  - cbn [filter fst]. change (0 <=? 0) with true. cbn iota. constructor.
    rewrite (filter_item (fun k => 0 <=? k)). apply Permutation_flat_map.
    now rewrite (filter_ext_in _ pos_nonneg) by (intros f Hf; symmetry; apply (Hposz f Hf)).
  - cbn [filter fst]. change (0 <? 0) with false. cbn iota.
    rewrite (filter_item (fun k => k <? 0)). apply Permutation_flat_map.
    now rewrite (filter_ext_in _ pos_neg) by (intros f Hf; symmetry; apply (Hposz f Hf)).
Qed.

Theorem order_theorem : forall fs ex,
  has_dup (used_slots (map to_field fs)) = false ->
  order_ok fs = true ->
  List.concat (position_sort ((Some 0, ex) :: ents (sassign fs (free_slots (map to_field fs)))))
  = ex ++ List.concat (map payload (spec_order fs)).
Proof.
  intros fs ex Hd Hok. pose proof (enough_free fs) as Hl. pose proof (free_slots_nonneg (map to_field fs)) as Fnn.
  rewrite (sorted_entries _ ex _ (sort_pos (filter pos_neg fs)) (assigned_NoDup fs Hd)
             (nonneg_half_ordered fs Hok) (sort_pos_ordered _)).
  - unfold spec_order. now rewrite !map_app, !concat_app, (payload_implicit fs), <- !app_assoc.
  - rewrite (sassign_filter_nonneg fs _ Hl Fnn). apply Permutation_app_tail, sort_pos_perm.
  - rewrite (sassign_filter_neg fs _ Fnn). apply sort_pos_perm.
Qed.
End Payload.
