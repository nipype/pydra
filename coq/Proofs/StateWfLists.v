(* Proofs/StateWfLists.v — what the C03 proofs use about lists, the model's dictionaries and products, and the
   boolean tests of the classes (pairwise, on_nodes, sep_ok, relays). *)
From Pydra Require Import Base.Prelude Model.StateWf Spec.StateWf Proofs.ListFacts.

Local Open Scope nat_scope.

Lemma nth_error_combine_seq {A} (l : list A) : forall f b s,
  nth_error l f = Some b -> In (s + f, b) (combine (seq s (List.length l)) l).
Proof.
  induction l as [|a l IH]; intros [|f] b s H; try discriminate H; cbn.
  - injection H as ->. left. rewrite Nat.add_0_r. reflexivity.
  - right. rewrite <- Nat.add_succ_comm. apply IH. exact H.
Qed.
Lemma suffix_ind {A} (l : list A) (Pr : nat -> list A -> Prop) :
  (forall f, Pr f []) -> (forall f b r, nth_error l f = Some b -> Pr (S f) r -> Pr f (b :: r)) -> Pr 0 l.
Proof.
  intros H0 HS.
  assert (G : forall r f, (forall i b, nth_error r i = Some b -> nth_error l (f + i) = Some b) -> Pr f r).
  { induction r as [|b r IH]; intros f H; [apply H0|]. apply HS.
    - rewrite <- (Nat.add_0_r f). exact (H 0 b eq_refl).
    - apply IH. intros i b' Hi. rewrite Nat.add_succ_comm. exact (H (S i) b' Hi). }
  apply G. intros i b Hi. exact Hi.
Qed.
Lemma fold_left_fix {A B} (f : A -> B -> A) l a : (forall b, In b l -> f a b = a) -> fold_left f l a = a.
Proof.
  induction l as [|b l IH]; intros H; [reflexivity|]. cbn. rewrite (H b (or_introl eq_refl)). apply IH.
  intros b' Hb. apply H. right; exact Hb.
Qed.

Lemma combine_nth_error {A B} (l1 : list A) (l2 : list B) i a b :
  nth_error l1 i = Some a -> nth_error l2 i = Some b -> nth_error (combine l1 l2) i = Some (a, b).
Proof.
  revert l2 i. induction l1 as [|x l1 IH]; intros [|y l2] [|i] H1 H2; cbn in *; try discriminate.
  - inversion H1; inversion H2; reflexivity.
  - apply IH; assumption.
Qed.
Lemma Forall2_nth_error {A B} (R : A -> B -> Prop) l1 l2 i a d :
  Forall2 R l1 l2 -> nth_error l1 i = Some a -> R a (nth i l2 d).
Proof.
  intros H. revert i. induction H; intros [|i] E; try discriminate E; [inversion E; subst; assumption | apply IHForall2; exact E].
Qed.

Lemma NoDup_flat_map {A B} (f : A -> list B) l :
  NoDup l -> (forall x, In x l -> NoDup (f x)) ->
  (forall x y k, In x l -> In y l -> x <> y -> In k (f x) -> ~ In k (f y)) -> NoDup (flat_map f l).
Proof.
  induction l as [|a l IH]; intros Hnd H1 H2; cbn; [constructor|].
  inversion Hnd; subst. apply NoDup_app_intro.
  - apply H1; left; reflexivity.
  - apply IH; [assumption | intros x Hx; apply H1; right; exact Hx |].
    intros x y k Hx Hy. apply H2; right; assumption.
  - intros k Hk Hin. apply in_flat_map in Hin. destruct Hin as [y [Hy Hky]].
    apply (H2 a y k (or_introl eq_refl) (or_intror Hy)); [intros ->; contradiction | exact Hk | exact Hky].
Qed.

Section Pushes.
Context {A : Type} (eqb : A -> A -> bool).
Hypothesis eqb_eq : forall a b, eqb a b = true <-> a = b.

(* Spec.add_new is [pushes key_eqb]; Spec.ups and Spec.up_axes are folds of it (StateWfStep) *)
Definition pushes (a ks : list A) : list A :=
  fold_left (fun a k => if existsb (eqb k) a then a else a ++ [k]) ks a.
Lemma pushes_cons a k ks : pushes a (k :: ks) = pushes (if existsb (eqb k) a then a else a ++ [k]) ks.
Proof. reflexivity. Qed.
Lemma pushes_app a k1 k2 : pushes a (k1 ++ k2) = pushes (pushes a k1) k2.
Proof. apply fold_left_app. Qed.
Lemma fold_pushes {B} (g : B -> list A) (f : list A -> B -> list A) :
  (forall a b, f a b = pushes a (g b)) -> forall l a, fold_left f l a = pushes a (flat_map g l).
Proof.
  intros H. induction l as [|b l IH]; intros a; cbn [fold_left flat_map]; [reflexivity|].
  rewrite pushes_app, <- H. apply IH.
Qed.
Lemma In_push x k a : In x (if existsb (eqb k) a then a else a ++ [k]) <-> In x a \/ k = x.
Proof.
  destruct (existsb (eqb k) a) eqn:E.
  - split; [left; assumption | intros [H | <-]; [exact H | exact (proj1 (existsb_eqb_In eqb eqb_eq k a) E)]].
  - rewrite in_app_iff. split; [intros [H|[H|[]]]; [left | right]; exact H | intros [H|H]; [left | right; left]; exact H].
Qed.
Lemma In_pushes x ks : forall a, In x (pushes a ks) <-> In x a \/ In x ks.
Proof.
  induction ks as [|k ks IH]; intros a; [split; [left; assumption | intros [H|[]]; exact H]|].
  rewrite pushes_cons, IH, In_push. apply or_assoc.
Qed.
Lemma NoDup_pushes ks : forall a, NoDup a -> NoDup (pushes a ks).
Proof.
  induction ks as [|k ks IH]; intros a H; [exact H|]. rewrite pushes_cons. apply IH.
  destruct (existsb (eqb k) a) eqn:E; [exact H|]. apply (existsb_eqb_notIn eqb eqb_eq) in E.
  apply NoDup_snoc; assumption.
Qed.
Lemma pushes_absorb ks : forall a, incl ks a -> pushes a ks = a.
Proof.
  induction ks as [|k ks IH]; intros a H; [reflexivity|]. rewrite pushes_cons.
  rewrite (proj2 (existsb_eqb_In eqb eqb_eq k a) (H k (or_introl eq_refl))). apply IH. intros x Hx. apply H. right. exact Hx.
Qed.
Lemma pushes_fresh ks : forall a, NoDup ks -> (forall k, In k ks -> ~ In k a) -> pushes a ks = a ++ ks.
Proof.
  induction ks as [|k ks IH]; intros a Hnd Hd; [rewrite app_nil_r; reflexivity|]. rewrite pushes_cons.
  inversion Hnd; subst.
  rewrite (proj2 (existsb_eqb_notIn eqb eqb_eq k a) (Hd k (or_introl eq_refl))).
  rewrite IH; [rewrite <- app_assoc; reflexivity | assumption |].
  intros x Hx Hin. apply in_app_or in Hin. destruct Hin as [Hin|[<-|[]]]; [exact (Hd x (or_intror Hx) Hin) | contradiction].
Qed.
Lemma pushes_const {B} x (l : list B) : l <> [] -> pushes [] (map (fun _ => x) l) = [x].
Proof.
  destruct l as [|b l]; intros H; [contradiction|]. cbn [map]. rewrite pushes_cons. apply pushes_absorb.
  intros y Hy. apply in_map_iff in Hy. destruct Hy as [_ [<- _]]. left; reflexivity.
Qed.
End Pushes.

Section Blocks.
Context {A B : Type} (ea : A -> A -> bool) (eb : B -> B -> bool) (g : B -> list A) (Q : B -> Prop).
Hypothesis ea_eq : forall a b, ea a b = true <-> a = b.
Hypothesis eb_eq : forall a b, eb a b = true <-> a = b.
Hypothesis QN : forall p, Q p -> NoDup (g p).
Hypothesis QD : forall p q, Q p -> Q q -> p <> q -> forall k, In k (g p) -> ~ In k (g q).

Lemma pushes_blocks js : Forall Q js -> forall au, Forall Q au ->
  pushes ea (flat_map g au) (flat_map g js) = flat_map g (pushes eb au js).
Proof.
  induction 1 as [|j js Qj _ IH]; intros au Hau; [reflexivity|].
  cbn [flat_map]. rewrite pushes_app, (pushes_cons eb).
  destruct (existsb (eb j) au) eqn:E.
  - apply (existsb_eqb_In eb eb_eq) in E. rewrite (pushes_absorb ea ea_eq (g j)); [exact (IH au Hau)|].
    intros k Hk. apply in_flat_map. exists j. split; assumption.
  - apply (existsb_eqb_notIn eb eb_eq) in E. rewrite Forall_forall in Hau.
    rewrite (pushes_fresh ea ea_eq (g j)); [| exact (QN j Qj) |].
    + replace (flat_map g au ++ g j) with (flat_map g (au ++ [j])) by (rewrite flat_map_app; cbn; apply f_equal, app_nil_r).
      apply IH. apply Forall_forall. intros y Hy. apply in_app_or in Hy.
      destruct Hy as [Hy|[<-|[]]]; [exact (Hau y Hy) | exact Qj].
    + intros k Hk Hin. apply in_flat_map in Hin. destruct Hin as [y [Hy Hky]].
      refine (QD j y Qj (Hau y Hy) _ k Hk Hky). intros <-. contradiction.
Qed.
End Blocks.

Lemma key_eqb_eq a b : key_eqb a b = true <-> a = b.
Proof. exact (pair_eqb_ok Nat.eqb_eq Nat.eqb_eq a b). Qed.
Lemma key_eqb_refl a : key_eqb a a = true.
Proof. apply key_eqb_eq; reflexivity. Qed.
Lemma key_eqb_neq a b : key_eqb a b = false <-> a <> b.
Proof. exact (eqtest_neq key_eqb key_eqb_eq a b). Qed.
Lemma key_eqb_sym a b : key_eqb a b = key_eqb b a.
Proof. unfold key_eqb. rewrite (Nat.eqb_sym (fst a)), (Nat.eqb_sym (snd a)). reflexivity. Qed.
Lemma key_dec (a b : key) : {a = b} + {a <> b}.
Proof. decide equality; apply Nat.eq_dec. Qed.

Lemma memk_In k l : memk k l = true <-> In k l.
Proof. apply (existsb_eqb_In key_eqb key_eqb_eq). Qed.
Lemma memk_false k l : memk k l = false <-> ~ In k l.
Proof. apply (existsb_eqb_notIn key_eqb key_eqb_eq). Qed.
Lemma memn_In n l : memn n l = true <-> In n l.
Proof. apply (existsb_eqb_In Nat.eqb Nat.eqb_eq). Qed.
Lemma memn_false n l : memn n l = false <-> ~ In n l.
Proof. apply (existsb_eqb_notIn Nat.eqb Nat.eqb_eq). Qed.
Lemma nodupk_NoDup l : nodupk l = true <-> NoDup l.
Proof. exact (nodupb_of_NoDup key_eqb key_eqb_eq l). Qed.
Lemma is_nil_true {A} (l : list A) : is_nil l = true <-> l = [].
Proof. destruct l; cbn; split; congruence. Qed.
Lemma is_nil_false {A} (l : list A) : is_nil l = false <-> l <> [].
Proof. destruct l; cbn; split; congruence. Qed.

Lemma all_some_map {A B} (f : A -> option B) (g : A -> B) l :
  (forall x, In x l -> f x = Some (g x)) -> all_some (map f l) = Some (map g l).
Proof.
  induction l as [|x l IH]; intros H; cbn; [reflexivity|].
  rewrite (H x (or_introl eq_refl)). rewrite IH; [reflexivity|]. intros y Hy; apply H; right; assumption.
Qed.

Lemma all_some_map2 {A B C} (f : A -> option C) (g : B -> C) : forall (l1 : list A) (l2 : list B),
  List.length l1 = List.length l2 ->
  (forall i a b, nth_error l1 i = Some a -> nth_error l2 i = Some b -> f a = Some (g b)) ->
  all_some (map f l1) = Some (map g l2).
Proof.
  induction l1 as [|a l1 IH]; intros [|b l2] HL H; cbn in HL; try discriminate; [reflexivity|].
  cbn [map all_some]. rewrite (H 0 a b eq_refl eq_refl). rewrite (IH l2); [reflexivity | lia |].
  intros i a' b' H1 H2. exact (H (S i) a' b' H1 H2).
Qed.

Lemma lookup_app d1 d2 k :
  lookup (d1 ++ d2) k = match lookup d1 k with Some v => Some v | None => lookup d2 k end.
Proof.
  induction d1 as [|[k' v] d1 IH]; cbn; [reflexivity|]. destruct (key_eqb k' k); [reflexivity | apply IH].
Qed.

Lemma dict_set_fresh d k v : ~ In k (map fst d) -> dict_set d k v = d ++ [(k, v)].
Proof.
  induction d as [|[k' v'] d IH]; cbn; intros H; [reflexivity|].
  destruct (key_eqb k' k) eqn:E.
  - apply key_eqb_eq in E; subst. exfalso; apply H; left; reflexivity.
  - f_equal. apply IH. intros H1; apply H; right; exact H1.
Qed.
Lemma mkdict_from_nodup ks : forall d vs,
  NoDup ks -> (forall k, In k ks -> ~ In k (map fst d)) -> mkdict_from d ks vs = d ++ combine ks vs.
Proof.
  induction ks as [|k ks IH]; intros d vs Hnd Hd; cbn.
  - rewrite app_nil_r; reflexivity.
  - destruct vs as [|v vs]; [rewrite app_nil_r; reflexivity|].
    inversion Hnd; subst.
    rewrite dict_set_fresh by (apply Hd; left; reflexivity).
    rewrite IH; [rewrite <- app_assoc; reflexivity | assumption |].
    intros k' Hk'. rewrite map_app, in_app_iff; cbn. intros [H|[H|[]]].
    + eapply Hd; [right; exact Hk' | exact H].
    + subst. contradiction.
Qed.
Lemma mkdict_nodup ks vs : NoDup ks -> mkdict ks vs = combine ks vs.
Proof. intros H. unfold mkdict. rewrite mkdict_from_nodup; [reflexivity | assumption | intros k _ []]. Qed.

Lemma combine_app_eq {A B} (a1 a2 : list A) (b1 b2 : list B) :
  List.length a1 = List.length b1 -> combine (a1 ++ a2) (b1 ++ b2) = combine a1 b1 ++ combine a2 b2.
Proof.
  revert b1; induction a1 as [|x a1 IH]; intros [|y b1]; cbn; intros H; try discriminate; [reflexivity|].
  f_equal. apply IH. injection H as H. exact H.
Qed.

Lemma lookup_combine_none ks vs k : ~ In k ks -> lookup (combine ks vs) k = None.
Proof.
  revert vs. induction ks as [|k0 ks IH]; intros [|v vs] H; try reflexivity. cbn.
  rewrite (proj2 (key_eqb_neq k0 k)) by (intros ->; apply H; left; reflexivity).
  apply IH. intros H1. apply H. right. exact H1.
Qed.
Lemma lookup_combine_some ks vs k :
  In k ks -> List.length ks = List.length vs -> exists v, lookup (combine ks vs) k = Some v.
Proof.
  revert vs. induction ks as [|k0 ks IH]; intros [|v vs] Hin HL; try discriminate HL; [destruct Hin|]. cbn.
  destruct (key_eqb k0 k) eqn:E; [eexists; reflexivity|]. apply IH; [|injection HL as HL; exact HL].
  destruct Hin as [->|Hin]; [rewrite key_eqb_refl in E; discriminate E | exact Hin].
Qed.
Lemma lookup_combine_nodup ks vs k v :
  NoDup ks -> In (k, v) (combine ks vs) -> lookup (combine ks vs) k = Some v.
Proof.
  revert vs; induction ks as [|k0 ks IH]; intros [|v0 vs] Hnd Hin; cbn in *; try contradiction.
  inversion Hnd; subst. destruct Hin as [E|Hin].
  - inversion E; subst. rewrite key_eqb_refl. reflexivity.
  - destruct (key_eqb k0 k) eqn:E.
    + apply key_eqb_eq in E; subst. destruct (H1 (in_combine_l _ _ _ _ Hin)).
    + apply IH; assumption.
Qed.
Lemma lookup_in d k v : lookup d k = Some v -> In (k, v) d.
Proof.
  induction d as [|[k' v'] d IH]; cbn; [discriminate|].
  destruct (key_eqb k' k) eqn:E.
  - apply key_eqb_eq in E; subst. intros H; inversion H; subst. left; reflexivity.
  - intros H; right; apply IH; exact H.
Qed.
Lemma lookup_combine_app_l ks1 ks2 vs1 vs2 k :
  List.length ks1 = List.length vs1 -> In k ks1 ->
  lookup (combine (ks1 ++ ks2) (vs1 ++ vs2)) k = lookup (combine ks1 vs1) k.
Proof.
  intros HL Hin. rewrite combine_app_eq, lookup_app by assumption.
  destruct (lookup_combine_some ks1 vs1 k Hin HL) as [v ->]. reflexivity.
Qed.
Lemma lookup_combine_app_r ks1 ks2 vs1 vs2 k :
  List.length ks1 = List.length vs1 -> ~ In k ks1 ->
  lookup (combine (ks1 ++ ks2) (vs1 ++ vs2)) k = lookup (combine ks2 vs2) k.
Proof.
  intros HL Hin. rewrite combine_app_eq, lookup_app, (lookup_combine_none _ _ _ Hin) by assumption. reflexivity.
Qed.

Lemma prod2_nil_l {A} (b : list (list A)) : prod2 [[]] b = b.
Proof. unfold prod2; cbn. rewrite app_nil_r. rewrite map_id. reflexivity. Qed.
Lemma prod2_empty_r {A} (a : list (list A)) : prod2 a [] = [].
Proof. unfold prod2. induction a; cbn; auto. Qed.
Lemma prod2_assoc {A} (a b c : list (list A)) : prod2 (prod2 a b) c = prod2 a (prod2 b c).
Proof.
  unfold prod2. rewrite flat_map_flat_map. apply flat_map_ext. intros x.
  rewrite flat_map_map. rewrite map_flat_map. apply flat_map_ext. intros y.
  rewrite map_map. apply map_ext. intros z. rewrite app_assoc. reflexivity.
Qed.
Lemma prods_app {A} (l1 l2 : list (list (list A))) : prods (l1 ++ l2) = prod2 (prods l1) (prods l2).
Proof.
  induction l1 as [|x l1 IH].
  - change (prods ([] ++ l2)) with (prods l2). change (@prods A []) with ([[]] : list (list A)).
    rewrite prod2_nil_l; reflexivity.
  - change (prods ((x :: l1) ++ l2)) with (prod2 x (prods (l1 ++ l2))).
    change (prods (x :: l1)) with (prod2 x (prods l1)).
    rewrite IH, prod2_assoc; reflexivity.
Qed.
Lemma box_idx_app l1 l2 : box_idx (l1 ++ l2) = prod2 (box_idx l1) (box_idx l2).
Proof. unfold box_idx. rewrite map_app, prods_app. reflexivity. Qed.
Lemma box_idx_nil : box_idx [] = [[]].
Proof. reflexivity. Qed.
Lemma box_idx_cons n l : box_idx (n :: l) = prod2 (map (fun i => [i]) (seq 0 n)) (box_idx l).
Proof. reflexivity. Qed.
Lemma box_idx_empty_iff l : box_idx l = [] <-> In 0 l.
Proof.
  induction l as [|n l IH]; [split; [discriminate | intros []]|]. rewrite box_idx_cons. split.
  - intros H. destruct n as [|n]; [left; reflexivity|]. right. apply IH.
    destruct (box_idx l) as [|y ys]; [reflexivity | discriminate H].
  - intros [->|H]; [reflexivity|]. apply IH in H. rewrite H. apply prod2_empty_r.
Qed.
Lemma prods_box_idx {X} (h : X -> list nat) xs : prods (map (fun x => box_idx (h x)) xs) = box_idx (flat_map h xs).
Proof. induction xs as [|x xs IH]; [reflexivity|]. cbn [flat_map]. rewrite box_idx_app, <- IH. reflexivity. Qed.

Lemma In_prod2 {A} (a b : list (list A)) z :
  In z (prod2 a b) <-> exists x y, In x a /\ In y b /\ z = x ++ y.
Proof.
  unfold prod2. split.
  - intros H. apply in_flat_map in H. destruct H as [x [Hx Hz]]. apply in_map_iff in Hz. destruct Hz as [y [E Hy]]. exists x, y. auto.
  - intros [x [y [Hx [Hy E]]]]. apply in_flat_map. exists x. split; [assumption|]. apply in_map_iff. exists y; auto.
Qed.

Lemma box_idx_elem lens : forall t, In t (box_idx lens) -> Forall2 lt t lens.
Proof.
  induction lens as [|n lens IH]; intros t Ht; [destruct Ht as [<-|[]]; constructor|].
  rewrite box_idx_cons in Ht. apply In_prod2 in Ht. destruct Ht as [x [y [Hx [Hy ->]]]].
  apply in_map_iff in Hx. destruct Hx as [i [<- Hi]]. apply in_seq in Hi. constructor; [apply Hi | apply IH; exact Hy].
Qed.
Lemma box_idx_elem_length lens t : In t (box_idx lens) -> List.length t = List.length lens.
Proof. intros H. apply box_idx_elem in H. eapply Forall2_length; eassumption. Qed.

(* The model builds inputs_ind and states_ind as two products over the same upstream states.  Both are the
   image of one list: the index vectors (one index per state, first slowest), so their zip is the image of
   that list under the pair; looking a key up in a row made from a vector finds the segment of its state
   (pick P v p: the index the vector v holds for p). *)
Definition index_vectors {I} (ls : list (list I)) : list (list I) :=
  fold_right (fun l acc => flat_map (fun i => map (cons i) acc) l) [[]] ls.
Fixpoint cat {X I A} (v : X -> I -> list A) (xs : list X) (is : list I) : list A :=
  match xs, is with x :: xs', i :: is' => v x i ++ cat v xs' is' | _, _ => [] end.
Fixpoint pick (P is : list nat) (p : nat) : nat :=
  match P, is with x :: P', i :: is' => if Nat.eqb x p then i else pick P' is' p | _, _ => 0 end.

Lemma prods_map {X I A} (v : X -> I -> list A) (L : X -> list I) xs :
  prods (map (fun x => map (v x) (L x)) xs) = map (cat v xs) (index_vectors (map L xs)).
Proof.
  induction xs as [|x xs IH]; [reflexivity|].
  change (prods (map (fun x0 => map (v x0) (L x0)) (x :: xs)))
    with (prod2 (map (v x) (L x)) (prods (map (fun x0 => map (v x0) (L x0)) xs))).
  rewrite IH. unfold prod2. cbn [map index_vectors fold_right]. fold (index_vectors (map L xs)).
  rewrite flat_map_map, map_flat_map. apply flat_map_ext. intros i. rewrite !map_map. reflexivity.
Qed.
Lemma In_index_vectors {X I} (L : X -> list I) xs : forall is,
  In is (index_vectors (map L xs)) -> Forall2 (fun x i => In i (L x)) xs is.
Proof.
  induction xs as [|x xs IH]; intros is H; cbn in H.
  - destruct H as [<-|[]]. constructor.
  - apply in_flat_map in H. destruct H as [i [Hi H]]. apply in_map_iff in H. destruct H as [is' [<- H]].
    constructor; [exact Hi | apply IH; exact H].
Qed.
Lemma prod2_map_l {I A} (u : I -> list A) C (B : list (list A)) :
  prod2 (map u C) B = map (fun p => u (fst p) ++ snd p) (list_prod C B).
Proof. unfold prod2. induction C as [|c C IH]; cbn; [reflexivity|]. rewrite map_app, map_map, IH. reflexivity. Qed.
Lemma combine_map_diag {A B C} (f : A -> B) (g : A -> C) l : combine (map f l) (map g l) = map (fun x => (f x, g x)) l.
Proof. induction l; cbn; congruence. Qed.

Lemma lookup_repeat ks i k : In k ks -> lookup (combine ks (repeat i (List.length ks))) k = Some i.
Proof.
  induction ks as [|k0 ks IH]; cbn; [intros []|]. intros H.
  destruct (key_eqb k0 k) eqn:E; [reflexivity|]. apply IH. destruct H as [H|H]; [|exact H].
  subst. rewrite key_eqb_refl in E. discriminate E.
Qed.

Section Pick.
Variables (ks : nat -> list key) (v : nat -> nat -> list nat) (R : nat -> nat -> Prop).
Hypothesis Hlen : forall x i, R x i -> List.length (v x i) = List.length (ks x).

Lemma cat_length P is : Forall2 R P is -> List.length (cat v P is) = List.length (flat_map ks P).
Proof. induction 1 as [|x i P is Hi H IH]; [reflexivity|]. cbn. rewrite !app_length, IH, (Hlen x i Hi). reflexivity. Qed.
Lemma pick_ok P is p : Forall2 R P is -> In p P -> R p (pick P is p).
Proof.
  induction 1 as [|x i P is Hi H IH]; intros Hp; [destruct Hp|]. cbn [pick].
  destruct (Nat.eqb_spec x p) as [<-|Hne]; [exact Hi|]. destruct Hp as [Hp|Hp]; [contradiction | exact (IH Hp)].
Qed.
Lemma lookup_cat P is : Forall2 R P is -> NoDup (flat_map ks P) ->
  forall Kt T p k, In p P -> In k (ks p) ->
  lookup (combine (flat_map ks P ++ Kt) (cat v P is ++ T)) k = lookup (combine (ks p) (v p (pick P is p))) k.
Proof.
  induction 1 as [|x i P is Hi H IH]; intros ND Kt T p k Hp Hk; [destruct Hp|].
  cbn [flat_map cat pick] in *. rewrite <- !app_assoc.
  destruct (Nat.eqb_spec x p) as [<-|Hne].
  - apply lookup_combine_app_l; [symmetry; exact (Hlen x i Hi) | exact Hk].
  - destruct Hp as [Hp|Hp]; [contradiction|].
    rewrite lookup_combine_app_r; [exact (IH (NoDup_app_r _ _ ND) Kt T p k Hp Hk) | symmetry; exact (Hlen x i Hi) |].
    intros Hx. apply (NoDup_app_disj _ _ k ND Hx). apply in_flat_map. exists p. split; assumption.
Qed.
End Pick.

Lemma pairwise_spec {A} (ok : A -> A -> bool) l :
  pairwise ok l = true -> forall x y, In x l -> In y l -> x <> y -> ok x y = true.
Proof.
  induction l as [|z l IH]; intros H x y Hx Hy Hne; [contradiction|].
  cbn in H. apply andb_true_iff in H. destruct H as [H1 H2]. rewrite forallb_forall in H1.
  destruct Hx as [<-|Hx], Hy as [<-|Hy].
  - contradiction.
  - specialize (H1 y Hy). apply andb_true_iff in H1. tauto.
  - specialize (H1 x Hx). apply andb_true_iff in H1. tauto.
  - apply IH; assumption.
Qed.
Lemma pairwise_intro {A} (ok : A -> A -> bool) l :
  (forall x y, In x l -> In y l -> x <> y -> ok x y = true) -> NoDup l -> pairwise ok l = true.
Proof.
  induction l as [|a l IH]; intros H Hnd; [reflexivity|]. inversion Hnd; subst. cbn. apply andb_true_iff. split.
  - apply forallb_forall. intros y Hy. assert (a <> y) by (intros ->; contradiction).
    rewrite (H a y), (H y a); auto using in_eq, in_cons.
  - apply IH; [intros x y Hx Hy; apply H; right; assumption | assumption].
Qed.
Lemma sep_ok_iff wf tab x y : sep_ok wf tab x y = true <->
  (forall k, In k (s_faxes_of tab x) -> ~ In k (s_faxes_of tab y)) /\ ~ In x (parents wf tab y).
Proof.
  unfold sep_ok, disjointk. rewrite andb_true_iff, negb_true_iff, memn_false, forallb_forall.
  split; intros [H1 H2]; (split; [|exact H2]); intros k Hk;
    [apply memk_false, negb_true_iff | apply negb_true_iff, memk_false]; exact (H1 k Hk).
Qed.
Lemma relays_spec wf tab x y : relays wf tab x y = true ->
  parents wf tab x = [] /\ parents wf tab y = [x] /\ n_split (node_at wf y) = [] /\ n_comb (node_at wf y) = [].
Proof.
  intros R. unfold relays in R.
  apply andb_prop in R. destruct R as [R R4]. apply andb_prop in R. destruct R as [R R3].
  apply andb_prop in R. destruct R as [R1 R2]. apply is_nil_true in R1, R3, R4.
  repeat split; try assumption. apply (list_eqb_spec Nat.eqb Nat.eqb_eq). exact R2.
Qed.
Lemma on_nodes_nth wf p n nd e :
  on_nodes wf p = true -> nth_error wf n = Some nd -> nth_error (spec_table wf) n = Some e -> p n e nd = true.
Proof.
  intros H Hn He. unfold on_nodes in H. rewrite forallb_forall in H.
  assert (Hs : nth_error (seq 0 (List.length wf)) n = Some n).
  { assert (n < List.length wf) by (apply nth_error_Some; rewrite Hn; discriminate).
    rewrite (nth_error_nth' _ 0) by (rewrite seq_length; assumption). rewrite seq_nth by assumption. reflexivity. }
  specialize (H (n, e, nd)). apply H. eapply nth_error_In.
  apply combine_nth_error; [apply combine_nth_error; eassumption | exact Hn].
Qed.
Lemma on_nodes_intro wf p : (forall n e nd, In nd wf -> p n e nd = true) -> on_nodes wf p = true.
Proof.
  intros H. unfold on_nodes. apply forallb_forall. intros [[n e] nd] Hin. cbn. apply H.
  eapply in_combine_r. exact Hin.
Qed.
