(* Proofs/StateWfInv.v — C03: the invariant between the model's per-node tables and the spec's
   origin-coordinate boxes, what LazyOutField._get_value returns under it, and the invariant over whole tables. *)
From Pydra Require Import Base.Prelude Model.StateWf Spec.StateWf Proofs.StateWfLists Proofs.ListFacts.
Local Open Scope nat_scope.

Lemma option_nat_eqb_eq (a b : option nat) : option_eqb Nat.eqb a b = true <-> a = b.
Proof. exact (option_eqb_spec Nat.eqb Nat.eqb_eq a b). Qed.
Lemma agree_iff ks r1 r2 : agree ks r1 r2 = true <-> forall k, In k ks -> lookup r1 k = lookup r2 k.
Proof.
  unfold agree. rewrite forallb_forall. split; intros H k Hk; [apply option_nat_eqb_eq | apply option_nat_eqb_eq]; auto.
Qed.
Lemma agree_nil r1 r2 : agree [] r1 r2 = true.
Proof. reflexivity. Qed.
Lemma agree_filter_ext ks r1 r2 (l : list row) :
  agree ks r1 r2 = true -> filter (agree ks r1) l = filter (agree ks r2) l.
Proof.
  intros H. apply filter_ext. intros r. rewrite agree_iff in H. apply eq_true_iff_eq. rewrite !agree_iff.
  split; intros G k Hk; [rewrite <- (H k Hk) | rewrite (H k Hk)]; exact (G k Hk).
Qed.

(* group_values' superset test is the spec's "agrees on the un-combined axes" *)
Lemma subrow_agree ks t r :
  NoDup ks -> List.length ks = List.length t ->
  subrow (combine ks t) r = agree ks (combine ks t) r.
Proof.
  intros Hnd HL. apply eq_true_iff_eq. unfold subrow. rewrite forallb_forall, agree_iff. split.
  - intros H k Hk. destruct (lookup_combine_some ks t k Hk HL) as [v Hv]. rewrite Hv.
    specialize (H (k, v) (lookup_in _ _ _ Hv)). cbn in H.
    destruct (lookup r k); [apply Nat.eqb_eq in H; subst; reflexivity | discriminate].
  - intros H [k v] Hin. cbn. rewrite <- (H k (in_combine_l _ _ _ _ Hin)), (lookup_combine_nodup _ _ _ _ Hnd Hin).
    apply Nat.eqb_refl.
Qed.

Section Inv.
Variable wf : workflow.
Lemma box_empty_iff ks : box wf ks = [] <-> In 0 (map (key_len wf) ks).
Proof.
  unfold box. rewrite <- box_idx_empty_iff.
  destruct (box_idx (map (key_len wf) ks)); cbn; split; intros H; try reflexivity; discriminate H.
Qed.
Lemma box_length ks : List.length (box wf ks) = List.length (box_idx (map (key_len wf) ks)).
Proof. unfold box. apply map_length. Qed.
Lemma box_nth ks i : i < List.length (box_idx (map (key_len wf) ks)) ->
  nth i (box wf ks) [] = combine ks (nth i (box_idx (map (key_len wf) ks)) []).
Proof.
  intros H. change (box wf ks) with (map (combine ks) (box_idx (map (key_len wf) ks))).
  rewrite (nth_indep (map (combine ks) (box_idx (map (key_len wf) ks))) [] (combine ks [])) by (rewrite map_length; exact H).
  apply (map_nth (combine ks)).
Qed.
Lemma key_len_sub_zero a b : incl a b -> In 0 (map (key_len wf) a) -> In 0 (map (key_len wf) b).
Proof.
  intros Hi H. apply in_map_iff in H. destruct H as [k [E Hk]]. apply in_map_iff. exists k. auto.
Qed.
Lemma lookup_lt (ks : list key) : forall o k i,
  Forall2 lt o (map (key_len wf) ks) -> lookup (combine ks o) k = Some i -> i < key_len wf k.
Proof.
  induction ks as [|k0 ks IH]; intros o k i HF HL; [discriminate HL|].
  inversion HF as [|v l o' ls Hv HF']; subst. cbn in HL.
  destruct (key_eqb k0 k) eqn:E.
  - apply key_eqb_eq in E; subst. inversion HL; subst. exact Hv.
  - eapply IH; eassumption.
Qed.

(* what the model keeps of a node with state is a function of the spec's entry and of the wiring; indf is [] — not
   [[]] — when a combiner leaves no axis open (build_state: if is_nil rpnf then []) *)
Definition tables (j : nat) (nd : node) (se : sentry) (prev : list nat) (other : list (nat * list nat)) : mstate :=
  let indf := if negb (is_nil (n_comb nd)) && is_nil (s_faxes se) then [] else box_idx (map (key_len wf) (s_faxes se)) in
  {| m_other := other; m_prev := prev; m_cur := map (fun f => (j, f)) (n_split nd); m_comb := n_comb nd;
     m_rpnf := s_faxes se; m_keys := s_axes se; m_sind := box wf (s_axes se); m_keysf := s_faxes se; m_indf := indf;
     m_sindf := map (mkdict (s_faxes se)) indf; m_jobs := map (s_sem se) (box wf (s_axes se)) |}.

(* so that the projections take the records' parameters implicitly *)
Local Set Implicit Arguments.
(* what connect left of the state-carrying inputs: a sublist of ups, all of them when there is at most one; the relay
   case reads w_exact and w_other off the relay's own state *)
Record wired (stab : list sentry) (nd : node) (prev : list nat) (other : list (nat * list nat)) : Prop := {
  w_incl : incl prev (ups stab (n_fields nd));
  w_exact : List.length (ups stab (n_fields nd)) <= 1 -> prev = ups stab (n_fields nd);
  w_other : map fst other = ups stab (n_fields nd)
}.

Record entry_ok (stab : list sentry) (j : nat) (nd : node) (me : mnode) (se : sentry) : Prop := {
  eo_nodup : NoDup (s_axes se);
  eo_bound : forall k, In k (s_axes se) -> fst k <= j;
  eo_lt : forall x, In (BUp x) (n_fields nd) -> x < j;
  eo_axes : s_axes se = up_axes stab (n_fields nd) ++ map (fun f => (j, f)) (n_split nd);
  eo_faxes : s_faxes se = filter (fun k => negb (memk k (n_comb nd))) (s_axes se);
  eo_comb : incl (n_comb nd) (s_axes se);
  eo_sem_ext : forall r1 r2, agree (s_axes se) r1 r2 = true -> s_sem se r1 = s_sem se r2;
  eo_out : forall rho, s_out se rho =
             if is_nil (n_comb nd) then s_sem se rho
             else VList (map (s_sem se) (filter (agree (s_faxes se) rho) (box wf (s_axes se))));
  eo_stateless : s_axes se = [] -> me = MStateless (s_sem se []);
  eo_state : s_axes se <> [] -> exists prev other, me = MState (tables j nd se prev other) /\ wired stab nd prev other
}.
Local Unset Implicit Arguments.

Section Entry.
Context {stab : list sentry} {j : nat} {nd : node} {me : mnode} {se : sentry}.
Hypothesis EO : entry_ok stab j nd me se.

Lemma eo_comb_nil_faxes : n_comb nd = [] -> s_faxes se = s_axes se.
Proof. intros E. rewrite (eo_faxes EO), E. apply filter_all. reflexivity. Qed.
Lemma eo_faxes_incl : incl (s_faxes se) (s_axes se).
Proof. rewrite (eo_faxes EO). intros k H. apply filter_In in H. tauto. Qed.
Lemma eo_faxes_nodup : NoDup (s_faxes se).
Proof. rewrite (eo_faxes EO). apply NoDup_filter. exact (eo_nodup EO). Qed.
Lemma eo_axes_nil_faxes : s_axes se = [] -> s_faxes se = [].
Proof. intros E. rewrite (eo_faxes EO), E. reflexivity. Qed.
Lemma eo_axes_nil_comb : s_axes se = [] -> n_comb nd = [].
Proof. intros E. apply incl_l_nil. rewrite <- E. exact (eo_comb EO). Qed.

Lemma eo_out_ext r1 r2 : agree (s_faxes se) r1 r2 = true -> s_out se r1 = s_out se r2.
Proof.
  intros H. rewrite !(eo_out EO). destruct (is_nil (n_comb nd)) eqn:E.
  - apply is_nil_true in E. apply (eo_sem_ext EO). rewrite <- (eo_comb_nil_faxes E). exact H.
  - rewrite (agree_filter_ext _ _ _ _ H). reflexivity.
Qed.

Lemma eo_open : s_faxes se <> [] ->
  exists prev other, me = MState (tables j nd se prev other) /\ wired stab nd prev other.
Proof. intros HF. apply (eo_state EO). intros E. exact (HF (eo_axes_nil_faxes E)). Qed.

(* a consumer that sees no open axis of this node gets its whole (combined) output *)
Lemma get_value_none_closed rho : s_faxes se = [] -> get_value me None = Some (s_out se rho).
Proof.
  intros HF. rewrite (eo_out_ext rho []) by (rewrite HF; reflexivity). rewrite (eo_out EO), HF.
  destruct (s_axes se) as [|k0 ax] eqn:EA.
  - rewrite (eo_stateless EO EA), (eo_axes_nil_comb EA). reflexivity.
  - assert (HC : is_nil (n_comb nd) = false).
    { apply is_nil_false. intros E. rewrite <- (eo_comb_nil_faxes E), HF in EA. discriminate EA. }
    destruct (eo_state EO) as (prev & other & Eme & _); [rewrite EA; discriminate|]. rewrite Eme.
    cbn [get_value tables m_jobs m_comb m_indf]. rewrite HC, HF, EA, filter_all by reflexivity. cbn [negb andb is_nil].
    destruct (map (s_sem se) (box wf (k0 :: ax))); reflexivity.
Qed.

Lemma group_values_ok prev other i : s_faxes se <> [] -> i < List.length (box_idx (map (key_len wf) (s_faxes se))) ->
  group_values (tables j nd se prev other) i = Some (VList (map (s_sem se)
    (filter (agree (s_faxes se) (nth i (box wf (s_faxes se)) [])) (box wf (s_axes se))))).
Proof.
  intros HF Hi. apply is_nil_false in HF. unfold group_values. cbn [tables m_sindf m_sind m_jobs]. rewrite HF, andb_false_r.
  rewrite (nth_error_nth' _ (mkdict (s_faxes se) [])) by (rewrite map_length; exact Hi).
  rewrite (map_nth (mkdict (s_faxes se))).
  rewrite mkdict_nodup by exact eo_faxes_nodup. rewrite box_nth by exact Hi.
  set (t := nth i (box_idx (map (key_len wf) (s_faxes se))) []).
  assert (Ht : List.length (s_faxes se) = List.length t).
  { symmetry. rewrite <- (map_length (key_len wf) (s_faxes se)). apply box_idx_elem_length. apply nth_In. exact Hi. }
  f_equal. f_equal.
  induction (box wf (s_axes se)) as [|r rs IH]; [reflexivity|].
  cbn [map combine filter fst snd]. rewrite (subrow_agree _ _ _ eo_faxes_nodup Ht).
  destruct (agree (s_faxes se) (combine (s_faxes se) t) r); cbn [map snd]; rewrite IH; reflexivity.
Qed.

(* a consumer job holding index i into this node's final state list *)
Lemma get_value_some i : s_faxes se <> [] -> i < List.length (box_idx (map (key_len wf) (s_faxes se))) ->
  get_value me (Some i) = Some (s_out se (nth i (box wf (s_faxes se)) [])).
Proof.
  intros HF Hi. destruct (eo_open HF) as (prev & other & Eme & _). rewrite Eme.
  rewrite (eo_out EO). cbn [get_value tables m_jobs m_comb m_indf]. rewrite (proj2 (is_nil_false _) HF), andb_false_r.
  destruct (is_nil (n_comb nd)) eqn:EC; cbn [negb andb].
  - apply is_nil_true in EC. rewrite (eo_comb_nil_faxes EC) in *. rewrite <- box_length in Hi.
    destruct (map (s_sem se) (box wf (s_axes se))) as [|v vs] eqn:EM.
    + apply (f_equal (@List.length val)) in EM. rewrite map_length in EM. cbn in EM. lia.
    + cbn [is_nil andb]. rewrite <- EM. rewrite (nth_error_nth' _ (s_sem se [])) by (rewrite map_length; exact Hi).
      f_equal. apply (map_nth (s_sem se)).
  - destruct (box_idx (map (key_len wf) (s_faxes se))) as [|t0 ts] eqn:EB; [cbn in Hi; lia|].
    cbn [is_nil negb]. rewrite andb_false_r. rewrite <- EB in *. exact (group_values_ok prev other i HF Hi).
Qed.

(* the workflow output of the node: _get_value(state_index=None) *)
Lemma get_value_output : get_value me None = Some (spec_output wf se).
Proof.
  unfold spec_output.
  destruct (is_nil (s_faxes se)) eqn:HF; [apply is_nil_true in HF; exact (get_value_none_closed [] HF)|].
  pose proof (proj1 (is_nil_false _) HF) as HF'. destruct (eo_open HF') as (prev & other & Eme & _). rewrite Eme.
  cbn [get_value tables m_jobs m_comb m_indf]. rewrite HF, andb_false_r.
  destruct (is_nil (n_comb nd)) eqn:EC; cbn [negb andb].
  - rewrite (eo_comb_nil_faxes (proj1 (is_nil_true _) EC)).
    rewrite (map_ext (s_out se) (s_sem se)) by (intros r; rewrite (eo_out EO), EC; reflexivity).
    rewrite andb_true_r. destruct (map (s_sem se) (box wf (s_axes se))); reflexivity.
  - rewrite (all_some_map _ (fun i => s_out se (nth i (box wf (s_faxes se)) []))).
    + rewrite <- box_length, <- (map_map (fun i => nth i (box wf (s_faxes se)) []) (s_out se)), map_nth_seq.
      destruct (box_idx (map (key_len wf) (s_faxes se))) as [|t0 ts] eqn:EB; [|rewrite andb_false_r; reflexivity].
      (* no remaining coordinate at all: then no job either *)
      assert (EBA : box wf (s_axes se) = []).
      { apply box_empty_iff. apply (key_len_sub_zero _ _ eo_faxes_incl). apply box_idx_empty_iff. exact EB. }
      assert (EBF : box wf (s_faxes se) = []) by (apply box_empty_iff, box_idx_empty_iff; exact EB).
      rewrite EBA, EBF. reflexivity.
    + intros i Hi. apply in_seq in Hi. rewrite (eo_out EO), EC. apply (group_values_ok prev other i HF'). lia.
Qed.
End Entry.

End Inv.

Definition tab_ok (wf : workflow) (T : list sentry) (mtab : list mnode) : Prop :=
  forall j me se, nth_error mtab j = Some me -> nth_error T j = Some se -> entry_ok wf T j (node_at wf j) me se.
Lemma tab_ok_snoc wf T mtab me e :
  tab_ok wf T mtab -> nth_error T (List.length mtab) = Some e ->
  entry_ok wf T (List.length mtab) (node_at wf (List.length mtab)) me e -> tab_ok wf T (mtab ++ [me]).
Proof.
  intros TE He EOn j mej sej H2 H3. destruct (Nat.lt_ge_cases j (List.length mtab)) as [Hlt|Hge].
  - rewrite nth_error_app1 in H2 by exact Hlt. exact (TE j mej sej H2 H3).
  - assert (Hj : j = List.length mtab).
    { assert (j < List.length (mtab ++ [me])) by (apply nth_error_Some; rewrite H2; discriminate).
      rewrite app_length in H. cbn in H. lia. }
    subst j. rewrite nth_error_app2, Nat.sub_diag in H2 by lia. cbn in H2. congruence.
Qed.
