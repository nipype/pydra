(* Proofs/HashCtx.v — the serializers are parametric in "how a sub-object is hashed" (repr_cong, with repr_rel
   and repr_ext as instances); consequences: more fuel never changes a digest (dig_mono), and for values without
   reference cycles the digest computed under any Cache left by earlier hash calls is the digest of the value
   alone (hs_context_free).
   Sections Ext / ExtH: nothing changes when the hash function is replaced by one with the same values, so a
   fact evaluated with one implementation of H holds of every other. *)
From Coq Require Import Sorting.Permutation.
From Pydra Require Import Base.Prelude Base.PySort Model.Hash Proofs.HashSort.
Local Open Scope list_scope.

(* the sub-objects that bytes_repr hands to hash_single *)
Definition key_subs (k : pyval) : list pyval :=
  match k with VList _ l | VTuple _ l | VSet _ l | VFrozenset _ l => l | _ => [] end.
Definition subs (v : pyval) : list pyval :=
  match v with
  | VList _ l | VTuple _ l | VSet _ l | VFrozenset _ l => l
  | VDict _ kvs => flat_map (fun kv : pyval * pyval => key_subs (fst kv) ++ [snd kv]) kvs
  | VObj _ _ ats => map snd ats
  | _ => []
  end.

Lemma sorted_res_perm {A} (lt : A -> A -> option bool) l s : sorted_res lt l = Ok s -> Permutation l s.
Proof.
  unfold sorted_res. destruct (py_sorted lt l) as [s'|] eqn:E; [|discriminate].
  intros E'. inversion E'; subst. now apply py_sorted_perm in E.
Qed.

Lemma sorted_res_in {A} (lt : A -> A -> option bool) l s x :
  sorted_res lt l = Ok s -> In x s -> In x l.
Proof. intros E Hin. now rewrite (sorted_res_perm _ _ _ E). Qed.

(* The serializers combine "hash this sub-object" calls in three ways only: return a string, fail, run one
   computation and hand its string to the next ([bind]).  A relation [R] between computations over two memos that
   these three keep is kept by the serializers, whatever the two memo types, the two ways [rec1] / [rec2] of hashing
   a sub-object and the two lists of sub-objects (related pairwise) are. *)
Definition bind {M} (c : M -> res (string * M)) (k : string -> M -> res (string * M)) (m : M) : res (string * M) :=
  match c m with Err e => Err e | Ok (d, m') => k d m' end.

Section Cong.
  Context {M1 M2 : Type}.
  Variable rec1 : pyval -> M1 -> res (string * M1).
  Variable rec2 : pyval -> M2 -> res (string * M2).
  Variable R : (M1 -> res (string * M1)) -> (M2 -> res (string * M2)) -> Prop.
  Hypothesis R_ret : forall s, R (fun m => Ok (s, m)) (fun m => Ok (s, m)).
  Hypothesis R_err : forall e, R (fun _ => Err e) (fun _ => Err e).
  Hypothesis R_bind : forall c1 c2 k1 k2, R c1 c2 -> (forall d, R (k1 d) (k2 d)) -> R (bind c1 k1) (bind c2 k2).

  Definition recR (x y : pyval) : Prop := R (rec1 x) (rec2 y).

  Lemma seq_contents_cong : forall l1 l2, Forall2 recR l1 l2 -> R (seq_contents rec1 l1) (seq_contents rec2 l2).
  Proof.
    induction 1 as [|x y l1 l2 Hxy _ IH]; cbn [seq_contents]; [apply R_ret|].
    apply R_bind; [exact Hxy|]. intros d. apply R_bind; [exact IH|]. intros s. apply R_ret.
  Qed.

  Lemma repr_flat_cong : forall k, (forall x, In x (key_subs k) -> recR x x) -> R (repr_flat rec1 k) (repr_flat rec2 k).
  Proof.
    intros k Hk. unfold repr_flat. destruct (atom_bytes k); [apply R_ret|].
    destruct k; try apply R_err; cbn [key_subs] in Hk;
      try (destruct (sorted_res vlt l) as [sl|] eqn:Es; [|apply R_err]);
      (apply R_bind; [apply seq_contents_cong, F2_diag|intros s; apply R_ret]); auto.
    all: intros x Hx; apply Hk, (sorted_res_in _ _ _ _ Es Hx).
  Qed.

  Lemma map_contents_cong : forall kvs1 kvs2,
      Forall2 (fun a b : pyval * pyval => fst a = fst b /\ (forall x, In x (key_subs (fst a)) -> recR x x) /\
                                          recR (snd a) (snd b)) kvs1 kvs2 ->
      R (map_contents rec1 kvs1) (map_contents rec2 kvs2).
  Proof.
    induction 1 as [|[k x] [k' y] l1 l2 (Ek & Hk & Hxy) _ IH]; cbn [map_contents]; [apply R_ret|]. cbn [fst snd] in *. subst k'.
    apply R_bind; [apply repr_flat_cong, Hk|]. intros ks. apply R_bind; [exact Hxy|]. intros d.
    apply R_bind; [exact IH|]. intros s. apply R_ret.
  Qed.

  Theorem repr_cong : forall v, (forall x, In x (subs v) -> recR x x) -> R (repr rec1 v) (repr rec2 v).
  Proof.
    assert (Hm : forall kvs, (forall kv x, In kv kvs -> In x (key_subs (fst kv) ++ [snd kv]) -> recR x x) ->
                             R (mapping rec1 kvs) (mapping rec2 kvs)).
    { intros kvs Hl. unfold mapping. destruct (sorted_res kvlt kvs) as [sk|] eqn:Es; [|apply R_err].
      apply map_contents_cong, F2_diag. intros kv Hkv. apply (sorted_res_in _ _ _ _ Es) in Hkv.
      split; [reflexivity|]. split; [intros x Hx|]; apply (Hl kv); auto using in_or_app, in_eq. }
    intros v Hv. destruct v; try (apply repr_flat_cong; auto; fail); cbn [repr];
      (apply R_bind; [apply Hm|intros s; apply R_ret]); intros kv x Hkv Hx; apply Hv; cbn [subs].
    - apply in_flat_map. exists kv. auto.
    - apply in_map_iff in Hkv. destruct Hkv as (a & <- & Ha).
      cbn in Hx. destruct Hx as [<-|[]]. apply in_map_iff. exists a. auto.
  Qed.
End Cong.

Section Rel.
  Context {M : Type}.
  Variable rec1 : pyval -> M -> res (string * M).
  Variable rec2 : pyval -> unit -> res (string * unit).
  Variable inv : M -> Prop.

  (* what the memo-free [c2] returns, [c1] returns under every memo that satisfies [inv], and leaves such a memo.
     One direction only: a Cache hit answers where [dig] has run out of fuel *)
  Definition follows (c1 : M -> res (string * M)) (c2 : unit -> res (string * unit)) : Prop :=
    forall m s, inv m -> c2 tt = Ok (s, tt) -> exists m', c1 m = Ok (s, m') /\ inv m'.

  Lemma follows_ret : forall s, follows (fun m => Ok (s, m)) (fun m => Ok (s, m)).
  Proof. intros s m s' HI E. inversion E; subst. eauto. Qed.

  Lemma follows_err : forall e, follows (fun _ => Err e) (fun _ => Err e).
  Proof. intros e m s _ E. discriminate E. Qed.

  Lemma follows_bind : forall c1 c2 k1 k2,
      follows c1 c2 -> (forall d, follows (k1 d) (k2 d)) -> follows (bind c1 k1) (bind c2 k2).
  Proof.
    intros c1 c2 k1 k2 Hc Hk m s HI E. unfold bind in *. destruct (c2 tt) as [[d []]|] eqn:E2; [|discriminate].
    destruct (Hc m d HI E2) as (m1 & E1 & HI1). rewrite E1. exact (Hk d m1 s HI1 E).
  Qed.

  Theorem repr_rel : forall v, (forall x, In x (subs v) -> follows (rec1 x) (rec2 x)) -> follows (repr rec1 v) (repr rec2 v).
  Proof. exact (repr_cong rec1 rec2 follows follows_ret follows_err follows_bind). Qed.
End Rel.

Section Ext.
  Context {M : Type}.
  Definition same (c1 c2 : M -> res (string * M)) : Prop := forall m, c1 m = c2 m.

  Lemma same_ret : forall s, same (fun m => Ok (s, m)) (fun m => Ok (s, m)).
  Proof. intros s m. reflexivity. Qed.

  Lemma same_err : forall e, same (fun _ => Err e) (fun _ => Err e).
  Proof. intros e m. reflexivity. Qed.

  Lemma same_bind : forall c1 c2 k1 k2, same c1 c2 -> (forall d, same (k1 d) (k2 d)) -> same (bind c1 k1) (bind c2 k2).
  Proof. intros c1 c2 k1 k2 Hc Hk m. unfold bind. rewrite Hc. destruct (c2 m) as [[d m']|]; [apply Hk|reflexivity]. Qed.

  Theorem repr_ext : forall rec1 rec2 : pyval -> M -> res (string * M),
      (forall x, same (rec1 x) (rec2 x)) -> forall v, same (repr rec1 v) (repr rec2 v).
  Proof. intros rec1 rec2 Hrec v. apply (repr_cong rec1 rec2 same same_ret same_err same_bind). intros x _. apply Hrec. Qed.
End Ext.

Section ExtH.
  Variables H H' : string -> string.
  Hypothesis HH : forall s, H s = H' s.

  Lemma dig_ext : forall f v u, dig H f v u = dig H' f v u.
  Proof.
    induction f as [|f IH]; intros v u; [reflexivity|]. cbn [dig]. rewrite (repr_ext _ _ IH). unfold D.
    destruct (repr (dig H' f) v tt) as [[s ?]|]; [|reflexivity]. now rewrite HH.
  Qed.

  Lemma digest_ext : forall v, digest H v = digest H' v.
  Proof. intros v. unfold digest. now rewrite dig_ext. Qed.

  Lemma preimage_ext : forall v, preimage H v = preimage H' v.
  Proof. intros v. unfold preimage. now rewrite (repr_ext _ _ (dig_ext _)). Qed.
End ExtH.

Section Fuel.
  Variable H : string -> string.

  Lemma dig_S_inv : forall f v d, dig H (S f) v tt = Ok (d, tt) ->
      exists s, repr (dig H f) v tt = Ok (s, tt) /\ d = D H s.
  Proof.
    intros f v d E. cbn [dig] in E. destruct (repr (dig H f) v tt) as [[s []]|]; [|discriminate]. inversion E. eauto.
  Qed.

  Lemma dig_mono : forall f f' v d, f <= f' -> dig H f v tt = Ok (d, tt) -> dig H f' v tt = Ok (d, tt).
  Proof.
    induction f as [|f IH]; intros f' v d Hle E; [discriminate|].
    destruct f' as [|f']; [lia|]. destruct (dig_S_inv f v d E) as (s & Er & ->).
    (* [dig f'] follows [dig f], with nothing asked of the unit memo *)
    destruct (repr_rel (dig H f') (dig H f) (fun _ => True) v) with (m := tt) (s := s) as ([] & E' & _); auto.
    - intros x _ [] d' _ Ex. exists tt. split; auto. apply (IH f'); [lia|exact Ex].
    - cbn [dig]. now rewrite E'.
  Qed.

  Lemma dig_det : forall f f' v d d', dig H f v tt = Ok (d, tt) -> dig H f' v tt = Ok (d', tt) -> d = d'.
  Proof.
    intros f f' v d d' E E'.
    apply (dig_mono f (Nat.max f f')) in E; [|lia]. apply (dig_mono f' (Nat.max f f')) in E'; [|lia]. congruence.
  Qed.

  Lemma digest_dig : forall v d, digest H v = Ok d <-> dig H (S (vdepth v)) v tt = Ok (d, tt).
  Proof.
    intros v d. unfold digest.
    destruct (dig H (S (vdepth v)) v tt) as [[d' []]|]; split; intros E; inversion E; reflexivity.
  Qed.
End Fuel.

(* Values without reference cycles. [env] says which object each identity denotes (same id => same sub-tree:
   aliasing); [opened] are the identities of the objects being hashed around the current one. *)
Section Ctx.
  Variable H : string -> string.
  Variable env : nat -> option pyval.

  Inductive wf (opened : list nat) : pyval -> Prop :=
  | wf_intro v :
      (forall i, v <> VRef i) ->
      (forall i, node_id v = Some i -> env i = Some v /\ ~ In i opened) ->
      (forall x, In x (subs v) ->
                 wf (match node_id v with Some i => i :: opened | None => opened end) x) ->
      wf opened v.

  (* every finished entry of the Cache is the digest of the object it is filed under *)
  Definition good (i : nat) (d : string) : Prop :=
    exists t f, env i = Some t /\ dig H f t tt = Ok (d, tt).
  Definition Inv (opened : list nat) (m : memo) : Prop :=
    forall i d, lookup i m = Some d -> In i opened \/ good i d.

  Lemma Inv_nil : Inv [] [].
  Proof. intros i d Hl. discriminate. Qed.

  Lemma Inv_weaken : forall opened i m, Inv opened m -> Inv (i :: opened) m.
  Proof. intros opened i m HI j d Hl. destruct (HI j d Hl); [left; now right|now right]. Qed.

  Lemma Inv_open : forall opened i d m, Inv opened m -> Inv (i :: opened) ((i, d) :: m).
  Proof.
    intros opened i d m HI j e Hl. cbn [lookup] in Hl.
    destruct (Nat.eqb_spec j i) as [->|_]; [left; now left|exact (Inv_weaken opened i m HI j e Hl)].
  Qed.

  Lemma Inv_close : forall opened i d m, Inv (i :: opened) m -> good i d -> Inv opened ((i, d) :: m).
  Proof.
    intros opened i d m HI Hg j e Hl. cbn [lookup] in Hl.
    destruct (Nat.eqb_spec j i) as [->|Hne]; [inversion Hl; subst; now right|].
    destruct (HI j e Hl) as [[Hji|Hin]|Hg']; [congruence|now left|now right].
  Qed.

  Theorem hs_context_free : forall f v opened m d,
      wf opened v -> Inv opened m -> dig H f v tt = Ok (d, tt) ->
      exists m', hs H f v m = Ok (d, m') /\ Inv opened m'.
  Proof.
    induction f as [|f IH]; intros v opened m d Hwf HI E; [discriminate|].
    inversion Hwf as [v' Hnr Hid Hsub]; subst v'.
    destruct (dig_S_inv H f v d E) as (s & Er & ->).
    (* the sub-objects are hashed with the identity of v, if it has one, among the opened ones *)
    set (op := match node_id v with Some i => i :: opened | None => opened end) in Hsub.
    assert (Hrepr : follows (Inv op) (repr (hs H f) v) (repr (dig H f) v)).
    { apply repr_rel. intros x Hx m1 d. exact (IH x op m1 d (Hsub x Hx)). }
    cbn [hs]. subst op. destruct (node_id v) as [i|] eqn:Ei.
    - destruct (Hid i eq_refl) as [Henv Hno].
      destruct (lookup i m) as [d0|] eqn:El.
      + destruct (HI i d0 El) as [Hin|(t & f0 & Ht & Hd)]; [contradiction|].
        rewrite Henv in Ht. inversion Ht; subst t.
        rewrite (dig_det H f0 (S f) v d0 _ Hd E). exists m. auto.
      + destruct (Hrepr ((i, placeholder) :: m) s (Inv_open opened i _ m HI) Er) as (m1' & E1 & HI1).
        rewrite E1. eexists; split; [reflexivity|]. apply Inv_close; [exact HI1|]. exists v, (S f). auto.
    - destruct (Hrepr m s HI Er) as (m1' & E1 & HI1). rewrite E1. eauto.
  Qed.

  (* a value that can be hashed, has no reference cycle and whose identities are consistent with [env] *)
  Definition hashable_acyclic (v : pyval) : Prop := wf [] v /\ exists d, digest H v = Ok d.

  Lemma wf_leaf : forall opened v, node_id v = None -> subs v = [] -> wf opened v.
  Proof.
    intros opened v Hid Hs. constructor.
    - intros i ->. discriminate Hid.
    - intros i E. rewrite Hid in E. discriminate E.
    - rewrite Hs. intros x [].
  Qed.

  Lemma wf_flat : forall opened v i,
      node_id v = Some i -> env i = Some v -> ~ In i opened -> (forall j, v <> VRef j) ->
      Forall (fun x => node_id x = None /\ subs x = []) (subs v) -> wf opened v.
  Proof.
    intros opened v i Hid He Hno Hnr Hs. constructor; [exact Hnr| |].
    - intros j E. rewrite Hid in E. inversion E; subst. auto.
    - rewrite Forall_forall in Hs. intros x Hx. destruct (Hs x Hx). now apply wf_leaf.
  Qed.

  Lemma hash_object_alone : forall v m, hashable_acyclic v -> Inv [] m ->
      exists d m', digest H v = Ok d /\ hash_object H v m = Ok (d, m') /\ Inv [] m'.
  Proof.
    intros v m [Hwf [d Hd]] HI. exists d.
    destruct (hs_context_free _ v [] m d Hwf HI (proj1 (digest_dig H v d) Hd)) as (m' & E & HI'). eauto.
  Qed.

  Lemma hash_all_alone : forall vs m, Inv [] m -> (forall v, In v vs -> hashable_acyclic v) ->
      hash_all H vs m = map (digest H) vs.
  Proof.
    induction vs as [|v vs IH]; intros m HI Hvs; [reflexivity|].
    destruct (hash_object_alone v m (Hvs v (or_introl eq_refl)) HI) as (d & m' & Hd & Ehs & HI').
    cbn [hash_all map]. rewrite Ehs, Hd. f_equal. apply IH; auto. intros x Hx. apply Hvs. now right.
  Qed.

  Theorem context_free_acyclic : forall ctx v,
      (forall x, In x (ctx ++ [v]) -> hashable_acyclic x) -> hash_in H ctx v = digest H v.
  Proof.
    intros ctx v Hall. unfold hash_in. rewrite (hash_all_alone _ [] Inv_nil Hall).
    rewrite map_app. cbn [map]. apply last_last.
  Qed.
End Ctx.
