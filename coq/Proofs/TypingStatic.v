(* Proofs/TypingStatic.v — C21: a connection accepted by the static check is honoured by the run-time coercion.

   [static_dynamic]: for tables satisfying the computable condition [tables_c21] (re-checked on the live tables on
   every run), in a world where every named path suits every format, if [check_type T t s] accepts, the target t is
   in the theorem's domain ([c21_target_ok]: hashable set-item / dict-key types), the source s is built on scalar
   classes ([scalar_based]) and is not the unchecked Any, the value conforms to s and fits t's fixed tuple lengths,
   then [coerce T W false t v] is not a rejection. *)
From Pydra Require Import Base.Prelude Model.Typing Spec.Typing Proofs.Typing Proofs.TypingNss.
Local Open Scope string_scope.

(* an accepted value, or a place where the model does not speak: [not_rejected] of the C21 theorems (it stands in
   TypingStaticLive), at any result type (lemmas that conclude it are named ..._nr) *)
Definition NotRejected {A} (r : result A) : Prop := fails_with (fun e => e = EUnmodelled) r.
(* never [EOther]: the exceptions that are not TypeError (FileNotFoundError for a missing path) *)
Definition NoOther {A} (r : result A) : Prop := fails_with (fun e => e <> EOther) r.

#[local] Hint Unfold NotRejected NoOther : fails.

Lemma type_error_noother {A} (r : result A) : fails_with (eq ETypeError) r -> NoOther r.
Proof. apply fails_weaken. intros e <-. discriminate. Qed.

Lemma forall_res_ok {A} (f : A -> result unit) l : forall_res f l = Ok tt -> forall x, In x l -> f x = Ok tt.
Proof.
  induction l as [|y l IH]; cbn; intros H x [].
  - subst. destruct (f x) as [[]|]; [reflexivity|discriminate].
  - destruct (f y); [|discriminate]. auto.
Qed.

Lemma first_ok_nr {A B} (f : A -> result B) l :
  (exists x, In x l /\ NotRejected (f x)) -> (forall x, In x l -> NoOther (f x)) -> NotRejected (first_ok f l).
Proof.
  induction l as [|y l IH]; intros [x [Hx Hn]] Ho; [destruct Hx|]. cbn.
  (* an arm before x passes on with TypeError or ends the search with what is allowed; x itself cannot raise TypeError *)
  destruct (f y) as [z|[]] eqn:E; [apply fails_ok| | |now apply fails_err].
  - apply IH; [|intros a Ha; apply Ho; now right].
    destruct Hx as [->|Hx]; [|exists x; auto]. specialize (Hn _ E). discriminate.
  - destruct (Ho y (or_introl eq_refl) _ E eq_refl).
Qed.

Lemma first_ok_noother {A B} (f : A -> result B) l : Forall (fun x => NoOther (f x)) l -> NoOther (first_ok f l).
Proof.
  induction 1 as [|y l Hy _ IH]; cbn; [apply fails_err; discriminate|].
  destruct (f y) as [z|[]]; [apply fails_ok|exact IH|exact Hy|apply fails_err; discriminate].
Qed.

Definition static_classes : list cls := (scalar_bases ++ container_classes ++ [CMulti])%list.

(* kv can be the class of a value that conforms to a type of origin k: any class under Any, a subclass of k, a list
   class under MultiInputObj *)
Definition belowb (T : tables) (kv k : cls) : bool :=
  cls_eqb k KAny || sub T kv k || (cls_eqb k CMulti && sub T kv CList).
Definition pathish_classes : list cls := [CStr; CPath; CFile FFile; CFile FText; CFile FDir].
(* the constructor call [c(v)] is not rejected on a value of class kv: the model accepts it or does not speak (given a
   world that accepts every path) *)
Definition ctor_safe (T : tables) (kv c : cls) : bool :=
  match c with
  | CBool | CInt | CFloat | CStr => true
  | CPath | CFile _ => existsb (cls_eqb (shape_of_class T kv)) pathish_classes
  | _ => false
  end.

(* The conditions over triples of classes test the rarest fact first and sweep the value classes only under it,
   because coqchk evaluates them without the VM. *)
(* issubclass is transitive where the proof composes it *)
Definition tc_trans (T : tables) : bool :=
  forallb (fun kv => forallb (fun k =>
     if sub T kv k then forallb (fun c => implb (sub T k c) (sub T kv c)) scalar_value_classes else true)
     static_classes) (value_classes T).
(* a MultiInputObj field holds a plain list *)
Definition tc_multi (T : tables) : bool :=
  forallb (fun c => implb (sub T CMulti c) (sub T CList c)) scalar_value_classes.
(* a Union source type is never coercible to a plain class (issubclass(typing.Union, ...) raises) *)
Definition tc_union (T : tables) : bool :=
  forallb (fun c => negb (res_ok (matches_criteria T (SUnionForm) c (t_coercible T)))) scalar_value_classes.
(* static coercibility of a class k into c implies, for every value class below k: an instance of c, or run-time
   coercibility and [safe] *)
Definition tc_coerce (T : tables) (safe : cls -> cls -> bool) (ks cs : list cls) : bool :=
  forallb (fun k => forallb (fun c =>
     if ctc_ok T false k c
     then forallb (fun kv => if belowb T kv k then is_subclass T kv c || (ctc_ok T false kv c && safe kv c) else true)
                  (value_classes T)
     else true) cs) ks.
Definition tc_basic (T : tables) : bool := tc_coerce T (ctor_safe T) static_classes scalar_value_classes.
Definition tc_origin (T : tables) : bool :=
  tc_coerce T (fun _ _ => true) (container_classes ++ [CMulti]) container_classes.
(* no collection(-shaped value) is an instance of a scalar class *)
Definition tc_coll_scalar (T : tables) : bool :=
  forallb (fun kv => forallb (fun c => negb (sub T kv c)) scalar_value_classes) (classes_of_shapes T container_classes).
(* an instance of a container class has that container's shape *)
Definition tc_shape (T : tables) : bool :=
  forallb (fun kv => forallb (fun o => implb (sub T kv o) (cls_eqb (shape_of_class T kv) o)) container_classes)
          (value_classes T).
(* of the container sources only a tuple is a subclass of tuple: the others reach a tuple target through the
   single-item-type view of their arguments *)
Definition tc_tuple (T : tables) : bool :=
  forallb (fun o => negb (sub T o CTuple)) [CList; CSet; CFrozenset; CDict; CMulti].
(* a tuple source, whose two arguments could pass for a key and a value type, is not accepted by a dict target *)
Definition tc_dict (T : tables) : bool := negb (ctc_ok T false CTuple CDict).

Definition c21_conditions : list (tables -> bool) :=
  [tc_trans; tc_multi; tc_union; tc_basic; tc_origin; tc_coll_scalar; tc_tuple; tc_dict; tc_shape].
Definition tables_c21 (T : tables) : bool := forallb (fun c => c T) c21_conditions.

Lemma dedupe_str_single x : dedupe_str [x] [] = [x].
Proof. reflexivity. Qed.

Lemma iter_err v : fails_with (eq ETypeError) (iter v).
Proof. destruct v; cbn; auto with fails. Qed.

Lemma not_coll_hashable v : is_coll v = false -> hashable v = true.
Proof. destruct v; cbn; try discriminate; reflexivity. Qed.

Definition is_union (s : ty) : bool := match s with TUnion _ => true | _ => false end.

(* a bare class; [is_base s = false] beside [is_union s = false] says that the annotation is subscripted (has an origin) *)
Definition is_base (s : ty) : bool := match s with TBase _ => true | _ => false end.

Lemma arity_tuple ps v :
  is_coll v = true -> arity_ok (TTuple ps) v = true ->
  List.length (items_of v) = List.length ps /\ forallb (fun q => arity_ok (fst q) (snd q)) (combine ps (items_of v)) = true.
Proof.
  intros Hc H. cbn [arity_ok] in H. rewrite Hc in H. apply andb_true_iff in H. destruct H as [Hlen Hgo].
  split; [now apply Nat.eqb_eq|]. clear - Hgo. revert Hgo. generalize (items_of v).
  induction ps as [|p ps IH]; intros [|x items]; try reflexivity. cbn. rewrite !andb_true_iff. intros [Hx Hgo]. split; [exact Hx|exact (IH items Hgo)].
Qed.

Lemma dict_res_nr fk fx : forall kv acc,
  Forall (fun p => NotRejected (fk (fst p)) /\ (forall y, fk (fst p) = Ok y -> hashable y = true) /\ NotRejected (fx (snd p))) kv ->
  NotRejected (dict_res fk fx kv acc).
Proof.
  induction kv as [|[a b] kv IH]; intros acc H; cbn; [apply fails_ok|].
  inversion H as [|? ? [H1 [H2 H3]] Hr]; subst. cbn in H1, H2, H3.
  apply fails_bind; [exact H1|intros a' Ea]. apply fails_bind; [exact H3|intros b' _].
  rewrite (H2 _ Ea). now apply IH.
Qed.

Lemma unless_any_ty {A} s (x y z : A) :
  s <> TBase KAny -> match s with TBase KAny => x | _ => y end = z -> y = z.
Proof. intros Hs H. destruct s as [k| | | | | | |]; try exact H. apply unless_any_in in H; congruence. Qed.

(* the two ways [check_type] accepts: [check] does (r), or [check] raises TypeError and the fallback k accepts *)
Lemma check_or_fallback (r k : result unit) :
  match r with Ok a => Ok a | Err ETypeError => k | Err EOther => Err EOther | Err EUnmodelled => Err EUnmodelled end
  = Ok tt -> r = Ok tt \/ (r = Err ETypeError /\ k = Ok tt).
Proof. destruct r as [[]|[]]; auto; discriminate. Qed.

Lemma scalar_value_not_any c : In c scalar_value_classes -> c <> KAny.
Proof. intros H ->. now apply In_cls in H. Qed.

Section Static.
Variable T : tables.
Variable W : world.
Hypothesis WF : tables_wf T = true.
Hypothesis TC : tables_c21 T = true.
Hypothesis WT : forall f p, w_check W f p = None.

Lemma c21_condition c : In c c21_conditions -> c T = true.
Proof. exact (forallb_In TC). Qed.

Lemma tc_trans_spec v k c :
  In k static_classes -> In c scalar_value_classes ->
  sub T (class_of T v) k = true -> sub T k c = true -> sub T (class_of T v) c = true.
Proof.
  intros Hk Hc H1 H2. pose proof (c21_condition tc_trans ltac:(cbn [In c21_conditions]; tauto)) as H.
  pose proof (forallb_In (forallb_In H (class_of_value T v)) Hk) as Hk'. cbn beta in Hk'. rewrite H1 in Hk'.
  pose proof (forallb_In Hk' Hc) as Hc'. cbn beta in Hc'. now rewrite H2 in Hc'.
Qed.

Lemma tc_multi_spec c : In c scalar_value_classes -> sub T CMulti c = true -> sub T CList c = true.
Proof.
  intros Hc H1. pose proof (forallb_In (c21_condition tc_multi ltac:(cbn [In c21_conditions]; tauto)) Hc) as H.
  cbn beta in H. now rewrite H1 in H.
Qed.

Lemma tc_union_spec c : In c scalar_value_classes -> res_ok (matches_criteria T SUnionForm c (t_coercible T)) = false.
Proof.
  intros Hc. apply negb_true_iff, (forallb_In (c21_condition tc_union ltac:(cbn [In c21_conditions]; tauto)) Hc).
Qed.

(* what the static check asks of the origins is what the run-time check asks of the classes *)
Lemma static_ctc same k c :
  (same = true -> k = c) -> check_type_coercible_gen T false same false (SCls k) c = Ok tt -> ctc_ok T false k c = true.
Proof.
  intros Hsame H. unfold ctc_ok, check_type_coercible, check_type_coercible_gen in *.
  destruct (cls_eqb k c) eqn:E; [reflexivity|]. destruct same.
  - rewrite (Hsame eq_refl) in E. now rewrite cls_eqb_refl in E.
  - cbn [andb] in *. now rewrite H.
Qed.

Lemma static_enter safe ks cs k c v :
  tc_coerce T safe ks cs = true -> In k ks -> In c cs ->
  ctc_ok T false k c = true -> belowb T (class_of T v) k = true ->
  exists inst, enter T false c v = Ok inst /\ (inst = false -> safe (class_of T v) c = true).
Proof.
  intros H Hk Hc H1 H2. pose proof (class_of_value T v) as Hkv.
  pose proof (forallb_In (forallb_In H Hk) Hc) as Hc'. cbn beta in Hc'. rewrite H1 in Hc'.
  pose proof (forallb_In Hc' Hkv) as Hkv'. cbn beta in Hkv'. rewrite H2 in Hkv'.
  unfold enter. fold (is_instance T v c) in Hkv'. destruct (is_instance T v c); [exists true; now split|].
  apply andb_true_iff in Hkv'. destruct Hkv' as [Hd Hs]. exists false. split; [|now intros _].
  unfold check_coercible. destruct (_ && _); [reflexivity|]. unfold ctc_ok in Hd.
  now destruct (check_type_coercible T false (class_of T v) c).
Qed.

Lemma tc_coll_scalar_spec v c : is_coll v = true -> In c scalar_value_classes -> is_instance T v c = false.
Proof.
  intros Hv Hc. rewrite is_instance_sub by (now apply scalar_value_not_any).
  pose proof (c21_condition tc_coll_scalar ltac:(cbn [In c21_conditions]; tauto)) as H.
  apply negb_true_iff, (forallb_In (forallb_In H (coll_class T v Hv)) Hc).
Qed.

Lemma tc_tuple_spec o : In o [CList; CSet; CFrozenset; CDict; CMulti] -> sub T o CTuple = false.
Proof.
  intros Ho. apply negb_true_iff, (forallb_In (c21_condition tc_tuple ltac:(cbn [In c21_conditions]; tauto)) Ho).
Qed.

Lemma tc_dict_spec : ctc_ok T false CTuple CDict = false.
Proof. apply negb_true_iff, (c21_condition tc_dict). cbn [In c21_conditions]. tauto. Qed.

Lemma tc_shape_spec v o : In o container_classes -> sub T (class_of T v) o = true -> base_class v = o.
Proof.
  intros Ho Hs. pose proof (c21_condition tc_shape ltac:(cbn [In c21_conditions]; tauto)) as H.
  pose proof (forallb_In (forallb_In H (class_of_value T v)) Ho) as Ho'. cbn beta in Ho'.
  rewrite Hs, shape_class in Ho'. now apply cls_eqb_eq.
Qed.

Lemma fileset_ctor_fails (P : err -> Prop) f ps : P ETypeError -> P EUnmodelled -> fails_with P (fileset_ctor W f ps).
Proof.
  intros Ht Hu. unfold fileset_ctor.
  assert (forall l, existsb (fun p => match w_check W f p with Some EOther => true | _ => false end) l = false) as Hx.
  { induction l as [|p l IH]; cbn; [reflexivity|]. now rewrite WT. }
  rewrite Hx. destruct (dedupe_str _ _) as [|p [|q r]]; auto with fails. rewrite WT. apply fails_ok.
Qed.

Lemma build_noother o v inst r : In o seq_classes -> NoOther r -> NoOther (build o v inst r).
Proof.
  intros Ho Hr. destruct r as [l|e]; [|exact (fails_err _ _ (Hr e eq_refl))]. rewrite build_eq by exact Ho.
  destruct (_ && _); [auto with fails|]. destruct (_ && _); auto with fails.
Qed.

(* the constructor call [c(v)] raises nothing but TypeError, and TypeError only where [ctor_safe] is false *)
Lemma construct_fails (P : err -> Prop) c v :
  P EUnmodelled -> (ctor_safe T (class_of T v) c = false -> P ETypeError) -> fails_with P (construct W c v).
Proof.
  intros Hu Ht. unfold ctor_safe in Ht.
  destruct c; cbn [construct]; try specialize (Ht eq_refl); auto with fails;
    try (apply fails_bind; [destruct v; cbn; auto with fails|intros l _];
         rewrite construct_container_eq by (cbn; tauto); destruct (_ && _); auto with fails).
  - destruct v; auto with fails.
  - destruct (num_of v); auto with fails.
  - destruct (py_str v); auto with fails.
  - destruct v; auto with fails; destruct (bytes_of _); auto with fails.
  - rewrite shape_class in Ht. destruct v as [| | | | | | |f'| | |k fr|]; try destruct fr; auto with fails.
  - rewrite shape_class in Ht. destruct (is_pathish v) as [s|] eqn:Ev.
    + unfold fileset_ctor. cbn [map dedupe_str existsb rev app]. rewrite WT. cbn. apply fails_ok.
    + destruct v as [| | | | | | |f'| | |k fr|]; try destruct fr; try discriminate Ev; specialize (Ht eq_refl);
        auto with fails; (destruct (all_some _); auto using fileset_ctor_fails with fails).
  - destruct v; auto with fails.
Qed.

Lemma construct_noother c v : NoOther (construct W c v).
Proof. apply construct_fails; [discriminate|intros _; discriminate]. Qed.

Lemma ctor_safe_nr v c : ctor_safe T (class_of T v) c = true -> NotRejected (construct W c v).
Proof. intros H. apply construct_fails; [reflexivity|congruence]. Qed.

Lemma seq_noother sac o f v : In o seq_classes -> (forall x, NoOther (f x)) -> NoOther (coerce_seq T sac o f v).
Proof.
  intros Ho Hf. apply fails_bind; [apply type_error_noother, (enter_err T)|intros inst _].
  apply fails_bind; [apply type_error_noother, iter_err|intros items _].
  apply build_noother, map_res_fails, Forall_forall; [exact Ho|]. intros x _. apply Hf.
Qed.

Lemma dict_noother fk fx :
  (forall x, NoOther (fk x)) -> (forall x, NoOther (fx x)) -> forall kv acc, NoOther (dict_res fk fx kv acc).
Proof.
  intros Hk Hx. induction kv as [|[a b] kv IH]; intros acc; cbn; [apply fails_ok|].
  apply fails_bind; [apply Hk|intros a' _]. apply fails_bind; [apply Hx|intros b' _].
  destruct (hashable a'); [apply IH|apply fails_err; discriminate].
Qed.

(* a MultiInputObj pattern: what the item pattern raises on the whole value, and on its items when that is not a
   TypeError, is all it can raise *)
Lemma coerce_multi_fails (P : err -> Prop) f v :
  fails_with P (f v) -> (forall x, fails_with (fun e => e <> ETypeError -> P e) (f x)) ->
  fails_with P (coerce_multi T f v).
Proof.
  intros Hv Hx. unfold coerce_multi.
  assert (fails_with P (wrap1 (f v))) as Hw by (apply fails_bind; [exact Hv|intros; apply fails_ok]).
  destruct (is_vstr T v); [exact Hw|].
  assert (fails_with (fun e => e <> ETypeError -> P e)
            (match iter v with Ok items => map_res f items | Err e => Err e end)) as Hm.
  { apply fails_bind; [|intros items _; apply map_res_fails, Forall_forall; intros x _; apply Hx].
    eapply fails_weaken; [|apply iter_err]. now intros e <- []. }
  destruct (match iter v with Ok items => _ | Err e => Err e end) as [l|e]; [apply fails_ok|].
  destruct e; [exact Hw| |]; apply fails_err, (Hm _ eq_refl); discriminate.
Qed.

(* in a world that accepts every path, coercion never ends in [EOther] *)
Lemma coerce_noother sac : forall t v, NoOther (coerce T W sac t v).
Proof.
  induction t as [c|a IHa|ts IHts|a IHa|k x IHk IHx|fr a IHa|ts IHts|a IHa] using ty_nested_ind; intros v; cbn [coerce];
    try (apply seq_noother, IHa; try destruct fr; cbn; tauto).
  - rewrite coerce_basic_enter. apply fails_bind; [apply type_error_noother, (enter_err T)|].
    intros [|] _; [apply fails_ok|apply construct_noother].
  - apply fails_bind; [apply type_error_noother, (enter_err T)|intros inst _].
    apply fails_bind; [apply type_error_noother, iter_err|intros items _].
    destruct (Nat.eqb _ _); [|apply fails_err; discriminate].
    apply build_noother; [cbn; tauto|]. rewrite zip_res_combine. apply map_res_fails, Forall_forall. intros p Hp.
    rewrite Forall_forall in IHts. apply IHts. eapply in_combine_l. rewrite <- surjective_pairing. exact Hp.
  - apply fails_bind; [apply type_error_noother, (enter_err T)|intros inst _].
    destruct v; try (apply fails_err; discriminate).
    apply fails_bind; [apply dict_noother; assumption|intros; apply fails_ok].
  - apply first_ok_noother. eapply Forall_impl; [|exact IHts]. auto.
  - apply coerce_multi_fails; [apply IHa|]. intros x e He _. exact (IHa x e He).
Qed.

Lemma instance_scalar_not_coll v c :
  In c scalar_value_classes -> is_instance T v c = true -> is_coll v = false.
Proof.
  intros Hc H. destruct (is_coll v) eqn:E; [|reflexivity]. now rewrite (tc_coll_scalar_spec _ _ E Hc) in H.
Qed.

Lemma py_isinstance_sub v o : o <> KAny -> py_isinstance T v o = true -> sub T (class_of T v) o = true.
Proof. intros Ho. now rewrite py_isinstance_is_instance, is_instance_sub. Qed.

Lemma belowb_sub kv k : sub T kv k = true -> belowb T kv k = true.
Proof. intros H. unfold belowb. rewrite H. now rewrite orb_true_r. Qed.

Lemma conforms_below s v :
  is_union s = false -> conforms T s v -> belowb T (class_of T v) (origin_of s) = true.
Proof.
  intros Hu Hc. destruct s as [c|a|ts|a|k x|fr a|ts|a]; try discriminate; cbn [conforms origin_of] in *;
    try (apply belowb_sub, py_isinstance_sub; [try destruct fr; discriminate|apply Hc]).
  - unfold belowb. destruct (cls_eqb c KAny) eqn:E; [reflexivity|].
    rewrite py_isinstance_sub; [reflexivity| |exact Hc]. intros ->. discriminate.
  - unfold belowb. rewrite (py_isinstance_sub v CList); [apply orb_true_r|discriminate|apply Hc].
Qed.

Lemma origin_static s : scalar_based s = true -> is_union s = false -> In (origin_of s) static_classes.
Proof.
  intros Hs Hu. unfold static_classes. apply in_or_app.
  destruct s as [c|a|ts|a|k x|fr a|ts|a]; try discriminate; cbn [origin_of]; try destruct fr; try (right; cbn; tauto).
  left. now apply In_cls.
Qed.

Lemma below_trans v k c :
  In k static_classes -> In c scalar_value_classes -> k <> KAny ->
  belowb T (class_of T v) k = true -> sub T k c = true -> sub T (class_of T v) c = true.
Proof.
  intros Hk Hc Hna Hb Hs. unfold belowb in Hb. rewrite !orb_true_iff, andb_true_iff in Hb.
  destruct Hb as [[Hb|Hb]|[Hb1 Hb2]].
  - now apply cls_eqb_eq in Hb.
  - exact (tc_trans_spec v k c Hk Hc Hb Hs).
  - apply cls_eqb_eq in Hb1. subst k.
    apply (tc_trans_spec v CList c ltac:(cbn; tauto) Hc Hb2), tc_multi_spec; assumption.
Qed.

Lemma subclass_ty_instance c (Hc : In c scalar_value_classes) :
  forall s v, scalar_based s = true -> is_subclass_ty T s c = true -> conforms T s v -> is_instance T v c = true.
Proof.
  pose proof (scalar_value_not_any _ Hc) as Hn.
  assert (forall s v, scalar_based s = true -> is_union s = false -> origin_of s <> KAny ->
                      sub T (origin_of s) c = true -> conforms T s v -> sub T (class_of T v) c = true) as Hhead.
  { intros s v Hs Hu Hna H Hv.
    exact (below_trans v _ c (origin_static s Hs Hu) Hc Hna (conforms_below s v Hu Hv) H). }
  induction s as [k|a IHa|ts IHts|a IHa|k x IHk IHx|fr a IHa|ts IHts|a IHa] using ty_nested_ind;
    intros v Hs H Hv; cbn [is_subclass_ty] in H;
    (* c is not Any, so H speaks of the second branch of is_subclass_ty *)
    apply unless_any_in in H; try exact Hn;
    rewrite is_instance_sub by exact Hn;
    try (apply (Hhead _ v Hs eq_refl); [try destruct fr; discriminate|exact H|exact Hv]).
  - assert (k <> KAny) as Hk by (intros ->; discriminate). apply unless_any_in in H; [|exact Hk].
    now apply (Hhead (TBase k)).
  - apply conforms_union in Hv. destruct Hv as [a [Ha Hv]].
    rewrite forallb_forall in H. cbn [scalar_based] in Hs. rewrite forallb_forall in Hs. rewrite Forall_forall in IHts.
    rewrite <- is_instance_sub by exact Hn. eapply IHts; eauto.
Qed.

Lemma basic_nr c s v :
  In c scalar_value_classes -> scalar_based s = true -> check_basic T s c = Ok tt -> conforms T s v ->
  NotRejected (coerce_basic T W false c v).
Proof.
  intros Hc Hs H Hv. unfold check_basic in H.
  destruct (is_subclass_ty T s c) eqn:E.
  { unfold coerce_basic. rewrite (subclass_ty_instance c Hc s v Hs E Hv). apply fails_ok. }
  destruct (is_union s) eqn:Hu.
  { destruct s; try discriminate. cbn in H.
    pose proof (tc_union_spec c Hc) as Hx. destruct (matches_criteria T SUnionForm c (t_coercible T)); discriminate. }
  assert (src_of s = SCls (origin_of s)) as Hsrc by (destruct s; try discriminate; reflexivity).
  rewrite Hsrc in H. apply static_ctc in H; [|destruct s; try discriminate; apply cls_eqb_eq].
  destruct (static_enter _ _ _ _ _ v (c21_condition tc_basic ltac:(cbn [In c21_conditions]; tauto)) (origin_static s Hs Hu) Hc
              H (conforms_below s v Hu Hv)) as [inst [He Hctor]].
  rewrite coerce_basic_enter, He. destruct inst; [apply fails_ok|now apply ctor_safe_nr, Hctor].
Qed.

Lemma conforms_hashable : forall a, hashable_ty a = true -> forall y, conforms T a y -> hashable y = true.
Proof.
  induction a as [c|a IHa|ts IHts|a IHa|k x0 IHk IHx|fr a IHa|ts IHts|a IHa] using ty_nested_ind;
    intros Ha y Hy; cbn [hashable_ty] in Ha; try discriminate; cbn [conforms] in Hy.
  - apply In_cls in Ha.
    rewrite py_isinstance_is_instance in Hy. apply not_coll_hashable. eapply instance_scalar_not_coll; eassumption.
  - destruct Hy as [_ [k [l [-> Hl]]]]. cbn [hashable]. revert l Hl.
    induction IHts as [|a ts Hhd _ IH]; intros [|y l] Hl; try contradiction; [reflexivity|].
    cbn in Ha. apply andb_true_iff in Ha. destruct Ha as [Ha1 Ha2]. destruct Hl as [Hy Hl].
    cbn. now rewrite (Hhd Ha1 _ Hy), (IH Ha2 _ Hl).
  - destruct Hy as [_ [k [l [-> Hl]]]]. apply forallb_forall. rewrite Forall_forall in Hl.
    intros z Hz. exact (IHa Ha _ (Hl _ Hz)).
  - destruct fr; [|discriminate]. now destruct Hy as [_ [k [l [-> _]]]].
  - apply conforms_union in Hy. destruct Hy as [a [Hin Hc]].
    rewrite forallb_forall in Ha. rewrite Forall_forall in IHts. eauto.
Qed.

Lemma hashable_out sac a x y : hashable_ty a = true -> coerce T W sac a x = Ok y -> hashable y = true.
Proof. intros Ha H. exact (conforms_hashable a Ha y (coerce_conforms T W WF sac a x y H)). Qed.

Lemma container_args_inv po s args ell :
  container_args T po s = Ok (args, ell) ->
  is_base s = false /\ is_union s = false /\ targs s = (args, ell) /\ ctc_ok T false (origin_of s) po = true.
Proof.
  unfold container_args.
  destruct s as [c|a|ts|a|k x|fr a|ts|a]; try discriminate; cbn [src_of origin_of];
    try (destruct (check_type_coercible_gen T false _ false _ po) as [[]|] eqn:E; [|discriminate];
         intros [= <- <-]; repeat split; exact (static_ctc _ _ _ (proj1 (cls_eqb_eq _ _)) E)).
Qed.

Lemma origin_container s : is_base s = false -> is_union s = false -> In (origin_of s) (container_classes ++ [CMulti]).
Proof. destruct s as [c|a|ts|a|k x|fr a|ts|a]; try discriminate; intros _ _; try destruct fr; cbn; tauto. Qed.

(* a value of an accepted container source: its items, and the source's type arguments, which they conform to *)
Lemma source_items po s v args ell :
  container_args T po s = Ok (args, ell) -> scalar_based s = true -> conforms T s v ->
  is_coll v = true /\ iter v = Ok (items_of v) /\ Forall (fun a => scalar_based a = true) args /\
  Forall (fun x => exists a, In a args /\ conforms T a x) (items_of v).
Proof.
  intros Hargs Hs Hc. destruct (container_args_inv _ _ _ _ Hargs) as [Hb [Hu [Ht _]]].
  assert (forall a l, Forall (conforms T a) l -> Forall (fun x => exists a', In a' [a] /\ conforms T a' x) l) as H1.
  { intros a l. apply Forall_impl. intros x Hx. exists a. split; [now left|exact Hx]. }
  destruct s as [c|a|ts|a|k x|fr a|ts|a]; try discriminate; cbn [targs] in Ht; injection Ht as <- <-;
    destruct Hc as [_ [g [l [-> Hl]]]]; cbn [scalar_based] in Hs; (split; [reflexivity|]); (split; [reflexivity|]);
    cbn [items_of]; try (split; [now repeat constructor|apply H1, Hl]).
  - split; [now apply Forall_forall, forallb_forall|]. clear - Hl. revert l Hl.
    induction ts as [|a ts IH]; intros [|x l] Hl; try contradiction; [constructor|].
    destruct Hl as [Hx Hl]. constructor.
    + exists a. split; [now left|exact Hx].
    + eapply Forall_impl; [|apply IH, Hl]. intros y [b [Hb' Hy]]. exists b. split; [now right|exact Hy].
  - apply andb_true_iff in Hs. destruct Hs. split; [now repeat constructor|].
    induction Hl as [|[a b] kv [Ha _] _ IH]; cbn; [constructor|].
    constructor; [|exact IH]. exists k. split; [now left|exact Ha].
Qed.

Lemma enter_static o s v args :
  In o container_classes -> container_args T o s = Ok args -> conforms T s v ->
  exists inst, enter T false o v = Ok inst /\ (inst = true -> base_class v = o).
Proof.
  intros Ho Hargs Hv. destruct args as [args ell].
  destruct (container_args_inv _ _ _ _ Hargs) as [Hb [Hu [_ Hst]]].
  destruct (static_enter _ _ _ _ _ v (c21_condition tc_origin ltac:(cbn [In c21_conditions]; tauto)) (origin_container s Hb Hu) Ho
              Hst (conforms_below s v Hu Hv)) as [inst [He _]].
  exists inst. split; [exact He|]. intros ->. apply enter_true in He.
  rewrite is_instance_sub in He by (intros ->; now apply In_cls in Ho). exact (tc_shape_spec v o Ho He).
Qed.

(* the induction predicate of [static_dynamic_check]: what [check T p] accepts, [coerce T W false p] does not reject *)
Definition honoured (p : ty) : Prop :=
  forall s v, scalar_based s = true -> check T p s = Ok tt -> conforms T s v -> arity_ok p v = true ->
              NotRejected (coerce T W false p v).

Lemma items_nr pa (IHp : honoured pa) o s v args ell :
  container_args T o s = Ok (args, ell) -> forall_res (check T pa) args = Ok tt ->
  scalar_based s = true -> conforms T s v -> forallb (arity_ok pa) (items_of v) = true ->
  is_coll v = true /\ iter v = Ok (items_of v) /\ Forall (fun x => NotRejected (coerce T W false pa x)) (items_of v).
Proof.
  intros Hargs Hc Hs Hv Ha.
  destruct (source_items _ _ _ _ _ Hargs Hs Hv) as [Hcoll [Hiter [Hsa Hi]]]. split; [exact Hcoll|]. split; [exact Hiter|].
  rewrite Forall_forall in *. rewrite forallb_forall in Ha. intros x Hx.
  destruct (Hi x Hx) as [a [Hin Hconf]]. apply (IHp a x); auto. now apply (forall_res_ok _ _ Hc).
Qed.

Lemma seq_nr o pa (IHp : honoured pa) s v args ell :
  In o seq_classes -> (is_setc o = true -> hashable_ty pa = true) ->
  container_args T o s = Ok (args, ell) -> forall_res (check T pa) args = Ok tt ->
  scalar_based s = true -> conforms T s v -> forallb (arity_ok pa) (items_of v) = true ->
  NotRejected (coerce_seq T false o (coerce T W false pa) v).
Proof.
  intros Ho Hh Hargs Hc Hs Hv Ha.
  destruct (items_nr pa IHp _ _ _ _ _ Hargs Hc Hs Hv Ha) as [_ [Hiter HF]].
  destruct (enter_static o s v _ (seq_classes_container o Ho) Hargs Hv) as [inst [He Hinst]].
  unfold coerce_seq. rewrite He, Hiter. apply fails_bind; [apply map_res_fails, HF|intros l El].
  assert (is_setc o = true -> forallb hashable l = true) as Hl.
  { intros Hset. apply forallb_forall, Forall_forall, (map_res_forall El).
    intros x y _. exact (hashable_out false pa x y (Hh Hset)). }
  change (NotRejected (build o v inst (Ok l))). rewrite (build_ok o v inst l Ho Hinst Hl). apply fails_ok.
Qed.

Lemma vstr_not_coll v : is_coll v = true -> is_vstr T v = false.
Proof.
  intros H. unfold is_vstr. now rewrite (tc_coll_scalar_spec _ CStr H), (tc_coll_scalar_spec _ CBytes H) by (cbn; tauto).
Qed.

(* the view check_tuple takes of the source arguments *)
Lemma tuple_args_inv s args ell args' ell' :
  container_args T CTuple s = Ok (args, ell) -> tuple_args T s (args, ell) = Ok (args', ell') ->
  args' = args /\
  ((ell' = true /\ exists a, args = [a]) \/ (ell' = false /\ s = TTuple args)).
Proof.
  intros Hargs. destruct (container_args_inv _ _ _ _ Hargs) as [Hb [Hu [Ht _]]]. unfold tuple_args. cbn [fst].
  destruct (sub T (origin_of s) CTuple) eqn:Es.
  - intros [= <- <-]. split; [reflexivity|].
    destruct s as [c|a|ts|a|k x|fr a|ts|a]; try discriminate; cbn [targs] in Ht; injection Ht as <- <-;
      cbn [origin_of] in Es; try (rewrite tc_tuple_spec in Es by (try destruct fr; cbn; tauto); discriminate).
    + now right.
    + left. eauto.
  - destruct args as [|a [|b r]]; try discriminate. intros [= <- <-]. split; [reflexivity|]. left. eauto.
Qed.

(* an item that reaches the pattern p comes from a source type that p accepts *)
Definition sourced (q : ty * val) : Prop :=
  exists a, scalar_based a = true /\ check T (fst q) a = Ok tt /\ conforms T a (snd q).

Lemma zip_nr ps items :
  Forall honoured ps -> Forall sourced (combine ps items) ->
  forallb (fun q => arity_ok (fst q) (snd q)) (combine ps items) = true ->
  NotRejected (zip_res (map (coerce T W false) ps) items).
Proof.
  intros HP Hsrc Har. rewrite zip_res_combine. apply map_res_fails, Forall_forall. intros q Hq.
  rewrite Forall_forall in HP, Hsrc. destruct (Hsrc q Hq) as [a [Hs [Hc Hv]]].
  apply (HP (fst q)) with (s := a); auto.
  - eapply in_combine_l. rewrite <- surjective_pairing. exact Hq.
  - exact (forallb_In Har Hq).
Qed.

(* a fixed-length tuple pattern: the item at each position comes from a source that the pattern there accepts *)
Lemma tuple_items_sourced ps s v :
  check T (TTuple ps) s = Ok tt -> scalar_based s = true -> conforms T s v -> Forall sourced (combine ps (items_of v)).
Proof.
  intros H Hs Hv. cbn [check] in H.
  destruct (container_args T CTuple s) as [[args ell]|] eqn:Ec; [|discriminate].
  destruct (source_items _ _ _ _ _ Ec Hs Hv) as [_ [_ [Hsa Hitems]]].
  destruct (tuple_args T s (args, ell)) as [[args' ell']|] eqn:Eta; [|discriminate].
  destruct (tuple_args_inv _ _ _ _ _ Ec Eta) as [-> [[-> [a ->]]|[-> ->]]].
  - (* a source of one item type a: every pattern accepts a, every item conforms to it *)
    apply Forall_forall. intros q Hq. rewrite (surjective_pairing q) in Hq. exists a.
    split; [exact (Forall_inv Hsa)|]. split; [exact (forall_res_ok _ _ H _ (in_combine_l _ _ _ _ Hq))|].
    rewrite Forall_forall in Hitems. destruct (Hitems _ (in_combine_r _ _ _ _ Hq)) as [a' [[<-|[]] Hx]]. exact Hx.
  - (* a fixed-length source: patterns, item types and items are aligned *)
    destruct (Nat.eqb _ _); [|discriminate]. destruct Hv as [_ [g [l [-> Hl]]]]. cbn [items_of].
    clear - Hsa H Hl. revert args l Hsa H Hl.
    induction ps as [|p ps IH]; intros [|a ts] [|x items] Hs Hc Hi; try constructor; try contradiction.
    + destruct Hi as [Hx _]. apply Forall_inv in Hs.
      destruct (check T p a) as [[]|] eqn:Ec; [|discriminate]. exists a. auto.
    + destruct Hi as [_ Hxs]. apply Forall_inv_tail in Hs.
      destruct (check T p a); [|discriminate]. exact (IH ts items Hs Hc Hxs).
Qed.

Lemma check_union_inv ps s v :
  check T (TUnion ps) s = Ok tt -> conforms T s v -> scalar_based s = true ->
  exists p' s', In p' ps /\ check T p' s' = Ok tt /\ conforms T s' v /\ scalar_based s' = true.
Proof.
  intros H Hv Hs.
  destruct s as [c|a|ts|a|k x|fr a|ts|a]; cbn [check] in H;
    try (apply first_ok_ok in H; destruct H as [p' [Hin Hc]]; destruct (check T p' _) as [[]|] eqn:E in Hc;
         try discriminate; eexists p', _; repeat split; eassumption).
  apply conforms_union in Hv. destruct Hv as [a [Ha Hv]].
  pose proof (forall_res_ok _ _ H a Ha) as H1. cbn beta in H1.
  apply first_ok_ok in H1. destruct H1 as [p' [Hin Hc]].
  cbn [scalar_based] in Hs. rewrite forallb_forall in Hs.
  exists p', a. repeat split; auto.
Qed.

Theorem static_dynamic_check :
  forall t, c21_target_ok t = true -> honoured t.
Proof.
  induction t as [c|pa IHa|ps IHps|pa IHa|pk pv IHk IHv|fr pa IHa|ps IHps|pa IHa] using ty_nested_ind;
    intros Hok s v Hs H Hv Har; cbn [c21_target_ok] in Hok; cbn [check] in H; cbn [coerce].
  - apply orb_true_iff in Hok. destruct Hok as [Hany|Hc].
    + apply cls_eqb_eq in Hany. subst c. unfold coerce_basic, is_instance, is_subclass. apply fails_ok.
    + apply In_cls in Hc. eapply basic_nr; eassumption.
  - destruct (container_args T CList s) as [[args ell]|] eqn:Ec; [|discriminate].
    apply (seq_nr CList pa (IHa Hok) s v args ell); try assumption; [cbn; tauto|discriminate|].
    destruct args; [discriminate|exact H].
  - pose proof (tuple_items_sourced ps s v H Hs Hv) as Hsrc.
    destruct (container_args T CTuple s) as [[args ell]|] eqn:Ec; [|discriminate].
    destruct (source_items _ _ _ _ _ Ec Hs Hv) as [Hcoll [Hiter _]].
    assert (Forall honoured ps) as HP.
    { rewrite forallb_forall in Hok. rewrite Forall_forall in *. intros p Hp. apply IHps; auto. }
    destruct (arity_tuple ps v Hcoll Har) as [Hlen Hgo].
    pose proof (zip_nr _ _ HP Hsrc Hgo) as Hz.
    destruct (enter_static CTuple s v _ ltac:(cbn; tauto) Ec Hv) as [inst [He Hinst]].
    unfold coerce_tuple. rewrite He, Hiter.
    rewrite map_length, Hlen, Nat.eqb_refl. apply fails_bind; [exact Hz|intros l _].
    change (NotRejected (build CTuple v inst (Ok l))).
    rewrite build_ok; [apply fails_ok|cbn; tauto|exact Hinst|discriminate].
  - destruct (container_args T CTuple s) as [[args ell]|] eqn:Ec; [|discriminate].
    apply (seq_nr CTuple pa (IHa Hok) s v args ell); try assumption; [cbn; tauto|discriminate|].
    destruct (tuple_args T s (args, ell)) as [[args' ell']|] eqn:Eta; [|discriminate].
    (* the (a, ...) view checks pa against a alone, the other view against every argument: either way forall_res over args *)
    destruct (tuple_args_inv _ _ _ _ _ Ec Eta) as [-> [[-> [a ->]]|[-> _]]]; [cbn; now rewrite H|exact H].
  - apply andb_true_iff in Hok. destruct Hok as [Hok Hokv].
    apply andb_true_iff in Hok. destruct Hok as [Hokk Hhk].
    destruct (container_args T CDict s) as [[args ell]|] eqn:Ec; [|discriminate].
    destruct (container_args_inv _ _ _ _ Ec) as [Hb [Hu [Ht Hst]]].
    destruct args as [|k [|x [|? ?]]]; try discriminate.
    destruct s as [c|a|ts|a|k' x'|fr a|ts|a]; try discriminate; cbn in Ht; inversion Ht; subst.
    + (* a 2-tuple source cannot be coercible to a dict *)
      cbn [origin_of] in Hst. rewrite tc_dict_spec in Hst. discriminate.
    + destruct (check T pk k) as [[]|] eqn:Ek; [|discriminate].
      cbn [scalar_based] in Hs. apply andb_true_iff in Hs. destruct Hs as [Hsk Hsx].
      destruct Hv as [Hinst [g [kv [-> Hkv]]]]. cbn [arity_ok] in Har. rewrite forallb_forall in Har.
      unfold coerce_dict, enter. rewrite <- py_isinstance_is_instance, Hinst.
      apply fails_bind; [|intros; apply fails_ok].
      apply dict_res_nr. rewrite Forall_forall in *. intros [a b] Hp. destruct (Hkv _ Hp) as [Ha Hb']. cbn [fst snd] in Ha, Hb' |- *.
      specialize (Har _ Hp). cbn in Har. apply andb_true_iff in Har. destruct Har as [Ar1 Ar2].
      repeat split.
      * apply (IHk Hokk k a); auto.
      * intros y Hy. exact (hashable_out false pk a y Hhk Hy).
      * apply (IHv Hokv x b); auto.
  - apply andb_true_iff in Hok. destruct Hok as [Hok Hh].
    destruct (container_args T _ s) as [[args ell]|] eqn:Ec; [|discriminate].
    apply (seq_nr _ pa (IHa Hok) s v args ell); try assumption; [destruct fr; cbn; tauto|intros _; exact Hh|].
    destruct args; [discriminate|exact H].
  - destruct (check_union_inv ps s v H Hv Hs) as [p' [s' [Hin [Hc [Hv' Hs']]]]].
    apply first_ok_nr; [|intros; apply coerce_noother].
    exists p'. split; [exact Hin|].
    rewrite forallb_forall in Hok. rewrite Forall_forall in IHps.
    cbn [arity_ok] in Har. rewrite forallb_forall in Har.
    apply (IHps p' Hin (Hok p' Hin) s' v); auto.
  - (* MultiInputObj[pa], accepted as a sequence *)
    destruct (container_args T CMulti s) as [[args ell]|] eqn:Ec; [|discriminate].
    cbn [arity_ok] in Har. apply andb_true_iff in Har. destruct Har as [_ Har].
    destruct (items_nr pa (IHa Hok) _ _ _ _ _ Ec ltac:(destruct args; [discriminate|exact H]) Hs Hv Har)
      as [Hcoll [Hiter HF]].
    unfold coerce_multi. rewrite (vstr_not_coll v Hcoll), Hiter.
    pose proof (map_res_fails _ _ _ HF) as Hm.
    destruct (map_res _ (items_of v)) as [l|e]; [apply fails_ok|].
    (* the items are not rejected, so an exception of the item loop is EUnmodelled and propagates: the fallback to wrapping
       the whole value is not reached *)
    rewrite (Hm e eq_refl). now apply fails_err.
Qed.

Theorem static_dynamic :
  forall t s v, c21_target_ok t = true -> scalar_based s = true -> s <> TBase KAny ->
    check_type T t s = Ok tt -> conforms T s v -> arity_ok t v = true ->
    NotRejected (coerce T W false t v).
Proof.
  induction t as [| | | | | | |pa IHa]; intros s v Hok Hs Hna H Hv Har;
    cbn [check_type] in H; apply unless_any_ty in H; try exact Hna;
    (* only a MultiInputObj pattern has a fallback; for the others check_type is check *)
    apply check_or_fallback in H; destruct H as [H|[_ H]]; try discriminate H;
    try exact (static_dynamic_check _ Hok s v Hs H Hv Har).
  destruct (check_type T pa s) as [[]|] eqn:Ea; [|discriminate].
  cbn [c21_target_ok] in Hok. cbn [arity_ok] in Har. apply andb_true_iff in Har. destruct Har as [Har _].
  pose proof (IHa s v Hok Hs Hna Ea Hv Har) as Hn.
  cbn [coerce]. apply coerce_multi_fails; [exact Hn|].
  intros x [] He Hne; [congruence|destruct (coerce_noother _ _ _ _ He eq_refl)|reflexivity].
Qed.

End Static.
