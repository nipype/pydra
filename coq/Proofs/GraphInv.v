(* Proofs/GraphInv.v — the invariant kept by every DiGraph operation that returns:
   the recorded order (if any) is a permutation of the remaining nodes and places every node
   after each recorded predecessor that is still a node. *)
From Pydra Require Import Base.Prelude Model.Graph Proofs.GraphBase Proofs.GraphSort Proofs.ListFacts.
From Coq Require Import Sorting.Permutation.
Local Open Scope nat_scope.
Local Open Scope list_scope.

Definition pred_ok (ns : list node) (pd : dict) (s : list node) : Prop :=
  Permutation s ns /\ forall a b, In a ns -> In b ns -> inW pd b a -> before a b s.

Definition inv (g : graph) : Prop :=
  NoDup (g_nodes g) /\ NoDup (dkeys (g_preds g)) /\
  forall s, g_sorted g = Some s -> pred_ok (g_nodes g) (g_preds g) s.

Lemma sorting_sound g pres g' :
  sorting g pres = Ok g' ->
  let ns := if nonempty pres then pres else g_nodes g in
  exists l, g' = set_sorted g (Some l) /\ Permutation l ns /\
            forall a b, In a ns -> In b ns -> inW (g_preds g) b a -> before a b l.
Proof.
  intros H ns. unfold sorting in H. fold ns in H.
  apply bind_ok in H. destruct H as [w0 [Hrel H]].
  apply bind_ok in H. destruct H as [l [Hloop H]]. inversion H; subst g'. clear H.
  exists l. split; [reflexivity|].
  pose proof (release_tab (g_succs g) (g_wip g) (g_preds g)) as E. rewrite Hrel in E. destruct E as [_ E].
  destruct (sort_loop_sound _ _ _ _ _ _ Hloop) as [rest [E' [Hperm [Hbef Hs]]]].
  cbn in E'. subst rest. split; [exact Hperm|].
  intros a b Ha Hb Hw. apply inW_tab in Hw. apply Hbef; [exact Hb|exact Ha|].
  (* if successors[a] lists b, the run took a out of w0[b]; if not, releasing the marked nodes left w0[b] its a's *)
  destruct (tab (g_succs g) b a) eqn:T.
  - rewrite E, T in Hw. lia.
  - apply Hs; [exact Ha|lia].
Qed.

Lemma nonempty_perm (pres ns : list node) :
  Permutation pres ns -> Permutation (if nonempty pres then pres else ns) ns.
Proof.
  destruct pres; cbn; intros H; [|exact H]. apply Permutation_nil in H. subst. constructor.
Qed.

Lemma pred_ok_perm ns ns' pd s : Permutation ns ns' -> pred_ok ns pd s -> pred_ok ns' pd s.
Proof.
  intros P [Hp Hb]. split; [rewrite Hp; exact P|].
  intros a b Ha Hb'. apply Hb; (eapply Permutation_in; [symmetry; exact P|assumption]).
Qed.

Lemma sorting_inv g pres g' :
  NoDup (g_nodes g) -> NoDup (dkeys (g_preds g)) ->
  Permutation (if nonempty pres then pres else g_nodes g) (g_nodes g) ->
  sorting g pres = Ok g' -> inv g'.
Proof.
  intros Hnd Hk Hp H. destruct (sorting_sound g pres g' H) as [l [-> Hok]].
  split; [exact Hnd|]. split; [exact Hk|]. cbn. intros s E. inversion E; subst s. exact (pred_ok_perm _ _ _ _ Hp Hok).
Qed.

Lemma before_drop_prefix a b l s :
  before a b (l ++ s) -> ~ In a l -> before a b s.
Proof.
  intros [l1 [l2 [E [Ha Hb]]]] Hna. revert l1 E Ha. induction l as [|x l IH]; cbn; intros l1 E Ha.
  - exists l1, l2. auto.
  - destruct l1 as [|y l1]; [contradiction|]. cbn in E. inversion E; subst y.
    destruct Ha as [->|Ha]; [exfalso; apply Hna; left; reflexivity|].
    apply (IH (fun H => Hna (or_intror H)) l1); assumption.
Qed.

Lemma dkeys_empty (ns : list node) : dkeys (map (fun n => (n, @nil node)) ns) = ns.
Proof. unfold dkeys. rewrite map_map. cbn. apply map_id. Qed.

Lemma connect_all_dkeys es pd sd ps :
  connect_all es pd sd = Ok ps -> dkeys (fst ps) = dkeys pd /\ dkeys (snd ps) = dkeys sd.
Proof.
  unfold connect_all.
  apply (foldM_inv _ (fun ps => dkeys (fst ps) = dkeys pd /\ dkeys (snd ps) = dkeys sd)); [|auto].
  intros [p0 s0] e [p1 s1] [E1 E2] H. unfold connect in H. cbn [fst snd] in *.
  apply bind_ok in H. destruct H as [p [Hp H]]. apply bind_ok in H. destruct H as [s2 [Hs H]].
  inversion H; subst p s2. rewrite (dappend_dkeys _ _ _ _ Hp), (dappend_dkeys _ _ _ _ Hs). auto.
Qed.

Lemma check_dup_nodup (l : list node) : nonempty l && has_dup l = false -> NoDup l.
Proof.
  destruct l as [|x l]; cbn [nonempty andb]; intros H; [constructor|]. now apply has_dup_false.
Qed.

Lemma check_edges (ns : list node) (es : list edge) :
  nonempty es && negb (edges_in_nodes ns es) = false -> forall a b, In (a, b) es -> In a ns /\ In b ns.
Proof.
  destruct es as [|e es]; [intros _ a b []|]. cbn [nonempty andb]. intros H a b Hin.
  apply negb_false_iff in H. unfold edges_in_nodes in H. rewrite forallb_forall in H. specialize (H _ Hin). cbn in H.
  apply andb_true_iff in H. destruct H as [H1 H2]. split; apply memb_In; assumption.
Qed.

Lemma init_frame ns es g : init ns es = Ok g ->
  NoDup ns /\ (forall a b, In (a, b) es -> In a ns /\ In b ns) /\
  exists ps, connect_all es (map (fun n => (n, [])) ns) (map (fun n => (n, [])) ns) = Ok ps /\
             g = mkG ns es (fst ps) (snd ps) None [].
Proof.
  unfold init. destruct (nonempty ns && has_dup ns) eqn:Hd; [discriminate|].
  destruct (nonempty es && negb (edges_in_nodes ns es)) eqn:He; [discriminate|].
  intros H. apply bind_ok in H. destruct H as [ps [Hc H]]. inversion H.
  split; [apply check_dup_nodup, Hd|]. split; [apply check_edges, He|eauto].
Qed.

Lemma init_inv ns es g : init ns es = Ok g -> inv g.
Proof.
  intros H. destruct (init_frame _ _ _ H) as [Hd [_ [ps [Hc ->]]]].
  split; [exact Hd|]. split; [|cbn; discriminate]. cbn [g_preds].
  rewrite (proj1 (connect_all_dkeys _ _ _ _ Hc)), dkeys_empty. exact Hd.
Qed.

Lemma fold_dset_nodup new : forall d, NoDup (dkeys d) ->
  NoDup (dkeys (fold_left (fun d n => dset d n []) new d)).
Proof. induction new as [|n new IH]; cbn; intros d H; [exact H|]. apply IH, dset_nodup_keys, H. Qed.

Lemma add_nodes_inv g new g' : inv g -> add_nodes g new = Ok g' -> inv g'.
Proof.
  intros [Hnd [Hk Hs]]. unfold add_nodes.
  destruct (nonempty (g_nodes g ++ new) && has_dup (g_nodes g ++ new)) eqn:Hd; [discriminate|].
  apply check_dup_nodup in Hd.
  destruct (g_sorted g) as [s|] eqn:Hsorted.
  - apply sorting_inv; cbn.
    + exact Hd.
    + apply fold_dset_nodup, Hk.
    + apply nonempty_perm. apply Permutation_app_tail. exact (proj1 (Hs s eq_refl)).
  - intros H. inversion H; subst g'. split; [exact Hd|]. split; [apply fold_dset_nodup, Hk|].
    cbn. discriminate.
Qed.

Lemma add_edges_inv g new g' : inv g -> add_edges g new = Ok g' -> inv g'.
Proof.
  intros [Hnd [Hk Hs]]. unfold add_edges.
  destruct (nonempty (g_edges g ++ new) && negb (edges_in_nodes (g_nodes g) (g_edges g ++ new))); [discriminate|].
  intros H. apply bind_ok in H. destruct H as [ps [Hc H]].
  assert (Hk' : NoDup (dkeys (fst ps))) by (rewrite (proj1 (connect_all_dkeys _ _ _ _ Hc)); exact Hk).
  destruct (g_sorted g) as [s|] eqn:Hsorted.
  - revert H. apply sorting_inv; [exact Hnd|exact Hk'|]. apply nonempty_perm. exact (proj1 (Hs s eq_refl)).
  - inversion H; subst g'. split; [exact Hnd|]. split; [exact Hk'|]. cbn. discriminate.
Qed.

Lemma mark_removed_all c l : forall g g',
  foldM (mark_removed c) l g = Ok g' ->
  exists ns, Permutation (g_nodes g) (l ++ ns) /\
             g' = mkG ns (g_edges g) (g_preds g) (g_succs g) (g_sorted g) (g_wip g ++ l).
Proof.
  induction l as [|x l IH]; cbn [foldM]; intros g g' H.
  - inversion H; subst. exists (g_nodes g'). rewrite app_nil_r. split; [reflexivity|destruct g'; reflexivity].
  - apply bind_ok in H. destruct H as [g1 [H1 H]]. unfold mark_removed in H1.
    destruct (negb (memb x (g_nodes g))); [discriminate|].
    apply bind_ok in H1. destruct H1 as [p [_ H1]]. destruct (nonempty p && c); [discriminate|].
    apply bind_ok in H1. destruct H1 as [ns1 [Hr H1]]. apply of_opt_ok in Hr. inversion H1; subst g1. clear H1.
    destruct (IH _ _ H) as [ns [P ->]]. cbn in *. exists ns. rewrite <- app_assoc. split; [|reflexivity].
    rewrite (remove_one_perm Nat.eqb_eq _ _ _ Hr). constructor. exact P.
Qed.

Lemma remove_all_spec l s :
  match remove_all l s with
  | Ok s' => Permutation s (l ++ s')
  | Err _ => ~ (forall y, occ y l <= occ y s)
  end.
Proof. pose proof (remove_each_spec Nat.eqb_eq Nat.eq_dec (fun x => x) l s) as P. rewrite map_id in P. exact P. Qed.

Lemma remove_all_perm l s s' : remove_all l s = Ok s' -> Permutation s (l ++ s').
Proof. intros H. pose proof (remove_all_spec l s) as P. rewrite H in P. exact P. Qed.

Lemma finish_remove_uses g2 l s g' x : finish_remove g2 l s = Ok g' -> In x l -> In x s.
Proof.
  unfold finish_remove. destruct (list_eqb Nat.eqb l (firstn (List.length l) s)) eqn:E.
  - intros _ Hx. apply nat_list_eqb_eq in E. rewrite E in Hx. eapply firstn_In; eauto.
  - intros H Hx. apply bind_ok in H. destruct H as [s' [Hr _]]. apply remove_all_perm in Hr.
    eapply Permutation_in; [symmetry; exact Hr|apply in_or_app; auto].
Qed.

Lemma finish_remove_inv g2 l s g' :
  NoDup (l ++ g_nodes g2) -> NoDup (dkeys (g_preds g2)) ->
  pred_ok (l ++ g_nodes g2) (g_preds g2) s ->
  finish_remove g2 l s = Ok g' -> inv g'.
Proof.
  intros Hnd Hk Hok. unfold finish_remove.
  destruct (list_eqb Nat.eqb l (firstn (List.length l) s)) eqn:E.
  - intros H. inversion H; subst g'. clear H. apply nat_list_eqb_eq in E.
    assert (Es : s = l ++ skipn (List.length l) s) by (rewrite E at 1; symmetry; apply firstn_skipn).
    split; [eapply NoDup_app_r; eauto|]. split; [exact Hk|]. cbn. intros s0 E0. inversion E0; subst s0.
    destruct Hok as [Hperm Hbef]. split; [eapply Permutation_app_inv_l; rewrite <- Es; exact Hperm|].
    intros a b Ha Hb Hw. apply (before_drop_prefix a b l).
    + rewrite <- Es. apply Hbef; [apply in_or_app; auto..|exact Hw].
    + intros Hl. eapply NoDup_app_disj; eauto.
  - intros H. apply bind_ok in H. destruct H as [s' [Hr H]]. apply remove_all_perm in Hr.
    revert H. apply sorting_inv; cbn.
    + eapply NoDup_app_r; eauto.
    + exact Hk.
    + apply nonempty_perm. eapply Permutation_app_inv_l. rewrite <- Hr. exact (proj1 Hok).
Qed.

Lemma remove_nodes_inv g l c g' : inv g -> remove_nodes g l c = Ok g' -> inv g'.
Proof.
  intros [Hnd [Hk Hs]]. unfold remove_nodes. intros H.
  apply bind_ok in H. destruct H as [g1 [Hm H]].
  destruct (mark_removed_all _ _ _ _ Hm) as [ns1 [Pn ->]]. cbn [g_sorted] in H.
  assert (Hnd1 : NoDup (l ++ ns1)) by (eapply Permutation_NoDup; eauto).
  destruct (g_sorted g) as [s|].
  - revert H. apply finish_remove_inv; cbn; [exact Hnd1|exact Hk|]. exact (pred_ok_perm _ _ _ _ Pn (Hs s eq_refl)).
  - inversion H; subst g'. split; [eapply NoDup_app_r; eauto|]. split; [exact Hk|]. cbn. discriminate.
Qed.

(* [fwd = true]: remove_connections_one, l is successors[nd]; [fwd = false]: remove_previous_one, l is predecessors[nd] *)
Lemma pop_frame (fwd : bool) g nd g' :
  (if fwd then remove_connections_one else remove_previous_one) g nd = Ok g' -> NoDup (dkeys (g_preds g)) ->
  exists l,
    g_nodes g' = g_nodes g /\ g_sorted g' = g_sorted g /\ remove_one Nat.eqb nd (g_wip g) = Some (g_wip g') /\
    Permutation (g_edges g) (map (fun k => if fwd then (nd, k) else (k, nd)) l ++ g_edges g') /\
    NoDup (dkeys (g_preds g')) /\ (forall x, In x (dkeys (g_preds g')) <-> x <> nd /\ In x (dkeys (g_preds g))) /\
    (forall a b, b <> nd -> tab (g_preds g) a b = tab (g_preds g') a b + (if fwd && Nat.eqb a nd then occ b l else 0)).
Proof.
  intros H NP.
  (* both operations are the same five binds: read l, run the pair loop, pop successors, pop predecessors, drop nd from _node_wip *)
  destruct fwd; [unfold remove_connections_one in H|unfold remove_previous_one in H]; unfold pop_node in H;
    apply bind_ok in H; destruct H as [l [_ H]]; apply bind_ok in H; destruct H as [[D1 es'] [Hf H]]; cbn [fst snd] in H;
    apply bind_ok in H; destruct H as [sd' [Hs H]]; apply bind_ok in H; destruct H as [pd' [Hp H]];
    apply bind_ok in H; destruct H as [wip' [Hw H]]; apply of_opt_ok in Hp, Hw; injection H as <-; clear Hs;
    exists l; cbn [g_nodes g_sorted g_wip g_edges g_preds andb]; do 2 (split; [reflexivity|]); (split; [exact Hw|]).
  - apply (foldM_unpair (fun w k => dremove w k nd) (fun s k => of_opt ERemove (remove_one edge_eqb (nd, k) s))) in Hf;
      [|reflexivity]. destruct Hf as [F1 F2].
    pose proof (remove_each_spec edge_eqb_eq (eqb_dec edge_eqb_eq) (fun k => (nd, k)) l (g_edges g)) as P. cbv beta in P. rewrite F2 in P.
    split; [exact P|]. pose proof (release_list_tab nd l (g_preds g)) as R. rewrite F1 in R. destruct R as [K E].
    destruct (dpop_tab _ _ _ Hp) as [N [T I]]; [rewrite K; exact NP|]. rewrite K in I. split; [exact N|]. split; [exact I|].
    intros a b Hb. rewrite T, E. apply Nat.eqb_neq in Hb. rewrite Hb.
    destruct (Nat.eqb_spec a nd), (Nat.eq_dec nd a); congruence.
  - apply (foldM_unpair (fun w k => if memb k (dkeys w) then dremove w k nd else Ok w)
             (fun s k => of_opt ERemove (remove_one edge_eqb (k, nd) s))) in Hf; [|reflexivity]. destruct Hf as [_ F2].
    pose proof (remove_each_spec edge_eqb_eq (eqb_dec edge_eqb_eq) (fun k => (k, nd)) l (g_edges g)) as P. cbv beta in P. rewrite F2 in P.
    split; [exact P|]. destruct (dpop_tab _ _ _ Hp NP) as [N [T I]]. split; [exact N|]. split; [exact I|].
    intros a b Hb. rewrite T. apply Nat.eqb_neq in Hb. rewrite Hb. lia.
Qed.

Lemma inv_le_preds g g' :
  inv g -> g_nodes g' = g_nodes g -> g_sorted g' = g_sorted g ->
  (forall a b, tab (g_preds g') a b <= tab (g_preds g) a b) -> NoDup (dkeys (g_preds g')) -> inv g'.
Proof.
  intros [Hnd [Hk Hs]] En Es Hle Hk'. split; [rewrite En; exact Hnd|]. split; [exact Hk'|].
  rewrite En, Es. intros s E. destruct (Hs s E) as [Hp Hb]. split; [exact Hp|].
  intros a b Ha Hb' Hw. apply Hb; auto. apply inW_tab. apply inW_tab in Hw. specialize (Hle a b). lia.
Qed.

Lemma pop_inv (fwd : bool) g nd g' :
  inv g -> (if fwd then remove_connections_one else remove_previous_one) g nd = Ok g' -> inv g'.
Proof.
  intros Hi H. destruct (pop_frame fwd g nd g' H (proj1 (proj2 Hi))) as (l & En & Es & _ & _ & N & I & T).
  apply (inv_le_preds g); auto. intros a b. destruct (Nat.eq_dec b nd) as [->|Hb]; [|rewrite (T a b Hb); lia].
  rewrite tab_nokey; [lia|]. intros Hk. apply I in Hk. destruct Hk as [Hk _]. congruence.
Qed.

Lemma remove_nodes_connections_inv g l g' : inv g -> remove_nodes_connections g l = Ok g' -> inv g'.
Proof. exact (foldM_inv remove_connections_one inv (pop_inv true) l g g'). Qed.

Lemma remove_previous_connections_inv g l g' : inv g -> remove_previous_connections g l = Ok g' -> inv g'.
Proof. exact (foldM_inv remove_previous_one inv (pop_inv false) l g g'). Qed.

Lemma remove_successors_nodes_keeps (P : graph -> Prop) :
  (forall g l g', P g -> remove_nodes_connections g l = Ok g' -> P g') ->
  (forall g l c g', P g -> remove_nodes g l c = Ok g' -> P g') ->
  (forall g l g', P g -> remove_previous_connections g l = Ok g' -> P g') ->
  forall g n g', P g -> remove_successors_nodes g n = Ok g' -> P g'.
Proof.
  intros Hc Hn Hp g n g' Hi H. unfold remove_successors_nodes in H.
  apply bind_ok in H. destruct H as [all [_ H]]. apply bind_ok in H. destruct H as [g1 [H1 H]].
  apply bind_ok in H. destruct H as [g2 [H2 H]].
  assert (P1 : P g1) by exact (Hc _ _ _ Hi H1).
  assert (P2 : P g2) by exact (foldM_inv _ P (fun g nd => Hn g [nd] false) _ _ _ P1 H2).
  exact (foldM_inv _ P (fun g nd => Hp g [nd]) _ _ _ P2 H).
Qed.

Lemma sorted_nodes_inv g g' s : inv g -> sorted_nodes g = Ok (g', s) -> inv g'.
Proof.
  unfold sorted_nodes. intros Hi. destruct (g_sorted g) eqn:E.
  - intros H. inversion H; subst. exact Hi.
  - intros H. apply bind_ok in H. destruct H as [g1 [H1 H]]. inversion H; subst g'.
    destruct Hi as [Hnd [Hk _]]. exact (sorting_inv g [] g1 Hnd Hk (Permutation_refl _) H1).
Qed.

Lemma copy_graph_inv g : inv g -> inv (copy_graph g).
Proof.
  intros Hi. unfold copy_graph. destruct (g_sorted g) as [[|x s]|]; try exact Hi.
  destruct Hi as [Hnd [Hk _]]. split; [exact Hnd|]. split; [exact Hk|]. cbn. discriminate.
Qed.

Lemma step_inv g o g' : inv g -> step g o = Ok g' -> inv g'.
Proof.
  intros Hi. destruct o; cbn.
  - apply add_nodes_inv, Hi.
  - apply add_edges_inv, Hi.
  - apply remove_nodes_inv, Hi.
  - apply remove_nodes_connections_inv, Hi.
  - apply remove_previous_connections_inv, Hi.
  - exact (remove_successors_nodes_keeps inv remove_nodes_connections_inv remove_nodes_inv
             remove_previous_connections_inv g n g' Hi).
  - destruct Hi as [Hnd [Hk _]]. exact (sorting_inv g [] g' Hnd Hk (Permutation_refl _)).
  - intros H. apply bind_ok in H. destruct H as [[g1 s] [H1 H]]. inversion H; subst g'.
    eapply sorted_nodes_inv; eauto.
  - intros H. inversion H; subst. apply copy_graph_inv, Hi.
Qed.

Lemma run_inv g ops g' : inv g -> run g ops = Ok g' -> inv g'.
Proof. exact (foldM_inv step inv step_inv ops g g'). Qed.
