(* Proofs/Mount.v — mount lookup (C38).  parse_mount_table sorts the entries by the length of the mount point,
   longest first, and filtering keeps that order; so the first entry whose components are a prefix of the path's
   is a longest one. *)
From Pydra Require Import Base.Prelude Base.PyPath Model.Mount Spec.Mount Proofs.ListFacts.
From Coq Require Import Sorting.Sorted.
Local Open Scope string_scope.

Lemma comp_prefixb_spec m p : comp_prefixb m p = true <-> comp_prefix m p.
Proof.
  unfold comp_prefixb, comp_prefix. rewrite rel_to_spec. split; intros [H1 H2]; split; auto.
Qed.

Definition len_desc (t : table) : Prop :=
  StronglySorted (fun a b => String.length (fst b) <= String.length (fst a)) t.

Lemma insert_len_In e l x : In x (insert_len e l) -> x = e \/ In x l.
Proof.
  induction l as [|y l IH]; cbn [insert_len].
  - intros [<-|[]]. now left.
  - destruct (Nat.leb (String.length (fst y)) (String.length (fst e))).
    + intros [<-|H]; [now left|now right].
    + intros [<-|H]; [right; now left|]. destruct (IH H); [now left|right; now right].
Qed.

Lemma insert_len_sorted e l : len_desc l -> len_desc (insert_len e l).
Proof.
  unfold len_desc. induction 1 as [|y l Hs IH Hall]; cbn [insert_len].
  - constructor; constructor.
  - destruct (Nat.leb_spec (String.length (fst y)) (String.length (fst e))) as [Hlt|Hge].
    + constructor; [constructor; assumption|].
      constructor; [lia|]. rewrite Forall_forall in *. intros z Hz. specialize (Hall z Hz). lia.
    + constructor; [exact IH|]. rewrite Forall_forall in *. intros z Hz.
      apply insert_len_In in Hz. destruct Hz as [->|Hz]; [lia|auto].
Qed.

Lemma sort_len_sorted l : len_desc (sort_len l).
Proof. induction l as [|e l IH]; cbn; [constructor|apply insert_len_sorted, IH]. Qed.

Lemma sort_len_In l x : In x (sort_len l) -> In x l.
Proof.
  induction l as [|e l IH]; cbn; [tauto|]. intros H. apply insert_len_In in H. destruct H as [->|H]; [now left|right; now apply IH].
Qed.

Lemma parse_table_sorted m : len_desc (parse_table m).
Proof. unfold parse_table. apply StronglySorted_filter, sort_len_sorted. Qed.

Lemma parse_table_subset m e : In e (parse_table m) -> In e m.
Proof. unfold parse_table. intros H. apply filter_In in H. apply sort_len_In, H. Qed.

Lemma find_longest t path :
  len_desc t -> is_mount_of t path (find (matches_entry path) t).
Proof.
  unfold len_desc. induction 1 as [|x l Hs IH Hall]; cbn.
  - intros e' [].
  - unfold matches_entry at 1. fold (comp_prefixb (fst x) path).
    destruct (comp_prefixb (fst x) path) eqn:E.
    + cbn. split; [now left|]. split; [now apply comp_prefixb_spec|].
      intros e' [<-|Hin] _; [lia|]. rewrite Forall_forall in Hall. apply Hall, Hin.
    + fold (matches_entry path). destruct (find (matches_entry path) l) as [e|] eqn:F; cbn in *.
      * destruct IH as (Hin & Hp & Hmax). split; [now right|]. split; [exact Hp|].
        intros e' [<-|Hin'] Hc; [apply comp_prefixb_spec in Hc; congruence| now apply Hmax].
      * intros e' [<-|Hin'] Hc; [apply comp_prefixb_spec in Hc; congruence| now apply (IH e')].
Qed.

Lemma get_mount_find t path :
  get_mount t path = match find (matches_entry path) t with
                     | Some e => (str_of (render (parse (la_of (fst e)))), snd e)
                     | None => default_mount end.
Proof. reflexivity. Qed.

(* siblings sharing a string prefix are never confused: /data is not the mount of /data2/x *)
Lemma sibling_not_component_prefix :
  comp_prefixb "/data" "/data2/x" = false /\ comp_prefixb "/data" "/data/x" = true.
Proof. split; vm_compute; reflexivity. Qed.

Example nonvacuous :
  let t := parse_table [("/data", "cifs"); ("/data/sub", "ext4"); ("/data2", "cifs"); ("/", "ext4")] in
  get_mount t "/data/sub/f" = ("/data/sub", "ext4") /\
  get_mount t "/data2/x" = ("/data2", "cifs") /\
  get_mount t "/data22" = ("/", "ext4") /\ len_desc t /\ List.length t = 3.
Proof.
  intros t. assert (S : len_desc t) by apply parse_table_sorted.
  vm_compute in (value of t). repeat split; try (vm_compute; reflexivity). exact S.
Qed.
