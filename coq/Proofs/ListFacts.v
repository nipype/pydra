(* Proofs/ListFacts.v — facts about the standard list functions and boolean tests that the library lacks, stated
   without reference to any model: tests read as propositions, what an equality test gives, filter, flat_map, lengths, Forall2, NoDup
   under map and append; lists ordered by a relation; lists ordered by a key into Z, insertion into them, uniqueness
   of the ordered permutation when the keys are distinct. *)
From Pydra Require Import Base.Prelude.
From Coq Require Import Sorting.Sorted Sorting.Permutation.

Lemma andb_iff (a b : bool) (A B : Prop) : (a = true <-> A) -> (b = true <-> B) -> (a && b = true <-> A /\ B).
Proof. intros <- <-. apply andb_true_iff. Qed.

Lemma negb_iff (b : bool) (P : Prop) : (b = true <-> P) -> (negb b = true <-> ~ P).
Proof. intros <-. destruct b; split; [discriminate|intros []|congruence|]; reflexivity. Qed.

(* Prelude.pair_eqb unfolded, so that it also applies where a model writes the conjunction out (Model.DictRT.kv_eqb) *)
Lemma pair_eqb_ok {A B} {ea : A -> A -> bool} {eb : B -> B -> bool} :
  (forall x y, ea x y = true <-> x = y) -> (forall x y, eb x y = true <-> x = y) ->
  forall p q : A * B, ea (fst p) (fst q) && eb (snd p) (snd q) = true <-> p = q.
Proof.
  intros Ha Hb [a b] [a' b']. cbn [fst snd]. rewrite andb_true_iff, Ha, Hb.
  split; [intros [-> ->]; reflexivity| intros [= -> ->]; auto].
Qed.

Lemma forallb_iff {A} (p : A -> bool) (P : A -> Prop) l :
  (forall x, In x l -> (p x = true <-> P x)) -> (forallb p l = true <-> forall x, In x l -> P x).
Proof. intros H. rewrite forallb_forall. split; intros HA x Hx; apply (H x Hx), HA, Hx. Qed.

Lemma forallb_Forall {A} {p : A -> bool} {P : A -> Prop} (H : forall x, p x = true <-> P x) l :
  forallb p l = true <-> Forall P l.
Proof. rewrite Forall_forall. apply forallb_iff. intros x _. apply H. Qed.

(* What follows from "eqb decides equality", for any such test.  The models write their duplicate tests out at their own
   equality (Model.Rules.nodupb, Spec.Audit.nodupb, Model.StateWf.nodupk, ...); each is convertible to nodupb_of at that
   equality, so that nodupb_of_NoDup, given the equality's own lemma, is the fact about the model's function as it stands. *)
Section EqTest.
Context {A : Type} (eqb : A -> A -> bool) (eqb_eq : forall x y, eqb x y = true <-> x = y).

Lemma eqtest_neq x y : eqb x y = false <-> x <> y.
Proof. rewrite <- eqb_eq. now destruct (eqb x y). Qed.

Lemma option_eqb_spec a b : option_eqb eqb a b = true <-> a = b.
Proof. destruct a, b; cbn; try (split; congruence). rewrite eqb_eq. split; congruence. Qed.

Lemma existsb_eqb_In x l : existsb (eqb x) l = true <-> In x l.
Proof.
  rewrite existsb_exists. split.
  - intros [y [Hy E]]. apply eqb_eq in E. now subst.
  - intros Hx. exists x. split; [exact Hx|now apply eqb_eq].
Qed.

Lemma existsb_eqb_notIn x l : existsb (eqb x) l = false <-> ~ In x l.
Proof. rewrite <- not_true_iff_false, existsb_eqb_In. reflexivity. Qed.

Fixpoint nodupb_of (l : list A) : bool :=
  match l with [] => true | x :: r => negb (existsb (eqb x) r) && nodupb_of r end.

Lemma nodupb_of_NoDup l : nodupb_of l = true <-> NoDup l.
Proof.
  induction l as [|x l IH]; cbn [nodupb_of]; [split; [constructor|reflexivity]|].
  rewrite NoDup_cons_iff. apply andb_iff; [apply negb_iff, existsb_eqb_In|exact IH].
Qed.

(* the same test as the models that report a duplicate write it (Model.State.has_dup, Model.Shell.has_dup,
   Model.Graph.has_dup) *)
Fixpoint has_dup_of (l : list A) : bool :=
  match l with [] => false | x :: r => existsb (eqb x) r || has_dup_of r end.

Lemma has_dup_of_false l : has_dup_of l = false <-> NoDup l.
Proof.
  induction l as [|x l IH]; cbn [has_dup_of]; [split; [constructor|reflexivity]|].
  now rewrite NoDup_cons_iff, orb_false_iff, existsb_eqb_notIn, IH.
Qed.
End EqTest.

Lemma existsb_false_In {A} (f : A -> bool) l : existsb f l = false <-> forall x, In x l -> f x = false.
Proof.
  induction l as [|y l IH]; cbn; [split; [intros _ x []|reflexivity]|].
  rewrite orb_false_iff, IH. split; [intros [H1 H2] x [<-|Hx]; auto|intros H; split; auto].
Qed.

Lemma existsb_false_at {A} {f : A -> bool} {l x} : existsb f l = false -> In x l -> f x = false.
Proof. intros H. apply (existsb_false_In f l), H. Qed.

Lemma filter_nil {A} (p : A -> bool) l : (forall x, In x l -> p x = false) -> filter p l = [].
Proof.
  induction l as [|x l IH]; intros H; [reflexivity|]. cbn [filter].
  rewrite (H x (or_introl eq_refl)). apply IH. intros y Hy. apply H. now right.
Qed.

Lemma filter_all {A} (p : A -> bool) l : (forall x, In x l -> p x = true) -> filter p l = l.
Proof.
  induction l as [|x l IH]; intros H; [reflexivity|]. cbn [filter].
  rewrite (H x (or_introl eq_refl)). f_equal. apply IH. intros y Hy. apply H. now right.
Qed.

Lemma StronglySorted_filter {A} (R : A -> A -> Prop) p l : StronglySorted R l -> StronglySorted R (filter p l).
Proof.
  induction 1 as [|x l S IH F]; cbn; [constructor|].
  destruct (p x); [|exact IH]. constructor; [exact IH|].
  rewrite Forall_forall in *. intros y Hy. apply filter_In in Hy as [Hy _]. auto.
Qed.

Lemma flat_map_nil {A B} (f : A -> list B) l :
  flat_map f l = [] <-> forall x, In x l -> f x = [].
Proof. rewrite flat_map_concat_map, concat_nil_Forall, Forall_map, Forall_forall. reflexivity. Qed.

Lemma flat_map_ext_in {A B} (f g : A -> list B) l : (forall x, In x l -> f x = g x) -> flat_map f l = flat_map g l.
Proof.
  induction l as [|a l IH]; intros H; [reflexivity|]. cbn. rewrite (H a (or_introl eq_refl)), IH; [reflexivity|].
  intros x Hx. apply H. now right.
Qed.

Lemma flat_map_flat_map {A B C} (f : A -> list B) (g : B -> list C) l :
  flat_map g (flat_map f l) = flat_map (fun x => flat_map g (f x)) l.
Proof. induction l as [|x l IH]; [reflexivity|]. cbn [flat_map]. now rewrite flat_map_app, IH. Qed.

Lemma map_flat_map {A B C} (f : A -> list B) (h : B -> C) l :
  map h (flat_map f l) = flat_map (fun x => map h (f x)) l.
Proof. rewrite !flat_map_concat_map, concat_map, map_map. reflexivity. Qed.

Lemma flat_map_map {A B C} (g : A -> B) (f : B -> list C) l :
  flat_map f (map g l) = flat_map (fun x => f (g x)) l.
Proof. rewrite !flat_map_concat_map, map_map. reflexivity. Qed.

Lemma map_nth_seq {A} (l : list A) d : map (fun i => nth i l d) (seq 0 (List.length l)) = l.
Proof.
  induction l as [|x l IH]; [reflexivity|]. cbn [List.length seq map nth]. f_equal.
  rewrite <- seq_shift, map_map. exact IH.
Qed.

Lemma firstn_In {A} n (l : list A) x : In x (firstn n l) -> In x l.
Proof. intros H. rewrite <- (firstn_skipn n l). apply in_or_app. now left. Qed.

Lemma app_eq_len {A} (x x' y y' : list A) :
  x ++ y = x' ++ y' -> List.length x = List.length x' -> x = x' /\ y = y'.
Proof.
  revert x'. induction x as [|h x IH]; intros [|h' x'] E L; cbn in *; try discriminate; [auto|].
  injection E as -> E. injection L as L. destruct (IH x' E L) as [-> ->]. auto.
Qed.

Lemma Forall2_length {A B} (R : A -> B -> Prop) l1 l2 : Forall2 R l1 l2 -> List.length l1 = List.length l2.
Proof. induction 1; cbn; congruence. Qed.

Lemma Forall2_map {A B A' B'} {f : A -> A'} {g : B -> B'} {R : A -> B -> Prop} {S : A' -> B' -> Prop} {l l'} :
  Forall2 R l l' -> (forall a b, R a b -> S (f a) (g b)) -> Forall2 S (map f l) (map g l').
Proof. intros HR H. induction HR; cbn [map]; constructor; auto. Qed.

Lemma length_le1 {A} (l : list A) : NoDup l ->
  (List.length l <= 1 <-> forall a b, In a l -> In b l -> a = b).
Proof.
  intros ND. destruct l as [|x [|y l]]; cbn [List.length].
  - split; [intros _ a b []|lia].
  - split; [intros _ a b [<-|[]] [<-|[]]; reflexivity|lia].
  - split; [lia|]. intros H. inversion ND as [|? ? Hx _]. destruct Hx. left. apply H; cbn; auto.
Qed.

Lemma length_ge1 {A} (l : list A) : 1 <= List.length l <-> exists a, In a l.
Proof.
  destruct l as [|x l]; cbn; split; try lia.
  - intros [a []].
  - intros _. exists x. now left.
Qed.

Lemma NoDup_map_inj {A B} (f : A -> B) l a b :
  NoDup (map f l) -> In a l -> In b l -> f a = f b -> a = b.
Proof.
  induction l as [|x l IH]; cbn; [intros _ []|].
  intros ND Ha Hb E. inversion ND as [|? ? Hx ND']; subst.
  destruct Ha as [<-|Ha], Hb as [<-|Hb]; auto.
  - exfalso. apply Hx. rewrite E. now apply in_map.
  - exfalso. apply Hx. rewrite <- E. now apply in_map.
Qed.

Lemma NoDup_map_filter {A B} (f : A -> B) p l : NoDup (map f l) -> NoDup (map f (filter p l)).
Proof.
  induction l as [|x l IH]; cbn [map filter]; intros ND; [constructor|].
  inversion ND as [|? ? Hx ND']; subst. destruct (p x); cbn [map]; [constructor|]; auto.
  intros I. apply Hx. apply in_map_iff in I as [y [E Hy]]. apply filter_In in Hy as [Hy _].
  rewrite <- E. now apply in_map.
Qed.

Lemma NoDup_app_intro {A} (a b : list A) :
  NoDup a -> NoDup b -> (forall x, In x a -> ~ In x b) -> NoDup (a ++ b).
Proof.
  induction 1 as [|x a Hx _ IH]; intros Hb D; [exact Hb|]. cbn. constructor.
  - rewrite in_app_iff. intros [H|H]; [contradiction|]. exact (D x (or_introl eq_refl) H).
  - apply IH; [exact Hb|]. intros y Hy. apply D. now right.
Qed.

Lemma NoDup_app_elim {A} (a b : list A) :
  NoDup (a ++ b) -> NoDup a /\ NoDup b /\ forall x, In x a -> ~ In x b.
Proof.
  induction a as [|h a IH]; cbn [app]; intros N; [split; [constructor| split; [exact N| intros ? []]]|].
  inversion N as [|? ? Hh N']; subst. destruct (IH N') as (N1 & N2 & D). split; [|split; [exact N2|]].
  - constructor; [intros H; apply Hh, in_or_app; now left| exact N1].
  - intros x [<-|Hx]; [intros H; apply Hh, in_or_app; now right| apply D, Hx].
Qed.

Lemma NoDup_app_l {A} (a b : list A) : NoDup (a ++ b) -> NoDup a.
Proof. intros N. apply (NoDup_app_elim a b N). Qed.

Lemma NoDup_app_r {A} (a b : list A) : NoDup (a ++ b) -> NoDup b.
Proof. intros N. apply (NoDup_app_elim a b N). Qed.

Lemma NoDup_app_disj {A} (a b : list A) x : NoDup (a ++ b) -> In x a -> In x b -> False.
Proof. intros N. apply (NoDup_app_elim a b N). Qed.

Lemma NoDup_snoc {A} (l : list A) x : NoDup l -> ~ In x l -> NoDup (l ++ [x]).
Proof.
  intros N H. apply NoDup_app_intro; [exact N|repeat constructor; intros []|].
  intros y Hy [<-|[]]. exact (H Hy).
Qed.

Section Sorted.
Context {B : Type} (R : B -> B -> Prop).

Lemma SSorted_app u v : StronglySorted R (u ++ v) <->
  StronglySorted R u /\ StronglySorted R v /\ (forall a b, In a u -> In b v -> R a b).
Proof.
  induction u as [|x u IH]; cbn.
  - split; [intros S; repeat split; [constructor|exact S|intros ? ? []]|tauto].
  - split.
    + intros S. inversion S as [|? ? S' F]; subst. apply IH in S' as (Su & Sv & H). apply Forall_app in F as [Fu Fv].
      repeat split; [now constructor|exact Sv|]. intros a b [<-|Ha] Hb; [|now apply H]. rewrite Forall_forall in Fv. now apply Fv.
    + intros (Su & Sv & H). inversion Su as [|? ? Su' F]; subst. constructor; [apply IH; repeat split; auto|].
      apply Forall_app. split; [exact F|]. apply Forall_forall. intros b Hb. apply H; [now left|exact Hb].
Qed.

Lemma sorted_perm_unique : forall l1 l2,
  (forall x y, In x l1 -> In y l1 -> R x y -> R y x -> x = y) ->
  StronglySorted R l1 -> StronglySorted R l2 -> Permutation l1 l2 -> l1 = l2.
Proof.
  induction l1 as [|x l1 IH]; intros l2 AS S1 S2 P.
  - apply Permutation_nil in P. now subst.
  - destruct l2 as [|y l2]; [apply Permutation_sym, Permutation_nil in P; discriminate|].
    inversion S1 as [|? ? S1' F1]; inversion S2 as [|? ? S2' F2]; subst.
    assert (x = y).
    { assert (Ix : In x (y :: l2)) by (eapply Permutation_in; [exact P|now left]).
      assert (Iy : In y (x :: l1)) by (eapply Permutation_in; [apply Permutation_sym; exact P|now left]).
      destruct Ix as [->|Ix]; [reflexivity|]. destruct Iy as [->|Iy]; [reflexivity|].
      rewrite Forall_forall in F1, F2. apply AS; [now left|now right|auto|auto]. }
    subst y. f_equal. apply IH; auto; [|eapply Permutation_cons_inv; exact P].
    intros a b Ha Hb. apply AS; now right.
Qed.
End Sorted.

Local Open Scope Z_scope.

Section Ordered.
Context {B : Type} (key : B -> Z).
(* Ordered by key, ties allowed: what an insertion sort produces whatever it is given.  That the keys are distinct is
   asked only where it matters, for the uniqueness of the ordered permutation. *)
Definition kle (a b : B) : Prop := key a <= key b.
Definition kordered : list B -> Prop := StronglySorted kle.

Lemma ordered_perm_unique : forall l1 l2,
  kordered l1 -> kordered l2 -> NoDup (map key l1) -> Permutation l1 l2 -> l1 = l2.
Proof.
  intros l1 l2 S1 S2 N. apply (sorted_perm_unique kle); [|exact S1|exact S2].
  intros x y Hx Hy L1 L2. apply (NoDup_map_inj key l1); [exact N|exact Hx|exact Hy|apply Z.le_antisymm; assumption].
Qed.

Lemma kordered_app l1 l2 :
  kordered l1 -> kordered l2 -> (forall a b, In a l1 -> In b l2 -> key a <= key b) -> kordered (l1 ++ l2).
Proof. intros S1 S2 H. apply (SSorted_app kle). auto. Qed.

Lemma kordered_of_keys l : StronglySorted Z.le (map key l) -> kordered l.
Proof.
  induction l as [|x l IH]; cbn; intros H; [constructor|]. inversion H as [|? ? H2 H3]; subst. constructor; [apply IH, H2|].
  apply Forall_forall. intros y Hy. rewrite Forall_forall in H3. apply H3. now apply in_map.
Qed.
End Ordered.

(* Insertion before the first greater key (bisect.insort), for any function with these two equations *)
Section Insertion.
Context {B : Type} (key : B -> Z) (ins : B -> list B -> list B).
Hypothesis ins_nil : forall x, ins x [] = [x].
Hypothesis ins_cons : forall x y l, ins x (y :: l) = if key x <? key y then x :: y :: l else y :: ins x l.

Lemma ins_perm x l : Permutation (ins x l) (x :: l).
Proof.
  induction l as [|y l IH]; [now rewrite ins_nil|]. rewrite ins_cons.
  destruct (key x <? key y); [reflexivity|]. rewrite IH. apply perm_swap.
Qed.

Lemma ins_ordered x l : kordered key l -> kordered key (ins x l).
Proof.
  induction 1 as [|y l S IH F]; [rewrite ins_nil; repeat constructor|]. rewrite ins_cons.
  destruct (key x <? key y) eqn:E.
  - apply Z.ltb_lt in E. constructor; [now constructor|]. constructor; [unfold kle; lia|].
    eapply Forall_impl; [|exact F]. unfold kle. intros b Hb. lia.
  - apply Z.ltb_ge in E. constructor; [exact IH|].
    rewrite Forall_forall in *. intros b Hb.
    eapply Permutation_in in Hb; [|apply ins_perm]. destruct Hb as [<-|Hb]; [exact E|auto].
Qed.

Lemma ins_fold : forall I acc, kordered key acc ->
  let r := fold_left (fun acc i => ins i acc) I acc in kordered key r /\ Permutation r (acc ++ I).
Proof.
  induction I as [|i I IH]; intros acc S; cbn; [split; [exact S|now rewrite app_nil_r]|].
  destruct (IH _ (ins_ordered i acc S)) as [S' P']. split; [exact S'|].
  rewrite P', (ins_perm i acc). apply Permutation_middle.
Qed.

Lemma ins_fold_unique I L :
  NoDup (map key I) -> kordered key L -> Permutation L I -> fold_left (fun acc i => ins i acc) I [] = L.
Proof.
  intros N S P. destruct (ins_fold I [] (SSorted_nil _)) as [S' P']. cbn [app] in P'.
  apply ordered_perm_unique with (key := key); [exact S'|exact S| |now rewrite P'].
  now rewrite (Permutation_map key P').
Qed.
End Insertion.
