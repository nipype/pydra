(* Proofs/SchedE.v — the part of the loop invariant that speaks of futures, results and the event log, kept by a
   launch and by a completion. *)
From Pydra Require Import Base.Prelude Base.SchedBase Model.Sched Spec.Sched Proofs.SchedA Proofs.SchedC Proofs.SchedD Proofs.ListFacts.
Local Open Scope nat_scope.

Lemma remove_nth_length {A} (l : list A) i : i < List.length l -> S (List.length (remove_nth i l)) = List.length l.
Proof.
  revert i. induction l as [|x l IH]; intros i; cbn; [lia|].
  destruct i; [reflexivity|]. intros H. cbn. rewrite IH; [reflexivity|lia].
Qed.
Lemma remove_nth_In {A} (x : A) l i : In x (remove_nth i l) -> In x l.
Proof.
  revert i. induction l as [|y l IH]; intros i; cbn; [destruct i; tauto|].
  destruct i; [auto|]. intros [H|H]; [auto|right; eapply IH; eauto].
Qed.

Lemma remove_nth_other {A} (l : list A) : forall i d q,
  i < List.length l -> q <> nth i l d -> In q l -> In q (remove_nth i l).
Proof.
  induction l as [|x l IH]; intros i d q Hl Q Hq; [destruct Hq|].
  destruct i; cbn in *.
  - destruct Hq as [<-|Hq]; [congruence|exact Hq].
  - destruct Hq as [<-|Hq]; [left; reflexivity|right; apply (IH i d); auto; lia].
Qed.

Lemma count_launch_cons_l j tr : count_launch (ELaunch j :: tr) = S (count_launch tr).
Proof. reflexivity. Qed.
Lemma count_launch_cons_f j b tr : count_launch (EFinish j b :: tr) = count_launch tr.
Proof. reflexivity. Qed.
Lemma count_finish_cons_l j tr : count_finish (ELaunch j :: tr) = count_finish tr.
Proof. reflexivity. Qed.
Lemma count_finish_cons_f j b tr : count_finish (EFinish j b :: tr) = S (count_finish tr).
Proof. reflexivity. Qed.

Section Inv.
Variable V : Type.
Variable body : nat -> nat -> list (list (option V)) -> V.
Variable fails : job -> bool.
Variable vr : variant.
Variable g : graph.
Hypothesis WF : wf_graph g.
Variable kmax : option nat.

Notation world := (world V).
Notation GInv := (GInv V fails g).
Notation WInv := (WInv V fails).
Notation upstream_ok := (upstream_ok V g).
Notation task_ok := (task_ok V fails g).
Notation runs := (@runs V).
Notation wle := (wle V).
Notation safe_rev := (safe_rev g).

(* every successful result is the body applied to the successful results of the upstream jobs *)
Definition VInv (w : world) : Prop :=
  forall n i v, lookup (n, i) (results w) = Some (Some v) ->
  exists nd, find_node g n = Some nd /\ upstream_ok w n /\ v = body n i (inputs_from V g w nd).

Lemma VInv_mono_entry (w w' : world) n i v nd :
  wle w w' -> find_node g n = Some nd -> upstream_ok w n -> v = body n i (inputs_from V g w nd) ->
  upstream_ok w' n /\ v = body n i (inputs_from V g w' nd).
Proof.
  intros H F U E. split; [eapply upstream_ok_mono; eauto|].
  rewrite (inputs_from_mono V g w w' n nd H F U). exact E.
Qed.

Record TInv (w : world) (fut pend errs : list job) (tr : list event) : Prop := {
  ti_ok_trace : forall j, is_ok w j = true -> In (EFinish j true) tr;
  ti_safe : safe_rev tr;
  ti_fut : launches_of (rev tr) = fut;
  ti_nodup : NoDup fut;
  ti_fut_ok : forall j, In j fut -> In j (all_jobs g) /\ tainted_b g fails (fst j) = false;
  ti_pend_fut : forall j, In j pend -> In j fut;
  ti_res_fut : forall j, is_none w j = false -> In j fut;
  ti_err_fut : forall j, In j errs <-> In (EFinish j false) tr;
  ti_err_res : forall j, is_err w j = true -> In j errs;
  ti_fin_fails : forall j b, In (EFinish j b) tr -> In j fut /\ fails j = negb b;
  ti_count : count_launch tr = count_finish tr + List.length pend;
  ti_pk : forall k, fix16 vr = true -> kmax = Some k -> List.length pend <= k;
  ti_conc : forall k, fix16 vr = true -> kmax = Some k -> conc_rev k tr
}.

Lemma TInv_init : TInv (w_init V) [] [] [] [].
Proof. constructor; cbn; intros; try easy; [constructor|lia]. Qed.

Lemma launches_rev_cons e tr :
  launches_of (rev (e :: tr)) = launches_of (rev tr) ++ match e with ELaunch j => [j] | _ => [] end.
Proof. cbn [rev]. rewrite launches_of_app. cbn. rewrite app_nil_r. reflexivity. Qed.

Lemma TInv_launch (w : world) fut pend errs tr j :
  TInv w fut pend errs tr -> task_ok w j -> ~ In j fut ->
  (forall k, fix16 vr = true -> kmax = Some k -> List.length pend < k) ->
  TInv w (fut ++ [j]) (pend ++ [j]) errs (ELaunch j :: tr).
Proof.
  intros [Tok Tsafe Tfut Tnodup Tfut_ok Tpend Tres Terr_fut Terr_res Tfin Tcount Tpk Tconc] [Hup [Hall Htn]] Hnf Lim. constructor.
  - intros q Hq. right. apply Tok; exact Hq.
  - split; [|exact Tsafe]. intros q Hq. apply Tok. apply Hup. exact Hq.
  - rewrite launches_rev_cons, Tfut. reflexivity.
  - apply NoDup_snoc; auto.
  - intros q Hq. apply in_app_or in Hq. destruct Hq as [Hq|[<-|[]]]; auto.
  - intros q Hq. apply in_app_or in Hq. apply in_or_app. destruct Hq as [Hq|Hq]; auto.
  - intros q Hq. apply in_or_app. left. apply Tres; exact Hq.
  - intros q. rewrite Terr_fut. split; [intros X; right; exact X|intros [X|X]; [discriminate|exact X]].
  - exact Terr_res.
  - intros q b [X|X]; [discriminate|]. destruct (Tfin q b X). split; [apply in_or_app; left|]; auto.
  - rewrite count_launch_cons_l, count_finish_cons_l, app_length, Tcount. cbn. lia.
  - intros k Hf Hk. rewrite app_length. cbn. specialize (Lim k Hf Hk). lia.
  - intros k Hf Hk. split; [|apply Tconc; auto].
    rewrite count_launch_cons_l, count_finish_cons_l, Tcount. specialize (Lim k Hf Hk). lia.
Qed.

Lemma below_limit_app p q : below_limit vr kmax (p ++ q) = true -> below_limit vr kmax p = true.
Proof.
  unfold below_limit. destruct (fix16 vr); [|reflexivity]. destruct kmax as [k|]; [|reflexivity].
  rewrite !Nat.ltb_lt, app_length. lia.
Qed.

Lemma launch_spec (w : world) errs tasks : forall fut pend tr acc fut' pend' tr' acc',
  TInv w fut pend errs tr ->
  (forall j, In j tasks -> task_ok w j) ->
  launch vr kmax tasks fut pend tr acc = (fut', pend', tr', acc') ->
  TInv w fut' pend' errs tr'
  /\ exists new, fut' = fut ++ new /\ pend' = pend ++ new /\ (forall j, In j new -> In j tasks)
                 /\ count_finish tr' = count_finish tr
                 /\ (forall j, In j tasks -> In j fut' \/ below_limit vr kmax pend' = false).
Proof.
  induction tasks as [|j tasks IH]; intros fut pend tr acc fut' pend' tr' acc' T Ht E; cbn [launch] in E.
  - injection E as <- <- <- <-. split; [exact T|]. exists []. rewrite !app_nil_r. repeat split; intros j [].
  - destruct (negb (mem_job j fut) && below_limit vr kmax pend) eqn:C.
    + apply andb_true_iff in C. destruct C as [C1 C2]. apply negb_true_iff in C1.
      assert (T' : TInv w (fut ++ [j]) (pend ++ [j]) errs (ELaunch j :: tr)).
      { apply TInv_launch; [exact T|apply Ht; left; reflexivity|intros H; apply mem_job_In in H; congruence|].
        intros k Hf Hk. unfold below_limit in C2. rewrite Hf, Hk in C2. apply Nat.ltb_lt in C2. exact C2. }
      destruct (IH _ _ _ _ _ _ _ _ T' (fun q Hq => Ht q (or_intror Hq)) E) as [A [new [Ef [Ep [Hn [Cf Hl]]]]]].
      split; [exact A|]. exists (j :: new).
      rewrite Ef, Ep, <- !app_assoc. cbn.
      split; [reflexivity|split; [reflexivity|split; [|split; [exact Cf|]]]].
      * intros q [<-|Hq]; auto.
      * intros q [<-|Hq]; [left; apply in_or_app; right; left; reflexivity|].
        rewrite Ef, Ep, <- !app_assoc in Hl. apply Hl, Hq.
    + destruct (IH _ _ _ _ _ _ _ _ T (fun q Hq => Ht q (or_intror Hq)) E) as [A [new [Ef [Ep [Hn [Cf Hl]]]]]].
      split; [exact A|]. exists new.
      split; [exact Ef|split; [exact Ep|split; [intros q Hq; right; apply Hn; exact Hq|split; [exact Cf|]]]].
      (* a task that is passed over is futured already, or the limit is reached and stays reached *)
      intros q [<-|Hq]; [|apply Hl, Hq]. apply andb_false_iff in C. destruct C as [C|C].
      * left. apply negb_false_iff, mem_job_In in C. rewrite Ef. apply in_or_app. left; exact C.
      * right. destruct (below_limit vr kmax pend') eqn:B; [|reflexivity].
        rewrite Ep in B. apply below_limit_app in B. congruence.
Qed.

Lemma all_jobs_node n i : In (n, i) (all_jobs g) -> exists nd, In nd g /\ nid nd = n /\ i < njobs nd.
Proof.
  unfold all_jobs. intros H. apply in_flat_map in H. destruct H as [nd [Hnd H]].
  unfold jobs_of in H. apply in_map_iff in H. destruct H as [k [E Hk]]. inversion E; subst.
  apply in_seq in Hk. exists nd. repeat split; auto. lia.
Qed.

Lemma finish_spec ss (w : world) vis fut pend pend' errs tr j :
  GInv w ss -> WInv w -> VInv w -> TInv w fut pend errs tr ->
  runs ss j -> In j pend ->
  (forall q, In q pend' -> In q pend) -> S (List.length pend') = List.length pend ->
  let v := job_result body fails ss j in
  let W' := mkW (results w ++ [(j, v)]) vis in
  wle w W' /\ WInv W' /\ VInv W'
  /\ TInv W' fut pend' (match v with None => errs ++ [j] | Some _ => errs end)
          (EFinish j (match v with None => false | Some _ => true end) :: tr).
Proof.
  intros G W Vi T R Hj Hsub Hlen. cbv zeta.
  remember (job_result body fails ss j) as v eqn:Hv.
  set (W' := mkW (results w ++ [(j, v)]) vis).
  assert (LW : wle w W') by apply wle_app.
  unfold job_result in Hv.
  assert (Pr : forall q,
            (is_ok W' q = true -> is_ok w q = true \/ (q = j /\ fails j = false))
            /\ (is_err W' q = true -> is_err w q = true \/ (q = j /\ fails j = true))
            /\ (is_none W' q = false -> is_none w q = false \/ q = j)).
  { intros q. unfold is_ok, is_err, is_none, W'. rewrite probe_job_app, Hv.
    destruct (probe_job w q); [destruct (job_eqb q j) eqn:Q; [apply job_eqb_eq in Q; destruct (fails j)|]| |];
      repeat split; intros X; auto; discriminate X. }
  assert (Hok := fun q => proj1 (Pr q)). assert (Herr := fun q => proj1 (proj2 (Pr q))).
  assert (Hnone := fun q => proj2 (proj2 (Pr q))).
  destruct T as [Tok Tsafe Tfut Tnodup Tfut_ok Tpend Tres Terr_fut Terr_res Tfin Tcount Tpk Tconc].
  split; [exact LW|split; [|split]].
  - intros q. split.
    + intros Q. destruct (Hok q Q) as [Q1|[-> Q1]]; [apply (proj1 (W q)); exact Q1|exact Q1].
    + intros Q. destruct (Herr q Q) as [Q1|[-> Q1]]; [apply (proj2 (W q)); exact Q1|exact Q1].
  - intros n i x Hl. cbn in Hl. rewrite lookup_app in Hl. destruct (lookup (n, i) (results w)) as [y|] eqn:E1.
    + rewrite Hl in E1. destruct (Vi n i x E1) as [nd [Fn [U Ev]]]. exists nd. split; [exact Fn|].
      apply (VInv_mono_entry w W' n i x nd LW Fn U Ev).
    + destruct (job_eqb (n, i) j) eqn:Ej; [|discriminate]. apply job_eqb_eq in Ej. injection Hl as Ex.
      subst j. destruct (Tfut_ok (n, i) (Tpend _ Hj)) as [Hall _].
      destruct (all_jobs_node n i Hall) as [nd [Hnd [Hn Hi]]]. subst n.
      pose proof (topo_b_find [] g nd WF Hnd) as Fn.
      destruct R as [Fl Un]. cbn in Fl, Un.
      pose proof (gi_node G (nid nd)) as In_.
      pose proof (ni_upstream In_ Fl Un) as U0.
      pose proof (ni_inputs In_ Fl Un nd Fn) as I0.
      exists nd. split; [exact Fn|].
      apply (VInv_mono_entry w W' (nid nd) i x nd LW Fn U0).
      rewrite Hv in Ex. cbn in Ex. destruct (fails (nid nd, i)); [discriminate|]. inversion Ex. rewrite I0. reflexivity.
  - constructor.
    + intros q Q. destruct (Hok q Q) as [Q1|[-> Q1]]; [right; apply Tok; exact Q1|].
      left. rewrite Hv, Q1. reflexivity.
    + split; [exact Logic.I|exact Tsafe].
    + rewrite launches_rev_cons, Tfut, app_nil_r. reflexivity.
    + exact Tnodup.
    + exact Tfut_ok.
    + intros q Hq. apply Tpend. apply Hsub. exact Hq.
    + intros q Q. destruct (Hnone q Q) as [Q1|Q1]; [apply Tres; exact Q1|subst q; apply Tpend; exact Hj].
    + intros q. rewrite Hv. destruct (fails j) eqn:Fj.
      * rewrite in_app_iff, Terr_fut. cbn. split.
        -- intros [X|[<-|[]]]; auto.
        -- intros [X|X]; [inversion X; right; left; reflexivity|left; exact X].
      * rewrite Terr_fut. cbn. split; [intros X; right; exact X|intros [X|X]; [discriminate|exact X]].
    + intros q Q. destruct (Herr q Q) as [Q1|[-> Q1]].
      * pose proof (Terr_res q Q1) as X. destruct v; [exact X|apply in_or_app; left; exact X].
      * rewrite Hv, Q1. apply in_or_app. right; left; reflexivity.
    + intros q b [X|X].
      * inversion X; subst q. split; [apply Tpend; exact Hj|]. rewrite Hv. destruct (fails j); reflexivity.
      * apply Tfin; exact X.
    + rewrite count_launch_cons_f, count_finish_cons_f, Tcount. lia.
    + intros k Hf Hk. pose proof (Tpk k Hf Hk). lia.
    + intros k Hf Hk. split; [|apply Tconc; auto].
      rewrite count_launch_cons_f, count_finish_cons_f, Tcount. pose proof (Tpk k Hf Hk). lia.
Qed.

End Inv.

Arguments ti_ok_trace {V fails vr g kmax w fut pend errs tr}.
Arguments ti_safe {V fails vr g kmax w fut pend errs tr}.
Arguments ti_fut {V fails vr g kmax w fut pend errs tr}.
Arguments ti_nodup {V fails vr g kmax w fut pend errs tr}.
Arguments ti_fut_ok {V fails vr g kmax w fut pend errs tr}.
Arguments ti_res_fut {V fails vr g kmax w fut pend errs tr}.
Arguments ti_err_fut {V fails vr g kmax w fut pend errs tr}.
Arguments ti_err_res {V fails vr g kmax w fut pend errs tr}.
Arguments ti_fin_fails {V fails vr g kmax w fut pend errs tr}.
Arguments ti_count {V fails vr g kmax w fut pend errs tr}.
Arguments ti_conc {V fails vr g kmax w fut pend errs tr}.
