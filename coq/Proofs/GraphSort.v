(* Proofs/GraphSort.v — soundness of DiGraph.sorting: whenever it returns, the list is a
   permutation of the nodes it was asked to sort and every node comes strictly after each of
   its recorded predecessors that is itself among those nodes.  No assumption on the state
   (duplicates, stale _node_wip entries, inconsistent dictionaries are all allowed). *)
From Pydra Require Import Base.Prelude Model.Graph Proofs.GraphBase.
From Coq Require Import Sorting.Permutation.
Local Open Scope nat_scope.
Local Open Scope list_scope.

Definition before (a b : node) (l : list node) : Prop :=
  exists l1 l2, l = l1 ++ l2 /\ In a l1 /\ In b l2.

(* b is listed in successors[a];  a is listed in w[b] *)
Definition inS (sd : dict) (a b : node) : Prop := exists sl, dget sd a = Some sl /\ In b sl.
Definition inW (w : dict) (b a : node) : Prop := exists pl, dget w b = Some pl /\ In a pl.

Lemma inW_tab w b a : inW w b a <-> tab w a b > 0.
Proof. symmetry. apply tab_pos. Qed.

(* w' is w after releasing (some of) the nodes in X: same keys, lists only lose entries, and an
   entry y of w[b] can only disappear when y was released and b is listed in successors[y] *)
Definition shrinks (sd : dict) (X : node -> Prop) (w w' : dict) : Prop :=
  forall b,
    match dget w b, dget w' b with
    | None, None => True
    | Some pl, Some pl' => incl pl' pl /\ forall y, In y pl -> ~ (X y /\ inS sd y b) -> In y pl'
    | _, _ => False
    end.

Lemma shrinks_get_none sd X w w' b : shrinks sd X w w' -> dget w' b = None -> dget w b = None.
Proof. intros H Hn. specialize (H b). rewrite Hn in H. destruct (dget w b); [contradiction|reflexivity]. Qed.

Lemma sort_pass_spec w ns part rest :
  sort_pass w ns = Ok (part, rest) ->
  Permutation (part ++ rest) ns /\
  (forall x, In x part -> dget w x = Some []) /\
  (forall x, In x rest -> exists y p, dget w x = Some (y :: p)) /\
  List.length ns = List.length part + List.length rest.
Proof.
  revert part rest. induction ns as [|n ns IH]; cbn; intros part rest H.
  - inversion H; subst. cbn. repeat split; try contradiction. constructor.
  - destruct (dget w n) as [p|] eqn:Hg; [|discriminate].
    apply bind_ok in H. destruct H as [[pa re] [Hrec H]]. cbn in H.
    destruct (IH pa re Hrec) as [Hp [Hpa [Hre Hlen]]].
    destruct p as [|y p]; inversion H; subst; cbn.
    + repeat split.
      * constructor. exact Hp.
      * intros x [->|Hx]; auto.
      * exact Hre.
      * lia.
    + repeat split.
      * symmetry. apply Permutation_cons_app. symmetry. exact Hp.
      * exact Hpa.
      * intros x [->|Hx]; eauto.
      * lia.
Qed.

Lemma sort_loop_nil fuel sd acc w : sort_loop fuel sd acc [] w = Ok acc.
Proof. destruct fuel; reflexivity. Qed.

(* Last conjunct: a run that returns has taken a out of w[b] for every b in successors[a], and
   list.remove raises on an absent element, so a was listed there. *)
Lemma sort_loop_sound sd : forall fuel acc ns w l,
  sort_loop fuel sd acc ns w = Ok l ->
  exists rest, l = acc ++ rest /\ Permutation rest ns /\
    (forall a b, In b ns -> In a ns -> tab w a b > 0 -> before a b rest) /\
    (forall a b, In a ns -> tab sd b a > 0 -> tab w a b > 0).
Proof.
  induction fuel as [|fuel IH]; intros acc ns w l H;
    (destruct ns as [|n0 ns0];
     [rewrite sort_loop_nil in H; inversion H; subst; exists []; rewrite app_nil_r;
      repeat split; try constructor; contradiction|]); [discriminate|].
  cbn [sort_loop] in H. set (ns := n0 :: ns0) in *.
  apply bind_ok in H. destruct H as [[part rem] [Hpass H]]. cbn in H.
  destruct part as [|p0 part0] eqn:Hpart; [discriminate|]. rewrite <- Hpart in *.
  apply bind_ok in H. destruct H as [w' [Hrel H]].
  destruct (sort_pass_spec w ns part rem Hpass) as [Hperm [Hpa [Hre _]]].
  pose proof (release_tab sd part w) as E. unfold release in E. rewrite Hrel in E. destruct E as [_ E].
  destruct (IH _ _ _ _ H) as [rest' [-> [Hperm' [Hbef Hs]]]].
  assert (Hin : forall x, In x ns -> In x part \/ In x rem)
    by (intros x Hx; apply in_app_or; eapply Permutation_in; [symmetry; exact Hperm|exact Hx]).
  exists (part ++ rest'). split; [now rewrite app_assoc|]. split; [|split].
  - rewrite <- Hperm. apply Permutation_app_head. exact Hperm'.
  - intros a b Hb Ha Hw. destruct (Hin b Hb) as [Hb'|Hb'].
    + (* b sorted in this pass: w[b] is empty *)
      rewrite (tab_get _ _ _ _ (Hpa b Hb')) in Hw. inversion Hw.
    + assert (Hbr : In b rest') by (eapply Permutation_in; [symmetry; exact Hperm'|exact Hb']).
      destruct (Hin a Ha) as [Ha'|Ha']; [exists part, rest'; auto|].
      (* a stays: it is not released in this pass, so w'[b] lists it as often as w[b] *)
      assert (Hw' : tab w' a b > 0).
      { rewrite E in Hw. unfold occ at 1 in Hw.
        rewrite (proj1 (count_occ_not_In Nat.eq_dec part a)) in Hw; [lia|]. intros Hap.
        destruct (Hre a Ha') as [y [p Hy]]. rewrite (Hpa a Hap) in Hy. discriminate. }
      destruct (Hbef a b Hb' Ha' Hw') as [l1 [l2 [-> [H1 H2]]]].
      exists (part ++ l1), l2. split; [now rewrite app_assoc|]. split; [apply in_or_app; auto|exact H2].
  - intros a b Ha Hsab. rewrite E. destruct (Hin a Ha) as [Ha'|Ha'].
    + apply (count_occ_In Nat.eq_dec) in Ha'. unfold occ at 1. nia.
    + specialize (Hs a b Ha' Hsab). lia.
Qed.

Lemma bind_nofuel {A B} (r : result A) (f : A -> result B) :
  r <> Err EFuel -> (forall a, r = Ok a -> f a <> Err EFuel) -> bind r f <> Err EFuel.
Proof. destruct r; cbn; [auto|intros H _ E; apply H; inversion E; reflexivity]. Qed.

Lemma foldM_nofuel {A S} (f : S -> A -> result S) l :
  (forall s x, f s x <> Err EFuel) -> forall s, foldM f l s <> Err EFuel.
Proof. intros Hf. induction l as [|x l IH]; cbn; intros s; [discriminate|apply bind_nofuel; auto]. Qed.

Lemma dremove_nofuel w b a : dremove w b a <> Err EFuel.
Proof. unfold dremove. destruct (dget w b); [|discriminate]. destruct (remove_one Nat.eqb a l); discriminate. Qed.

Lemma release_nofuel sd outs w : release sd outs w <> Err EFuel.
Proof.
  apply foldM_nofuel. intros s x. apply bind_nofuel; [destruct (dget sd x); discriminate|].
  intros sl _. apply foldM_nofuel. intros; apply dremove_nofuel.
Qed.

Lemma sort_pass_nofuel w ns : sort_pass w ns <> Err EFuel.
Proof.
  induction ns as [|n ns IH]; cbn; [discriminate|]. destruct (dget w n); [|discriminate].
  apply bind_nofuel; [exact IH|discriminate].
Qed.

Lemma sort_loop_fuel sd : forall fuel acc ns w,
  List.length ns <= fuel -> sort_loop fuel sd acc ns w <> Err EFuel.
Proof.
  induction fuel as [|fuel IH]; intros acc ns w Hlen.
  - destruct ns; cbn in *; [discriminate|lia].
  - destruct ns as [|n0 ns0]; [cbn; discriminate|].
    cbn [sort_loop]. set (ns := n0 :: ns0) in *.
    apply bind_nofuel; [apply sort_pass_nofuel|]. intros [part rem] Hpass. cbn [fst snd].
    destruct (sort_pass_spec w ns part rem Hpass) as [_ [_ [_ Hl]]].
    destruct part as [|p0 part0]; [discriminate|].
    apply bind_nofuel; [apply release_nofuel|]. intros w' _. apply IH. subst ns. cbn in Hl, Hlen. lia.
Qed.

Lemma sorting_nofuel g pres : sorting g pres <> Err EFuel.
Proof.
  unfold sorting. apply bind_nofuel; [apply release_nofuel|]. intros w0 _.
  apply bind_nofuel; [apply sort_loop_fuel, Nat.le_refl|discriminate].
Qed.
