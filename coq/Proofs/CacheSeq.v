(* Proofs/CacheSeq.v — the sequential cache model meets the reference semantics (C11, C13).
   One invariant of Job.run, by induction over the task tree (run_inv): the store afterwards is
   post_store of the events, every event is justified by the store at the moment it happens, and
   every event is under the rerun flag requested for its identity.  Job.run has two ways out
   (run_job_hit, run_job_exec); the per-submission semantics is read off these.  spec_once is then
   lifted to chains of observed submissions on the reference semantics alone. *)
From Pydra Require Import Base.Prelude Model.CacheSeq Spec.CacheSeq.
Local Open Scope bool_scope.

Section TaskInd.
  Variable P : task -> Prop.
  Hypothesis HL : forall c, P (Leaf c).
  Hypothesis HW : forall c ns, Forall P ns -> P (Wf c ns).
  Fixpoint task_nested_ind (t : task) : P t :=
    match t with
    | Leaf c => HL c
    | Wf c ns => HW c ns ((fix go (l : list task) : Forall P l :=
                             match l with
                             | [] => Forall_nil P
                             | x :: r => Forall_cons x (task_nested_ind x) (go r)
                             end) ns)
    end.
End TaskInd.

Lemma res_eqb_spec a b : res_eqb a b = true <-> a = b.
Proof.
  destruct a, b; cbn; try (split; congruence).
  rewrite Nat.eqb_eq. split; congruence.
Qed.
Lemma dir_eqb_spec a b : dir_eqb a b = true <-> a = b.
Proof.
  destruct a, b; cbn; try (split; congruence).
  rewrite res_eqb_spec. split; congruence.
Qed.

Lemma app_eq_mid {A} (a b t t3 : list A) x :
  a ++ b = t ++ x :: t3 ->
  (exists m, a = t ++ x :: m /\ t3 = m ++ b) \/ (exists m, t = a ++ m /\ b = m ++ x :: t3).
Proof.
  revert t. induction a as [|y a IH]; intros t H.
  - right. exists t. auto.
  - destruct t as [|z t]; cbn in H; injection H as -> H.
    + left. exists a. auto.
    + destruct (IH t H) as [(m & -> & ->)|(m & -> & ->)]; [left|right]; exists m; auto.
Qed.

Lemma last_run_app c a b :
  last_run c (a ++ b) = match last_run c b with Some x => Some x | None => last_run c a end.
Proof.
  induction a as [|e a IH]; cbn.
  - destruct (last_run c b); reflexivity.
  - rewrite IH. destruct (last_run c b); reflexivity.
Qed.

Lemma last_run_none c evs : (forall e, In e evs -> is_run_of c e = false) -> last_run c evs = None.
Proof.
  induction evs as [|e evs IH]; cbn; intros H; [reflexivity|].
  rewrite IH by auto. specialize (H e (or_introl eq_refl)).
  destruct e as [|c' rr x]; cbn in H; [reflexivity|now rewrite H].
Qed.

Lemma last_run_not_in c evs : Forall (fun e => ev_id e <> c) evs -> last_run c evs = None.
Proof.
  rewrite Forall_forall. intros H. apply last_run_none. intros e He. specialize (H e He).
  destruct e as [|c' rr x]; cbn in *; [reflexivity|]. apply Nat.eqb_neq. congruence.
Qed.

Lemma last_run_snoc c evs c' rr x :
  last_run c (evs ++ [EvRun c' rr x]) = if Nat.eqb c c' then Some x else last_run c evs.
Proof. rewrite last_run_app. cbn. destruct (Nat.eqb c c'); reflexivity. Qed.

Lemma rok_ext p1 p2 R evs c : p1 R c = p2 R c -> rok p1 R evs c = rok p2 R evs c.
Proof. intros H. unfold rok. now rewrite H. Qed.

Lemma load_result_some s c ls r :
  load_result s c ls = Some r -> exists l, In l ls /\ s l c = Complete r.
Proof.
  induction ls as [|l ls IH]; cbn; [discriminate|].
  destruct (s l c) eqn:E; [| |intros [= <-]; exists l; auto].
  all: intros H; destruct (IH H) as (l' & Hin & Hl'); exists l'; auto.
Qed.

Lemma load_result_reuse s c ls v l0 :
  errored_shadow s c ls = false -> In l0 ls -> s l0 c = Complete (Ok v) ->
  exists v', load_result s c ls = Some (Ok v').
Proof.
  induction ls as [|l ls IH]; cbn; intros Hs Hin Hl0; [contradiction|].
  destruct (s l c) as [| |[v1|]] eqn:E; [| |now exists v1|].
  all: destruct Hin as [->|Hin]; [congruence|]; auto.
  rewrite (proj2 (existsb_exists _ _)) in Hs; [discriminate|]. exists l0. now rewrite Hl0.
Qed.

Fixpoint count_runs (c : ident) (evs : list event) : nat :=
  match evs with [] => 0 | e :: r => (if is_run_of c e then 1 else 0) + count_runs c r end.
Lemma count_runs_app c a b : count_runs c (a ++ b) = count_runs c a + count_runs c b.
Proof. induction a as [|e a IH]; cbn; [reflexivity|]. rewrite IH. apply Nat.add_assoc. Qed.

Lemma tid_in_ids t : In (tid t) (ids t).
Proof. destruct t; cbn; auto. Qed.

Section Inv.
  Variable w : world.
  Variable cfg : config.
  Notation rt := (root cfg).
  Notation caches := (all_caches cfg).

  (* the store after a run, from the store before and the executions that happened *)
  Definition post_store (pre : store) (evs : list event) : store :=
    fun l c => if Nat.eqb l rt
               then match last_run c evs with Some x => Complete x | None => pre l c end
               else pre l c.

  Lemma post_store_root pre evs c :
    post_store pre evs rt c = match last_run c evs with Some x => Complete x | None => pre rt c end.
  Proof. unfold post_store. now rewrite Nat.eqb_refl. Qed.

  Lemma post_store_other pre evs l c : l <> rt -> post_store pre evs l c = pre l c.
  Proof. intros N. unfold post_store. now rewrite (proj2 (Nat.eqb_neq l rt) N). Qed.

  Lemma post_store_nil pre l c : post_store pre [] l c = pre l c.
  Proof. unfold post_store. cbn. destruct (Nat.eqb l rt); reflexivity. Qed.

  Lemma post_store_app pre a b l c :
    post_store pre (a ++ b) l c = post_store (post_store pre a) b l c.
  Proof.
    unfold post_store. destruct (Nat.eqb l rt); [|reflexivity].
    rewrite last_run_app. destruct (last_run c b); reflexivity.
  Qed.

  Lemma post_store_agree p1 p2 evs c :
    (forall l, p1 l c = p2 l c) -> forall l, post_store p1 evs l c = post_store p2 evs l c.
  Proof. intros H l. unfold post_store. now rewrite H. Qed.

  (* every event is justified by the store at the moment it happens: an execution while the root
     holds a success was entered with rerun, what is taken from the cache is a listed success *)
  Definition ev_ok (S : store) (e : event) : Prop :=
    match e with
    | EvRun c rr _ => forall v, S rt c = Complete (Ok v) -> rr = true
    | EvHit c v => exists l, In l caches /\ S l c = Complete (Ok v)
    end.
  Definition trace_ok (pre : store) (evs : list event) : Prop :=
    forall e1 e e2, evs = e1 ++ e :: e2 -> ev_ok (post_store pre e1) e.

  Lemma ev_ok_agree S S' e : (forall l, S l (ev_id e) = S' l (ev_id e)) -> ev_ok S' e -> ev_ok S e.
  Proof.
    intros H. destruct e as [c v|c rr x]; cbn in *.
    - intros (l & Hin & Hl). exists l. now rewrite H.
    - intros K v. rewrite H. apply K.
  Qed.

  Lemma trace_ok_nil pre : trace_ok pre [].
  Proof. intros e1 e e2 H. destruct e1; discriminate. Qed.

  Lemma trace_ok_one pre e : ev_ok pre e -> trace_ok pre [e].
  Proof.
    intros H e1 x e2 E. destruct e1 as [|y [|z e1]]; try discriminate. injection E as <-.
    revert H. apply ev_ok_agree. intros l. apply post_store_nil.
  Qed.

  Lemma trace_ok_app pre a b :
    trace_ok pre a -> trace_ok (post_store pre a) b -> trace_ok pre (a ++ b).
  Proof.
    intros Ha Hb e1 e e2 H. destruct (app_eq_mid _ _ _ _ _ H) as [(m & E & _)|(m & -> & E)].
    - exact (Ha e1 e m E).
    - generalize (Hb m e e2 E). apply ev_ok_agree. intros l. apply post_store_app.
  Qed.

  Lemma trace_ok_agree pre pre' evs :
    (forall e, In e evs -> forall l, pre' l (ev_id e) = pre l (ev_id e)) ->
    trace_ok pre' evs -> trace_ok pre evs.
  Proof.
    intros Hpre H e1 e e2 E. generalize (H e1 e e2 E). apply ev_ok_agree, post_store_agree.
    intros l. symmetry. apply Hpre. rewrite E. apply in_elt.
  Qed.

  (* rok and servedp of the reference semantics are lookups in that store *)
  Lemma rok_post_store pre e1 c : rok pre rt e1 c = true -> exists v, post_store pre e1 rt c = Complete (Ok v).
  Proof.
    unfold rok. rewrite post_store_root. destruct (last_run c e1) as [[v|]|]; [now exists v|discriminate|].
    destruct (pre rt c) as [| |[v|]]; try discriminate. now exists v.
  Qed.

  Lemma served_post_store pre e1 c v l :
    In l caches -> post_store pre e1 l c = Complete (Ok v) -> servedp pre rt caches e1 c v.
  Proof.
    unfold servedp. intros Hin. destruct (Nat.eq_dec l rt) as [->|N].
    - rewrite post_store_root. destruct (last_run c e1); [intros [= ->]; now left|]. intros H. right. exists rt. auto.
    - rewrite post_store_other by exact N. intros H. right. exists l. repeat split; auto. contradiction.
  Qed.

  Record evolves (s : state) (evs : list event) (s' : state) : Prop := {
    e_store : forall l c, st s' l c = post_store (st s) evs l c;
    e_execs : forall c, execs s' c = execs s c + count_runs c evs;
    e_trace : trace_ok (st s) evs
  }.

  Lemma evolves_refl s : evolves s [] s.
  Proof.
    split; [intros l c; now rewrite post_store_nil|intros c; apply plus_n_O|apply trace_ok_nil].
  Qed.

  Lemma evolves_trans s a s1 b s2 : evolves s a s1 -> evolves s1 b s2 -> evolves s (a ++ b) s2.
  Proof.
    intros [A1 A2 A3] [B1 B2 B3]. split.
    - intros l c. rewrite B1, post_store_app. apply post_store_agree. intros l0. apply A1.
    - intros c. rewrite B2, A2, count_runs_app. apply eq_sym, Nat.add_assoc.
    - apply trace_ok_app; [exact A3|]. revert B3. apply trace_ok_agree. intros e _ l. apply A1.
  Qed.

  (* the rerun flag a job was entered with shows in its event: an execution records it, and
     nothing is taken from the cache under it.  In job t entered with rr every event is one of t's
     identities, under the flag the specification calls requested for that identity: rr for t's
     own, rr && prop cfg for the jobs inside *)
  Definition under (f : bool) (e : event) : Prop :=
    match e with EvRun _ f' _ => f' = f | EvHit _ _ => f = false end.
  Definition ev_fits (rr : bool) (t : task) (e : event) : Prop :=
    In (ev_id e) (ids t) /\ under (rr && (Nat.eqb (ev_id e) (tid t) || prop cfg)) e.

  Definition run_inv (rr : bool) (t : task) (s : state) (o : out3) : Prop :=
    let '(s', evs, _) := o in evolves s evs s' /\ Forall (ev_fits rr t) evs.

  Lemma own_fits rr t e : ev_id e = tid t -> under rr e -> Forall (ev_fits rr t) [e].
  Proof.
    intros Hid Hu. constructor; [|constructor].
    split; rewrite Hid; [apply tid_in_ids|now rewrite Nat.eqb_refl, andb_true_r].
  Qed.

  Lemma run_nodes_inv rr ns :
    Forall (fun n => forall rr s, wf_taskb n = true -> run_inv rr n s (run_job w cfg rr n s)) ns ->
    forallb wf_taskb ns = true ->
    forall s acc, let '(s', evs, _) := run_nodes (run_job w cfg (rr && prop cfg)) ns s acc in
      evolves s evs s' /\ Forall (fun e => In (ev_id e) (flat_map ids ns) /\ under (rr && prop cfg) e) evs.
  Proof.
    induction 1 as [|n ns Hn _ IH]; intros Hwf s acc; cbn [run_nodes].
    - split; [apply evolves_refl|constructor].
    - cbn in Hwf. apply andb_true_iff in Hwf. destruct Hwf as [Hwn Hwns].
      specialize (Hn (rr && prop cfg) s Hwn). destruct (run_job w cfg (rr && prop cfg) n s) as [[s1 e1] r]. destruct Hn as [A1 F1].
      assert (F1' : Forall (fun e => In (ev_id e) (flat_map ids (n :: ns)) /\ under (rr && prop cfg) e) e1).
      { revert F1. apply Forall_impl. intros e [Hid Hu]. split; [apply in_or_app; now left|].
        now destruct rr, (prop cfg), (Nat.eqb (ev_id e) (tid n)). }
      destruct r as [v|]; [|now split].
      specialize (IH Hwns s1 (v :: acc)).
      destruct (run_nodes (run_job w cfg (rr && prop cfg)) ns s1 (v :: acc)) as [[s2 e2] o]. destruct IH as [A2 F2].
      split; [exact (evolves_trans _ _ _ _ _ A1 A2)|]. apply Forall_app. split; [exact F1'|].
      revert F2. apply Forall_impl. intros e [Hid Hu]. split; [apply in_or_app; now right|exact Hu].
  Qed.

  Lemma early_exit_some rr s c v :
    early_exit cfg rr s c = Some v -> rr = false /\ load_result s c caches = Some (Ok v).
  Proof.
    unfold early_exit. destruct rr; [discriminate|].
    destruct (load_result s c caches) as [[v'|]|]; try discriminate. intros [= ->]. auto.
  Qed.

  Lemma early_exit_none_root rr s c v :
    early_exit cfg rr s c = None -> s rt c = Complete (Ok v) -> rr = true.
  Proof.
    unfold early_exit. destruct rr; [reflexivity|]. intros H Hs.
    cbn in H. rewrite Hs in H. discriminate.
  Qed.

  Lemma early_exit_err rr s c : load_result s c caches = Some Err -> early_exit cfg rr s c = None.
  Proof. intros H. unfold early_exit. rewrite H. now destruct rr. Qed.

  Lemma run_job_hit rr t s v :
    early_exit cfg rr (st s) (tid t) = Some v -> run_job w cfg rr t s = (s, [EvHit (tid t) v], Ok v).
  Proof. intros H. destruct t; cbn [run_job tid] in *; now rewrite H. Qed.

  Lemma run_job_exec rr t s :
    early_exit cfg rr (st s) (tid t) = None ->
    let '(s', evs, r) := run_job w cfg rr t s in
    last_run (tid t) evs = Some r /\ 1 <= count_runs (tid t) evs /\ st s' rt (tid t) = Complete r.
  Proof.
    intros H. destruct t as [c|c ns]; cbn [run_job tid] in *; rewrite H;
      [|destruct (run_nodes (run_job w cfg (rr && prop cfg)) ns (with_dir s rt c Partial) []) as [[s2 evs] o]];
      rewrite count_runs_app, last_run_snoc; cbn [count_runs is_run_of bump with_dir st]; unfold set_dir;
      rewrite !Nat.eqb_refl; repeat split; apply Nat.le_add_l.
  Qed.

  Lemma run_job_err_stored rr t s s1 evs :
    run_job w cfg rr t s = (s1, evs, Err) -> st s1 rt (tid t) = Complete Err.
  Proof.
    intros E. destruct (early_exit cfg rr (st s) (tid t)) as [v|] eqn:Ee.
    - rewrite (run_job_hit rr t s v Ee) in E. discriminate.
    - pose proof (run_job_exec rr t s Ee) as X. rewrite E in X. apply X.
  Qed.

  Lemma hit_inv rr t s v :
    early_exit cfg rr (st s) (tid t) = Some v -> run_inv rr t s (run_job w cfg rr t s).
  Proof.
    intros H. rewrite (run_job_hit rr t s v H). apply early_exit_some in H. destruct H as [-> Hl]. split; [split|].
    - intros l c. unfold post_store. cbn. destruct (Nat.eqb l rt); reflexivity.
    - intros c. apply plus_n_O.
    - apply trace_ok_one. cbn. apply load_result_some in Hl. destruct Hl as (l & Hin & Hl).
      exists l. auto.
    - now apply own_fits.
  Qed.

  (* around the body of the job c0: no event of the body has identity c0, so none of them looks at
     the directory _populate_filesystem emptied (trace_ok_agree); the last event is c0's own execution *)
  Lemma exec_evolves rr c0 s s2 evs r :
    early_exit cfg rr (st s) c0 = None ->
    evolves (with_dir s rt c0 Partial) evs s2 ->
    Forall (fun e => ev_id e <> c0) evs ->
    evolves s (evs ++ [EvRun c0 rr r]) (bump (with_dir s2 rt c0 (Complete r)) c0).
  Proof.
    intros Hee [Hst Hex Htr] Hids. cbn [with_dir st execs] in Hst, Hex, Htr.
    pose proof (last_run_not_in c0 evs Hids) as Hnone. rewrite Forall_forall in Hids.
    split; cbn [bump with_dir st execs].
    - intros l c. unfold set_dir at 1. rewrite Hst. unfold post_store, set_dir. rewrite last_run_snoc.
      rewrite (Nat.eqb_sym rt l), (Nat.eqb_sym c0 c). now destruct (Nat.eqb l rt), (Nat.eqb c c0).
    - intros c. rewrite count_runs_app. cbn. rewrite Hex.
      rewrite (Nat.eqb_sym c0 c), Nat.add_0_r.
      destruct (Nat.eqb c c0); [now rewrite Nat.add_assoc, Nat.add_1_r|now rewrite Nat.add_0_r].
    - apply trace_ok_app.
      + revert Htr. apply trace_ok_agree. intros e He l. unfold set_dir.
        destruct (Nat.eqb_spec c0 (ev_id e)) as [Heq|_]; [now destruct (Hids e He)|].
        now rewrite andb_false_r.
      + (* the execution of c0 itself: had the root held a success, only rerun skips the early exit *)
        apply trace_ok_one. cbn [ev_ok]. rewrite post_store_root, Hnone.
        intros v. apply (early_exit_none_root rr (st s) c0 v Hee).
  Qed.

  Theorem run_job_inv t : forall rr s, wf_taskb t = true -> run_inv rr t s (run_job w cfg rr t s).
  Proof.
    induction t as [c|c ns IH] using task_nested_ind; intros rr s Hwf;
      (destruct (early_exit cfg rr (st s) c) as [v|] eqn:E; [now apply hit_inv with (v := v)|cbn [run_job tid]; rewrite E]).
    - split; [|now apply own_fits].
      apply (exec_evolves rr c s _ [] _ E); [apply evolves_refl|constructor].
    - cbn in Hwf. apply andb_true_iff in Hwf. destruct Hwf as [Hc Hns].
      pose proof (run_nodes_inv rr ns IH Hns (with_dir s rt c Partial) []) as N.
      destruct (run_nodes (run_job w cfg (rr && prop cfg)) ns (with_dir s rt c Partial) []) as [[s2 evs] o].
      destruct N as [A F].
      assert (Hids : Forall (fun e => ev_id e <> c) evs).
      { revert F. apply Forall_impl. intros e [Hid _] Heq. apply negb_true_iff in Hc. rewrite <- not_true_iff_false in Hc.
        apply Hc, existsb_exists. exists (ev_id e). split; [exact Hid|]. now rewrite Heq, Nat.eqb_refl. }
      split; [exact (exec_evolves rr c s s2 evs _ E A Hids)|].
      apply Forall_app. split; [|now apply own_fits].
      rewrite Forall_forall in *. intros e He. destruct (F e He) as [Hid Hu]. split; [now right|].
      cbn [tid]. now rewrite (proj2 (Nat.eqb_neq _ _) (Hids e He)).
  Qed.

  Lemma executed_and_counted rr t s :
    wf_taskb t = true -> early_exit cfg rr (st s) (tid t) = None ->
    let '(s', evs, r) := run_job w cfg rr t s in
    last_run (tid t) evs = Some r /\ st s' rt (tid t) = Complete r /\
    execs s' (tid t) = execs s (tid t) + count_runs (tid t) evs /\ 1 <= count_runs (tid t) evs.
  Proof.
    intros Hwf E. pose proof (run_job_inv t rr s Hwf) as I. pose proof (run_job_exec rr t s E) as X.
    destruct (run_job w cfg rr t s) as [[s' evs] r]. destruct I as [[_ I2 _] _], X as (X1 & X2 & X3).
    repeat split; [exact X1|exact X3|apply I2|exact X2].
  Qed.
End Inv.

Lemma stored_failure_reexecuted t R w cfg s rr :
  root cfg = R -> st s R (tid t) = Complete Err ->
  let '(s', evs, r) := run_job w cfg rr t s in last_run (tid t) evs = Some r.
Proof.
  intros <- Hs. pose proof (run_job_exec w cfg rr t s) as X.
  destruct (run_job w cfg rr t s) as [[s' evs] r]. apply X, early_exit_err. cbn. now rewrite Hs.
Qed.

Definition observe_submit (w : world) (sub : submission) (s : state) : observed * state :=
  let '(s1, evs, r) := submit w (s_cfg sub) (s_rerun sub) (s_task sub) s in
  ({| o_pre := st s; o_sub := sub; o_events := evs; o_reported := r; o_post := st s1 |}, s1).

Theorem submit_reports_outcome w cfg rr t s : submit w cfg rr t s = run_job w cfg rr t s.
Proof.
  unfold submit. destruct (early_exit cfg rr (st s) (tid t)) as [v|] eqn:E.
  - rewrite (run_job_hit w cfg rr t s v E). apply early_exit_some in E. destruct E as [_ ->]. reflexivity.
  - pose proof (run_job_exec w cfg rr t s E) as X.
    destruct (run_job w cfg rr t s) as [[s1 evs] r]. destruct X as (_ & _ & X).
    unfold all_caches. cbn [load_result]. now rewrite X.
Qed.

Theorem submit_meets_spec_core w sub s :
  wf_taskb (s_task sub) = true -> step_spec_core (fst (observe_submit w sub s)).
Proof.
  intros Hwf. unfold observe_submit. rewrite submit_reports_outcome.
  pose proof (run_job_inv w (s_cfg sub) (s_task sub) (s_rerun sub) s Hwf) as I.
  pose proof (run_job_hit w (s_cfg sub) (s_rerun sub) (s_task sub) s) as Hhit.
  pose proof (run_job_exec w (s_cfg sub) (s_rerun sub) (s_task sub) s) as Hexec.
  destruct (run_job w (s_cfg sub) (s_rerun sub) (s_task sub) s) as [[s1 evs] r].
  destruct I as [[I1 _ I3] IF]. rewrite Forall_forall in IF.
  unfold step_spec_core, spec_once, spec_rerun, spec_readonly, spec_written, spec_not_served, spec_reported,
    root_ok_after, served, o_root, o_listed, o_top. cbn [fst o_pre o_sub o_events o_reported o_post].
  split; [|split; [|split; [|split; [|split]]]].
  - intros e1 c rr x e2 Hev Hok. destruct (rok_post_store _ _ _ _ Hok) as [v Hv]. pose proof (I3 e1 _ e2 Hev v Hv) as ->.
    destruct (IF (EvRun c true x)) as [_ Hu]; [rewrite Hev; apply in_elt|]. symmetry. exact Hu.
  - intros Hrr. rewrite Hrr in *. split; [exists r; now apply Hexec|].
    intros Hp e He. destruct (IF e He) as [_ Hu]. rewrite Hp, orb_true_r in Hu. now destruct e.
  - intros l c Hl. rewrite I1. now apply post_store_other.
  - intros c. rewrite I1, post_store_root. destruct (last_run c evs); reflexivity.
  - intros e1 c v e2 Hev. destruct (I3 e1 (EvHit c v) e2 Hev) as (l & Hin & Hl). exact (served_post_store _ _ _ _ _ l Hin Hl).
  - destruct (early_exit (s_cfg sub) (s_rerun sub) (st s) (tid (s_task sub))) as [v|].
    + injection (Hhit v eq_refl) as _ -> ->. cbn. now exists v.
    + now rewrite (proj1 (Hexec eq_refl)).
Qed.

Lemma submit_reuses w sub s :
  errored_shadow (st s) (tid (s_task sub)) (all_caches (s_cfg sub)) = false ->
  spec_reuse (fst (observe_submit w sub s)).
Proof.
  intros Hsh. unfold observe_submit. rewrite submit_reports_outcome.
  destruct (run_job w (s_cfg sub) (s_rerun sub) (s_task sub) s) as [[s1 evs] r] eqn:E.
  unfold spec_reuse, listed_ok, o_listed, o_top. cbn [fst o_pre o_sub o_events o_reported o_post].
  intros Hrr (v & l0 & Hin & Hl0).
  destruct (load_result_reuse (st s) _ _ v l0 Hsh Hin Hl0) as (v' & H1).
  rewrite (run_job_hit w (s_cfg sub) _ _ s v') in E by (unfold early_exit; now rewrite Hrr, H1).
  injection E as <- <- <-.
  split; [intros e [<-|[]]; reflexivity|]. exists v'. split; [|reflexivity].
  destruct (load_result_some _ _ _ _ H1) as (l' & Hin' & Hl'). exists l'. auto.
Qed.

(* an errored result in the cache root hides a successful one in a read-only cache (F11b) *)
Definition shadow_world : world := {| body := fun _ _ _ => Ok 7; wfout := fun _ _ _ => Ok 0 |}.
Definition shadow_store : store :=
  set_dir (set_dir empty_store 0 5 (Complete Err)) 1 5 (Complete (Ok 7)).
Definition shadow_state : state := {| st := shadow_store; execs := fun _ => 0; clock := 0 |}.
Definition shadow_sub : submission :=
  {| s_task := Leaf 5; s_cfg := {| root := 0; ro := [1]; prop := true |}; s_rerun := false |}.

Lemma errored_shadow_not_reused : ~ spec_reuse (fst (observe_submit shadow_world shadow_sub shadow_state)).
Proof.
  intros R. unfold spec_reuse in R. cbn in R. destruct (R eq_refl) as [Hno _].
  - exists 7. exists 1. split; [right; left; reflexivity|reflexivity].
  - specialize (Hno (EvRun 5 false (Ok 7)) (or_introl eq_refl)). discriminate.
Qed.

(* the repaired finding F11: an incomplete leftover directory in the root in front of a complete
   result in a read-only cache.  The current tree reuses; the code before the repair
   (load_result_first_dir) found nothing and re-executed. *)
Definition leftover_store : store := set_dir (set_dir empty_store 0 5 Partial) 1 5 (Complete (Ok 7)).

Definition all_core (h : list hobs) : Prop := forall o, In (HSubmit o) h -> step_spec_core o.

Lemma all_core_tail x h : all_core (x :: h) -> all_core h.
Proof. intros H o Ho. apply H. now right. Qed.

Lemma map_tag_split (sub : submission) (evs : list event) a sub' e' b :
  map (pair sub) evs = a ++ (sub', e') :: b ->
  exists e1 e2, evs = e1 ++ e' :: e2 /\ sub' = sub /\ a = map (pair sub) e1.
Proof.
  intros H. apply map_eq_app in H. destruct H as (e1 & r & -> & H1 & H2).
  apply map_eq_cons in H2. destruct H2 as (e & e2 & -> & H2 & H3).
  injection H2 as <- <-. exists e1, e2. auto.
Qed.

Definition events_at (R : loc) (t : list tagged) : list event :=
  map snd (filter (fun x => Nat.eqb (root (s_cfg (fst x))) R) t).

Lemma events_at_app R a b : events_at R (a ++ b) = events_at R a ++ events_at R b.
Proof. unfold events_at. now rewrite filter_app, map_app. Qed.

Lemma events_at_tag R (sub : submission) (evs : list event) :
  events_at R (map (pair sub) evs) = if Nat.eqb (root (s_cfg sub)) R then evs else [].
Proof.
  unfold events_at. induction evs as [|e evs IH]; cbn [map filter fst]; [now destruct (Nat.eqb _ R)|].
  destruct (Nat.eqb (root (s_cfg sub)) R); cbn [map snd]; [now rewrite IH|exact IH].
Qed.

Lemma no_runs_at R c t :
  forallb (fun x => negb (is_run_at R c x)) t = true -> last_run c (events_at R t) = None.
Proof.
  intros H. apply last_run_none. intros e He.
  apply in_map_iff in He. destruct He as (x & <- & Hx). apply filter_In in Hx. destruct Hx as [Hx HR].
  rewrite forallb_forall in H. specialize (H x Hx). unfold is_run_at in H. rewrite HR in H.
  now apply negb_true_iff in H.
Qed.

Lemma rok_post o R c evs :
  step_spec_core o ->
  rok (o_pre o) R ((if Nat.eqb (o_root o) R then o_events o else []) ++ evs) c = rok (o_post o) R evs c.
Proof.
  intros (_ & _ & Hro & Hw & _). unfold rok. rewrite last_run_app. destruct (last_run c evs); [reflexivity|].
  destruct (Nat.eqb_spec (o_root o) R) as [<-|Hne].
  - specialize (Hw c). destruct (last_run c (o_events o)) as [x|]; rewrite Hw; reflexivity.
  - cbn. now rewrite Hro by congruence.
Qed.

Lemma rok_plant s l c' R evs c : rok (plant_store s l c') R evs c = rok s R evs c.
Proof.
  unfold rok, plant_store. destruct (last_run c evs); [reflexivity|].
  destruct (s l c') eqn:E; try reflexivity. unfold set_dir.
  destruct (Nat.eqb_spec l R) as [->|]; [|reflexivity].
  destruct (Nat.eqb_spec c' c) as [->|]; [now rewrite E|reflexivity].
Qed.

(* spec_once over a whole history: an execution of c under root R at a moment when R holds a
   success for c, from the initial store or from the last execution so far, was requested *)
Theorem chained_run_requested h : forall s, chained s h -> all_core h ->
  forall R c t sub rr r t3,
    flatten h = t ++ (sub, EvRun c rr r) :: t3 -> root (s_cfg sub) = R ->
    rok s R (events_at R t) c = true -> requested sub c = true.
Proof.
  induction h as [|[o|l c'] h IH]; intros s Hch Hall R c t sub rr r t3 Hfl HR Hok; cbn in Hch, Hfl.
  - destruct t; discriminate.
  - destruct Hch as [Hpre Hch]. assert (Hcore : step_spec_core o) by (apply Hall; now left).
    rewrite (rok_ext s (o_pre o)) in Hok by (symmetry; apply Hpre).
    (* the execution is one of this submission's events (spec_once of this step), or lies further
       on: then rok_post moves this submission's events into the store the rest of the chain starts from *)
    apply app_eq_mid in Hfl. destruct Hfl as [(m & Hev & _)|(m & -> & Hfl)].
    + apply map_tag_split in Hev. destruct Hev as (e1 & e2 & Hev & -> & ->).
      rewrite events_at_tag, HR, Nat.eqb_refl in Hok. rewrite <- HR in Hok.
      destruct Hcore as (Hon & _). exact (Hon e1 c rr r e2 Hev Hok).
    + apply (IH (o_post o) Hch (all_core_tail _ _ Hall) R c m sub rr r t3 Hfl HR).
      rewrite events_at_app, events_at_tag in Hok. now rewrite <- rok_post.
  - apply (IH (plant_store s l c') Hch (all_core_tail _ _ Hall) R c t sub rr r t3 Hfl HR).
    now rewrite rok_plant.
Qed.

(* on the reference semantics alone: any chain of observed submissions, each meeting the
   per-step semantics, executes a successful identity again under the same root only on request *)
Theorem chained_history_once h s : chained s h -> all_core h -> history_once h.
Proof.
  intros Hch Hall R c t1 sub1 rr1 v t2 sub2 rr2 r2 t3 Hfl HR1 HR2 Hno.
  rewrite app_comm_cons, app_assoc in Hfl.
  apply (chained_run_requested h s Hch Hall R c _ sub2 rr2 r2 t3 Hfl HR2).
  unfold rok. rewrite events_at_app, last_run_app. unfold events_at at 1. cbn [filter fst].
  rewrite HR1, Nat.eqb_refl. cbn [map snd last_run]. fold (events_at R t2).
  now rewrite (no_runs_at R c t2 Hno), Nat.eqb_refl.
Qed.

(* the model produces such chains, for every world, history and initial state *)
Fixpoint observe (w : world) (h : list step) (s : state) : list hobs :=
  match h with
  | [] => []
  | Submit sub :: r => HSubmit (fst (observe_submit w sub s)) :: observe w r (tick (snd (observe_submit w sub s)))
  | Plant l c :: r => HPlant l c :: observe w r (tick (plant s l c))
  end.

Definition tasks_wf (h : list step) : bool :=
  forallb (fun x => match x with Submit sub => wf_taskb (s_task sub) | Plant _ _ => true end) h.

Lemma observe_chained w h : forall s, chained (st s) (observe w h s).
Proof.
  induction h as [|x h IH]; intros s; cbn; [exact I|].
  destruct x as [sub|l c]; cbn.
  - unfold observe_submit. destruct (submit w (s_cfg sub) (s_rerun sub) (s_task sub) s) as [[s1 evs] r].
    split; [reflexivity|apply (IH (tick s1))].
  - replace (plant_store (st s) l c) with (st (tick (plant s l c))); [apply IH|].
    unfold plant, plant_store. cbn. destruct (st s l c); reflexivity.
Qed.

Lemma observe_all_core w h : forall s, tasks_wf h = true -> all_core (observe w h s).
Proof.
  induction h as [|x h IH]; intros s Hwf o Ho; [destruct Ho|].
  cbn in Hwf. apply andb_true_iff in Hwf. destruct Hwf as [Hx Hh].
  destruct x as [sub|l c]; cbn in Ho; destruct Ho as [E|Ho]; try discriminate.
  - injection E as <-. now apply submit_meets_spec_core.
  - exact (IH _ Hh o Ho).
  - exact (IH _ Hh o Ho).
Qed.

Lemma history_writes_only_root w h : forall s l c,
  tasks_wf h = true ->
  (forall sub, In (Submit sub) h -> root (s_cfg sub) <> l) ->
  (forall l' c', In (Plant l' c') h -> l' <> l) ->
  st (fst (run_history w h s)) l c = st s l c.
Proof.
  induction h as [|x h IH]; intros s l c Hwf Hr Hp; [reflexivity|].
  cbn in Hwf. apply andb_true_iff in Hwf. destruct Hwf as [Hx Hh].
  cbn [run_history]. destruct (do_step w x s) as [s1 o] eqn:E1.
  specialize (IH s1 l c Hh (fun sub H => Hr sub (or_intror H)) (fun l' c' H => Hp l' c' (or_intror H))).
  destruct (run_history w h s1) as [s2 os]. cbn [fst] in *. rewrite IH.
  destruct x as [sub|l' c']; cbn in E1.
  - pose proof (submit_meets_spec_core w sub s Hx) as (_ & _ & Hro & _).
    unfold observe_submit in Hro.
    destruct (submit w (s_cfg sub) (s_rerun sub) (s_task sub) s) as [[s1' evs] r]. injection E1 as <- _.
    cbn in Hro |- *. apply Hro. intros ->. now apply (Hr sub (or_introl eq_refl)).
  - injection E1 as <- _. cbn. unfold plant. destruct (st s l' c') eqn:E; try reflexivity.
    cbn. unfold set_dir. now rewrite (proj2 (Nat.eqb_neq l' l) (Hp l' c' (or_introl eq_refl))).
Qed.

Fixpoint postorder (t : task) : list ident :=
  match t with Leaf c => [c] | Wf c ns => flat_map postorder ns ++ [c] end.

Section Propagate.
  Variable w : world.
  Variable cfg : config.

  Lemma rerun_nodes_all ns :
    Forall (fun n => forall s s' evs v, run_job w cfg true n s = (s', evs, Ok v) ->
                       map ev_id evs = postorder n /\ forallb is_run evs = true) ns ->
    forall s acc s' evs vs, run_nodes (run_job w cfg true) ns s acc = (s', evs, Some vs) ->
      map ev_id evs = flat_map postorder ns /\ forallb is_run evs = true.
  Proof.
    induction 1 as [|n ns Hn _ IH]; intros s acc s' evs vs E; cbn in E.
    - injection E as _ <- _. auto.
    - destruct (run_job w cfg true n s) as [[s1 e1] r] eqn:E1. destruct r as [v|]; [|discriminate].
      destruct (run_nodes (run_job w cfg true) ns s1 (v :: acc)) as [[s2 e2] o] eqn:E2.
      injection E as _ <- ->. destruct (Hn s s1 e1 v E1) as [A1 A2].
      destruct (IH s1 (v :: acc) s2 e2 vs E2) as [B1 B2].
      rewrite map_app, forallb_app, A1, A2, B1, B2. auto.
  Qed.

  Hypothesis Hprop : prop cfg = true.

  (* with rerun and propagation, a submission that ends well has executed every job of the tree,
     in dependency order; nothing was taken from any cache *)
  Theorem rerun_propagates t : forall s s' evs v, run_job w cfg true t s = (s', evs, Ok v) ->
    map ev_id evs = postorder t /\ forallb is_run evs = true.
  Proof.
    induction t as [c|c ns IH] using task_nested_ind; intros s s' evs v E; cbn [run_job tid early_exit] in E.
    - injection E as _ <- _. auto.
    - rewrite Hprop in E. cbn [andb] in E.
      destruct (run_nodes (run_job w cfg true) ns (with_dir s (root cfg) c Partial) []) as [[s2 e2] o] eqn:E2.
      injection E as _ <- Hr. destruct o as [vs|]; [|discriminate].
      destruct (rerun_nodes_all ns IH _ _ _ _ _ E2) as [B1 B2].
      rewrite map_app, forallb_app, B1, B2. auto.
  Qed.
End Propagate.

Definition ex_wf : task := Wf 9 [Leaf 1; Wf 8 [Leaf 1; Leaf 2]].
Definition ex_cfg (rt : loc) (ros : list loc) (p : bool) : config := {| root := rt; ro := ros; prop := p |}.
Definition ex_world : world :=
  {| body := fun c k _ => if Nat.eqb c 2 && Nat.eqb k 0 then Err else Ok (10 + c); wfout := fun c _ vs => Ok (100 * c + List.length vs) |}.
Definition ex_history : list step :=
  [ Submit {| s_task := ex_wf; s_cfg := ex_cfg 0 [] true; s_rerun := false |};      (* node 2 fails *)
    Submit {| s_task := ex_wf; s_cfg := ex_cfg 0 [] true; s_rerun := false |};      (* 1 reused, rest executed *)
    Plant 1 9;
    Submit {| s_task := ex_wf; s_cfg := ex_cfg 1 [0] true; s_rerun := false |};     (* leftover in root 1, result in 0: reused *)
    Submit {| s_task := ex_wf; s_cfg := ex_cfg 0 [1] false; s_rerun := true |};     (* rerun without propagation *)
    Submit {| s_task := ex_wf; s_cfg := ex_cfg 0 [1] true; s_rerun := true |} ].    (* rerun with propagation *)

Example ex_nonvacuous :
  tasks_wf ex_history = true /\
  map (fun o => match o with Some (evs, r) => (map (fun e => match e with EvHit c _ => (c, 0) | EvRun c _ (Ok _) => (c, 1) | EvRun c _ Err => (c, 2) end) evs, r) | None => ([], Err) end)
      (snd (run_history ex_world ex_history init_state))
  = [ ([(1, 1); (1, 0); (2, 2); (8, 2); (9, 2)], Err);
      ([(1, 0); (1, 0); (2, 1); (8, 1); (9, 1)], Ok 902);
      ([], Err);
      ([(9, 0)], Ok 902);
      ([(1, 0); (8, 0); (9, 1)], Ok 902);
      ([(1, 1); (1, 1); (2, 1); (8, 1); (9, 1)], Ok 902) ].
Proof. split; vm_compute; reflexivity. Qed.
