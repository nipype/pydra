(* Proofs/StateProj.v — C02: for splitters whose inner products are over plain fields, the jobs of the remaining
   splitter are exactly the distinct remaining assignments in order of first appearance. *)
From Pydra Require Import Base.Prelude Model.State Spec.State Proofs.State Proofs.StateComb Proofs.ListFacts.

Lemma filter_filter {A} (p q : A -> bool) l : filter p (filter q l) = filter (fun x => q x && p x) l.
Proof.
  induction l as [|x l IH]; cbn [filter]; [reflexivity|].
  destruct (q x); cbn [andb filter]; [destruct (p x); rewrite IH; reflexivity| exact IH].
Qed.

Lemma filter_lprod {A} (p q : list A -> bool) (b : list (list A)) : forall a,
  (forall x y, In x a -> In y b -> p (x ++ y) = q x) ->
  filter p (flat_map (fun x => map (fun y => x ++ y) b) a) = flat_map (fun x => map (fun y => x ++ y) b) (filter q a).
Proof.
  induction a as [|x a IH]; intros H; [reflexivity|]. cbn [flat_map filter].
  rewrite filter_app, IH by (intros; apply H; [right|]; assumption).
  assert (Hx : forall z, In z (map (fun y => x ++ y) b) -> p z = q x).
  { intros z Hz. apply in_map_iff in Hz as (y & <- & Hy). apply H; [left; reflexivity| exact Hy]. }
  revert Hx. destruct (q x); intros Hx; [rewrite filter_all by exact Hx| rewrite filter_nil by exact Hx]; reflexivity.
Qed.

Lemma map_lprod {A} (f : list A -> list A) (Hf : forall x y, f (x ++ y) = f x ++ f y) (a b : list (list A)) :
  map f (flat_map (fun x => map (fun y => x ++ y) b) a) =
  flat_map (fun x => map (fun y => x ++ y) (map f b)) (map f a).
Proof.
  induction a as [|x a IH]; cbn [flat_map map]; [reflexivity|].
  rewrite map_app, IH. f_equal. rewrite !map_map. apply map_ext. intros y. apply Hf.
Qed.

Lemma cart_cons x a b : cart (x :: a) b = map (fun y => x ++ y) b ++ cart a b.
Proof. reflexivity. Qed.
Lemma cart_unit_l (b : list assignment) : cart [[]] b = b.
Proof. unfold cart. cbn [flat_map]. rewrite app_nil_r. cbn [app]. apply map_id. Qed.
Lemma cart_unit_r (a : list assignment) : cart a [[]] = a.
Proof. unfold cart. induction a as [|x a IH]; cbn [flat_map map app]; [reflexivity|]. rewrite app_nil_r. f_equal. exact IH. Qed.

Lemma distinct_app l1 : forall l2,
  distinct (l1 ++ l2) = distinct l1 ++ filter (fun y => negb (has_key y l1)) (distinct l2).
Proof.
  induction l1 as [|x l1 IH]; intros l2; cbn [app distinct].
  - cbn [has_key existsb negb]. symmetry. clear. induction (distinct l2) as [|y l IH]; cbn; [reflexivity| now rewrite IH].
  - rewrite IH, filter_app, filter_filter. f_equal. f_equal. apply filter_ext. intros y.
    unfold has_key. cbn [existsb]. rewrite negb_orb, (key_eqb_sym x y). apply andb_comm.
Qed.

Lemma distinct_nodup l : NoDup l -> distinct l = l.
Proof.
  induction l as [|x l IH]; intros N; cbn [distinct]; [reflexivity|]. inversion N as [|? ? Hx N']; subst.
  rewrite (IH N'). f_equal. apply filter_all. intros y Hy.
  destruct (key_eqb x y) eqn:E; [apply key_eqb_eq in E; subst; contradiction| reflexivity].
Qed.

Lemma distinct_subset l x : In x (distinct l) -> In x l.
Proof.
  revert x. induction l as [|y l IH]; intros x H; cbn [distinct] in H; [contradiction|].
  destruct H as [->|H]; [left; reflexivity|]. apply filter_In in H as [H _]. right. apply IH. exact H.
Qed.

Lemma distinct_in l x : In x l -> In x (distinct l).
Proof.
  induction l as [|y l IH]; intros H; [contradiction|]. cbn [distinct].
  destruct (key_eqb y x) eqn:E; [apply key_eqb_eq in E; subst; left; reflexivity|].
  destruct H as [->|H]; [rewrite key_eqb_refl in E; discriminate|]. right. apply filter_In. split; [apply IH; exact H|].
  rewrite E. reflexivity.
Qed.

Lemma distinct_repeat_nil n : n >= 1 -> distinct (repeat ([] : assignment) n) = [[]].
Proof.
  destruct n as [|n]; [lia|]. intros _. cbn [repeat distinct]. f_equal.
  apply filter_nil. intros y Hy. apply distinct_subset, repeat_spec in Hy. subst y. reflexivity.
Qed.

Lemma distinct_map_app x l : distinct (map (fun y => x ++ y) l) = map (fun y => x ++ y) (distinct l).
Proof.
  induction l as [|y l IH]; cbn [map distinct]; [reflexivity|]. rewrite IH. f_equal. clear IH.
  generalize (distinct l) as d. induction d as [|z d IHd]; cbn [map filter]; [reflexivity|].
  assert (E : key_eqb (x ++ y) (x ++ z) = key_eqb y z).
  { apply Bool.eq_true_iff_eq. rewrite !key_eqb_eq. split; [apply app_inv_head| congruence]. }
  rewrite E. destruct (negb (key_eqb y z)); cbn [map]; rewrite IHd; reflexivity.
Qed.

Lemma distinct_cart a : forall b, uniform a -> distinct (cart a b) = cart (distinct a) (distinct b).
Proof.
  induction a as [|x a IH]; intros b [n U]; [reflexivity|].
  inversion U as [|? ? Lx U']; subst.
  rewrite cart_cons, distinct_app, distinct_map_app, (IH b) by (exists (List.length x); exact U').
  cbn [distinct]. rewrite cart_cons. f_equal. apply filter_lprod. intros x' y Hx' Hy.
  apply distinct_subset in Hx', Hy. f_equal. apply Bool.eq_true_iff_eq. rewrite has_key_in, in_map_iff, key_eqb_eq. split.
  - intros (y0 & E0 & _). apply app_eq_len in E0 as [E1 _]; [exact E1|]. rewrite Forall_forall in U'. symmetry. apply U'. exact Hx'.
  - intros ->. exists y. auto.
Qed.

Lemma map_forget_cart gone a b : map (forget gone) (cart a b) = cart (map (forget gone) a) (map (forget gone) b).
Proof. exact (map_lprod (forget gone) (filter_app _) a b). Qed.

Lemma forget_all_gone [e gone s js sh] : prune gone s = None -> expand e s = Some (js, sh) ->
  map (forget gone) js = repeat [] (List.length js).
Proof.
  intros P E. pose proof (prune_spec gone s) as F. rewrite P in F. rewrite <- (map_length (forget gone) js). apply Forall_eq_repeat, Forall_forall. intros k Hk.
  apply in_map_iff in Hk as (a & <- & Ha). symmetry. apply (map_eq_nil fst).
  rewrite forget_fst, (expand_keys E Ha). exact F.
Qed.

Lemma forget_none_gone [e gone s js sh] : (forall f, In f (leaves s) -> memb f gone = false) ->
  expand e s = Some (js, sh) -> map (forget gone) js = js.
Proof.
  intros F E. rewrite <- (map_id js) at 2. apply map_ext_in. intros a Ha.
  unfold forget. apply filter_all.
  intros [k v] Hkv. cbn [fst]. rewrite F; [reflexivity|]. rewrite <- (expand_keys E Ha).
  apply (in_map fst) in Hkv. exact Hkv.
Qed.

Lemma uniform_forget e gone s js sh : expand e s = Some (js, sh) -> uniform (map (forget gone) js).
Proof.
  intros E. exists (List.length (filter (keepf gone) (leaves s))).
  apply Forall_forall. intros k Hk. apply in_map_iff in Hk as (a & <- & Ha).
  rewrite <- (map_length fst), forget_fst, (expand_keys E Ha). reflexivity.
Qed.

(* the n-ary outer product ended by the one-job denotation of no field at all: deleting an operand is then replacing
   it by that unit *)
Definition unitd : option denot := Some ([[]], []).

Lemma expand_outer_unit e : forall r x,
  expand e (Outer (x :: r)) = fold_right (dstep false) unitd (map (expand e) (x :: r)).
Proof.
  induction r as [|y r IH]; intros x.
  - cbn [expand map outer_all fold_right]. destruct (expand e x) as [[a sa]|]; [|reflexivity].
    cbn [dstep dall unitd outer_all]. rewrite cart_unit_r, app_nil_r. reflexivity.
  - change (expand e (Outer (x :: y :: r))) with (dstep false (expand e x) (expand e (Outer (y :: r)))). rewrite IH. reflexivity.
Qed.

Section Proj.
  Variable e : env.
  Variable gone : list nat.

  (* the jobs of what prune leaves of s are the distinct remaining assignments of the jobs of s; nothing left: one empty job *)
  Definition projQ (s : spl) : Prop :=
    forall js sh, expand e s = Some (js, sh) ->
    match prune gone s with
    | Some s' => exists sh', expand e s' = Some (distinct (map (forget gone) js), sh')
    | None => distinct (map (forget gone) js) = [[]]
    end.

  Definition projP (s : spl) : Prop :=
    flat_innerb s = true -> closedb gone s = true -> (forall f, In f (leaves s) -> nprod (e f) >= 1) -> projQ s.

  Lemma proj_all_gone s js sh : prune gone s = None -> (forall f, In f (leaves s) -> nprod (e f) >= 1) ->
    expand e s = Some (js, sh) -> distinct (map (forget gone) js) = [[]].
  Proof.
    intros P Pos E. rewrite (forget_all_gone P E). apply distinct_repeat_nil.
    pose proof (expand_nonempty e s Pos js sh E). destruct js; [congruence| cbn; lia].
  Qed.

  Lemma proj_none_gone s js sh : (forall f, In f (leaves s) -> memb f gone = false) ->
    expand e s = Some (js, sh) -> distinct (map (forget gone) js) = js.
  Proof.
    intros F E. rewrite (forget_none_gone F E). apply distinct_nodup, (expand_nodup E).
  Qed.

  Lemma proj_outer_list : forall l, Forall projQ l ->
    forall js sh, fold_right (dstep false) unitd (map (expand e) l) = Some (js, sh) ->
    exists sh', fold_right (dstep false) unitd (map (expand e) (pruned_list gone l)) = Some (distinct (map (forget gone) js), sh').
  Proof.
    induction l as [|x l IH]; intros HQ js sh E.
    - inversion E; subst. exists []. reflexivity.
    - cbn [map fold_right] in E. destruct (expand e x) as [[jx sx]|] eqn:Ex; [|discriminate].
      destruct (fold_right (dstep false) unitd (map (expand e) l)) as [[jr sr]|] eqn:Er; cbn [dstep dall outer_all] in E; [|discriminate].
      inversion E; subst js sh. clear E.
      apply Forall_cons_iff in HQ as [Hx HQ]. destruct (IH HQ jr sr eq_refl) as [sr' Er']. specialize (Hx jx sx Ex).
      rewrite map_forget_cart, distinct_cart by (eapply uniform_forget; exact Ex). rewrite pruned_list_cons.
      destruct (prune gone x) as [x'|].
      + destruct Hx as [sx' Ex']. cbn [map fold_right]. rewrite Ex', Er'. cbn [dstep dall outer_all]. eauto.
      + rewrite Hx, cart_unit_l. eauto.
  Qed.

  Lemma pruned_list_flds_gone l : forallb is_fld l = true ->
    forallb (fun f => memb f gone) (flat_map leaves l) = true -> pruned_list gone l = [].
  Proof.
    induction l as [|x l IH]; intros F G; [reflexivity|]. cbn [forallb] in F. apply andb_true_iff in F as [Fx Fl].
    destruct x as [f| |]; try discriminate. cbn [flat_map leaves app forallb] in G. apply andb_true_iff in G as [Gf Gl].
    rewrite pruned_list_cons. cbn [prune]. rewrite Gf. apply IH; assumption.
  Qed.

  Lemma pruned_list_flds_kept l : forallb is_fld l = true ->
    forallb (fun f => negb (memb f gone)) (flat_map leaves l) = true -> pruned_list gone l = l.
  Proof.
    induction l as [|x l IH]; intros F G; [reflexivity|]. cbn [forallb] in F. apply andb_true_iff in F as [Fx Fl].
    destruct x as [f| |]; try discriminate. cbn [flat_map leaves app forallb] in G. apply andb_true_iff in G as [Gf Gl].
    rewrite pruned_list_cons. cbn [prune]. apply negb_true_iff in Gf. rewrite Gf. f_equal. apply IH; assumption.
  Qed.

  Lemma proj_expand s : projP s.
  Proof.
    induction s as [f|l IH|l IH] using spl_nested_ind; intros Fl Cl Pos js sh E.
    - cbn [prune]. destruct (memb f gone) eqn:M.
      + apply (proj_all_gone (Fld f) js sh); [cbn [prune]; rewrite M; reflexivity| exact Pos| exact E].
      + exists sh. rewrite (proj_none_gone (Fld f) js sh); [exact E| intros g [<-|[]]; exact M| exact E].
    - rewrite prune_outer. cbn [flat_innerb closedb leaves] in *.
      destruct l as [|x r]; [discriminate|].
      assert (HQ : Forall projQ (x :: r)).
      { rewrite Forall_forall in *. rewrite forallb_forall in Fl, Cl. intros y Hy. apply (IH y Hy (Fl y Hy) (Cl y Hy)).
        intros f Hf. apply Pos, in_flat_map. eauto. }
      rewrite expand_outer_unit in E.
      destruct (proj_outer_list (x :: r) HQ js sh E) as [sh' H].
      destruct (pruned_list gone (x :: r)) as [|y' r'] eqn:Pl; [injection H as H _; symmetry; exact H|]. exists sh'.
      rewrite expand_outer_unit. exact H.
    - rewrite prune_inner. cbn [flat_innerb closedb leaves] in *.
      apply orb_true_iff in Cl as [Cl|Cl].
      + rewrite (pruned_list_flds_gone l Fl Cl).
        apply (proj_all_gone (Inner l) js sh); [rewrite prune_inner, (pruned_list_flds_gone l Fl Cl); reflexivity| exact Pos| exact E].
      + rewrite (pruned_list_flds_kept l Fl Cl). destruct l as [|x r]; [discriminate|].
        exists sh. rewrite (proj_none_gone (Inner (x :: r)) js sh); [exact E| |exact E].
        intros g Hg. rewrite forallb_forall in Cl. apply negb_true_iff. apply Cl. exact Hg.
  Qed.
End Proj.

Theorem pruned_is_distinct e s comb :
  flat_innerb s = true -> closedb (linked s comb) s = true -> (forall f, In f (leaves s) -> nprod (e f) >= 1) ->
  spec_groups_pruned e s comb = spec_groups e s comb.
Proof.
  intros Fl Cl Pos. unfold spec_groups_pruned, spec_groups. unfold jobs at 1 3.
  destruct (expand e s) as [[js sh]|] eqn:E; [|reflexivity].
  set (gone := linked s comb) in *.
  pose proof (proj_expand e gone s Fl Cl Pos js sh E) as H. destruct (prune gone s) as [s'|] eqn:P.
  - destruct H as [sh' E']. unfold jobs. rewrite E'.
    assert (A : forallb (fun k => has_key k (distinct (map (forget gone) js))) (map (forget gone) js) = true).
    { apply forallb_forall. intros k Hk. apply has_key_in, distinct_in, Hk. }
    rewrite A. reflexivity.
  - rewrite H, (forget_all_gone P E). cbn [map]. do 2 f_equal.
    (* every job forgets to []: its positions are all of them *)
    generalize 0. induction (List.length js) as [|n IH]; intros i; cbn [repeat positions seq]; [reflexivity|].
    cbn. f_equal. apply IH.
Qed.

Lemma axes_inner_flds x r : forallb is_fld (x :: r) = true -> axes (Inner (x :: r)) = [flat_map leaves (x :: r)].
Proof.
  intros F. cbn [axes]. cbn [forallb] in F. apply andb_true_iff in F as [Fx Fr].
  destruct x as [f| |]; try discriminate. cbn [axes flat_map leaves app].
  assert (G : forall acc, fold_left zip_axes (map axes r) [acc] = [acc ++ flat_map leaves r]).
  { induction r as [|y r IH]; intros acc; cbn [map fold_left flat_map]; [rewrite app_nil_r; reflexivity|].
    cbn [forallb] in Fr. apply andb_true_iff in Fr as [Fy Fr']. destruct y as [g| |]; try discriminate.
    cbn [axes zip_axes leaves]. rewrite (IH Fr'). rewrite <- app_assoc. reflexivity. }
  rewrite (G [f]). reflexivity.
Qed.

Lemma concat_axes_flat s : flat_innerb s = true -> List.concat (axes s) = leaves s.
Proof.
  induction s as [f|l IH|l IH] using spl_nested_ind; intros F.
  - reflexivity.
  - cbn [axes leaves flat_innerb] in *. induction l as [|x l IHl]; [reflexivity|]. cbn [flat_map forallb] in *.
    apply andb_true_iff in F as [Fx Fl]. inversion IH as [|? ? Hx IH']; subst.
    rewrite concat_app, (Hx Fx), (IHl IH' Fl). reflexivity.
  - destruct l as [|x r]; [reflexivity|]. cbn [flat_innerb] in F. rewrite (axes_inner_flds _ _ F).
    cbn [List.concat leaves]. apply app_nil_r.
Qed.

Lemma nodup_concat_disjoint {A} (L : list (list A)) : NoDup (List.concat L) ->
  forall a b, In a L -> In b L -> a <> b -> forall f, In f a -> In f b -> False.
Proof.
  induction L as [|x L IH]; intros N a b Ha Hb Hab f Fa Fb; [contradiction|]. cbn [List.concat] in N.
  apply NoDup_app_elim in N as (_ & NL & D).
  destruct Ha as [<-|Ha], Hb as [<-|Hb].
  - congruence.
  - apply (D f Fa). apply in_concat. exists b. auto.
  - apply (D f Fb). apply in_concat. exists a. auto.
  - apply (IH NL a b Ha Hb Hab f Fa Fb).
Qed.

(* by induction on a part s of top: an inner product of s is one axis of top, and the axes of top are disjoint, so the fields
   linked to comb take the whole of it or nothing *)
Lemma linked_closed_in top comb : NoDup (List.concat (axes top)) ->
  forall s, flat_innerb s = true -> incl (axes s) (axes top) -> closedb (linked top comb) s = true.
Proof.
  intros N. induction s as [f|l IH|l IH] using spl_nested_ind; intros F H.
  - reflexivity.
  - cbn [closedb flat_innerb] in *. apply forallb_forall. intros x Hx. rewrite Forall_forall in IH. rewrite forallb_forall in F.
    apply (IH x Hx (F x Hx)). intros ax Hax. apply H. cbn [axes]. apply in_flat_map. eauto.
  - destruct l as [|x r]; [reflexivity|]. cbn [closedb flat_innerb] in *. rewrite (axes_inner_flds _ _ F) in H.
    specialize (H _ (or_introl eq_refl)). set (ax := flat_map leaves (x :: r)) in *. apply orb_true_iff.
    destruct (existsb (fun f => memb f comb) ax) eqn:E.
    + left. apply forallb_forall. intros g Hg. apply existsb_exists in E as (f & Hf & Hc). apply memb_In in Hc. apply memb_In, in_linked. eauto 7.
    + right. apply forallb_forall. intros g Hg. apply negb_true_iff. destruct (memb g (linked top comb)) eqn:M; [|reflexivity]. exfalso.
      apply memb_In, in_linked in M as (ax' & Hax' & Hg' & c & Hc & Hcc).
      assert (Hne : ax' <> ax).
      { intros ->. rewrite (proj2 (existsb_exists _ _)) in E; [discriminate|]. exists c. split; [exact Hc| apply memb_In; exact Hcc]. }
      exact (nodup_concat_disjoint (axes top) N ax' ax Hax' H Hne g Hg' Hg).
Qed.

Lemma linked_closed s comb : flat_innerb s = true -> NoDup (leaves s) -> closedb (linked s comb) s = true.
Proof. intros F N. apply linked_closed_in; [rewrite (concat_axes_flat s F); exact N| exact F| apply incl_refl]. Qed.

Theorem combined_flat e s comb :
  wfb s = true -> NoDup (leaves s) -> comb <> [] -> (forall f, In f (leaves s) -> nprod (e f) >= 1) ->
  flat_innerb s = true -> good_removalb s comb = true ->
  groups_of (prepare_combined e s comb) = spec_groups e s comb.
Proof.
  intros W ND Hc Pos Fl G. rewrite (combined_pruned e s comb W ND Hc Pos G).
  apply pruned_is_distinct; try assumption. apply linked_closed; assumption.
Qed.
