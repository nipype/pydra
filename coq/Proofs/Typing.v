(* Proofs/Typing.v — what the C20 and C21 proofs share (induction on the type grammar, the exceptions a computation
   can end in, the condition [tables_wf] on the live tables, what each coercion step returns) and C20's first
   theorem: coercion produces conforming values; the executable form of [conforms] decides it. *)
From Pydra Require Import Base.Prelude Model.Typing Spec.Typing Proofs.ListFacts.

Local Open Scope string_scope.

Section TyInd.
Variable P : ty -> Prop.
Hypothesis HBase : forall c, P (TBase c).
Hypothesis HList : forall a, P a -> P (TList a).
Hypothesis HTuple : forall ts, Forall P ts -> P (TTuple ts).
Hypothesis HTupleVar : forall a, P a -> P (TTupleVar a).
Hypothesis HDict : forall k x, P k -> P x -> P (TDict k x).
Hypothesis HSet : forall fr a, P a -> P (TSet fr a).
Hypothesis HUnion : forall ts, Forall P ts -> P (TUnion ts).
Hypothesis HMulti : forall a, P a -> P (TMulti a).

Fixpoint ty_nested_ind (t : ty) : P t :=
  let go := fix go (l : list ty) : Forall P l :=
              match l with [] => Forall_nil P | a :: r => Forall_cons a (ty_nested_ind a) (go r) end in
  match t with
  | TBase c => HBase c
  | TList a => HList a (ty_nested_ind a)
  | TTuple ts => HTuple ts (go ts)
  | TTupleVar a => HTupleVar a (ty_nested_ind a)
  | TDict k x => HDict k x (ty_nested_ind k) (ty_nested_ind x)
  | TSet fr a => HSet fr a (ty_nested_ind a)
  | TUnion ts => HUnion ts (go ts)
  | TMulti a => HMulti a (ty_nested_ind a)
  end.
End TyInd.

Lemma map_res_forall {A B} (f : A -> result B) (P : B -> Prop) l : forall l',
  map_res f l = Ok l' -> (forall x y, In x l -> f x = Ok y -> P y) -> Forall P l'.
Proof.
  induction l as [|x l IH]; intros l' H HP; cbn in H.
  - injection H as <-. constructor.
  - destruct (f x) as [y|e] eqn:E; [|discriminate].
    destruct (map_res f l) as [ys|e] eqn:E2; [|discriminate].
    injection H as <-. constructor; [apply (HP x y); [now left|exact E]|].
    apply IH; [reflexivity|]. intros a b Ha. apply HP. now right.
Qed.
Arguments map_res_forall {A B f P l l'}.

Lemma forallb_In {A} (f : A -> bool) l x : forallb f l = true -> In x l -> f x = true.
Proof. intros H. now apply forallb_forall. Qed.
Arguments forallb_In {A f l x}.

Lemma first_ok_ok {A B} (f : A -> result B) l y :
  first_ok f l = Ok y -> exists x, In x l /\ f x = Ok y.
Proof.
  induction l as [|x l IH]; cbn; [discriminate|].
  destruct (f x) as [z|e] eqn:E.
  - intros H; inversion H; subst. exists x; split; [left; reflexivity|assumption].
  - destruct e; try discriminate. intros H. destruct (IH H) as [a [Ha Hf]]. exists a; split; [right|]; assumption.
Qed.

Lemma zip_res_combine {A} (g : A -> val -> result val) ts : forall items,
  zip_res (map g ts) items = map_res (fun p => g (fst p) (snd p)) (combine ts items).
Proof.
  induction ts as [|a ts IH]; intros [|x items]; try reflexivity. cbn. now rewrite IH.
Qed.

Lemma zip_res_ok (g : ty -> val -> result val) ts : forall items l,
  List.length ts = List.length items -> zip_res (map g ts) items = Ok l ->
  Forall2 (fun a y => exists x, g a x = Ok y) ts l.
Proof.
  induction ts as [|a ts IH]; intros [|x items] l Hlen H; try discriminate; cbn in H.
  - injection H as <-. constructor.
  - destruct (g a x) as [y|] eqn:E; [|discriminate].
    destruct (zip_res (map g ts) items) as [ys|] eqn:E2; [|discriminate].
    injection H as <-. constructor; [eauto|]. apply (IH items); [now injection Hlen|exact E2].
Qed.

Lemma dict_set_forall (P : val * val -> Prop) d k x :
  P (k, x) -> (forall k' x', P (k', x') -> P (k', x)) -> Forall P d -> Forall P (dict_set d k x).
Proof.
  intros Hp Hmix. induction d as [|[k' x'] d IH]; cbn; intros H.
  - constructor; [exact Hp|constructor].
  - inversion H; subst. destruct (py_eq k' k); constructor; eauto.
Qed.

Lemma dict_res_forall (A B : val -> Prop) fk fx : forall kv acc d,
  (forall a a', In a (map fst kv) -> fk a = Ok a' -> A a') ->
  (forall b b', In b (map snd kv) -> fx b = Ok b' -> B b') ->
  Forall (fun p => A (fst p) /\ B (snd p)) acc ->
  dict_res fk fx kv acc = Ok d -> Forall (fun p => A (fst p) /\ B (snd p)) d.
Proof.
  induction kv as [|[a b] kv IH]; cbn; intros acc d HA HB Hacc H.
  - now inversion H; subst.
  - destruct (fk a) as [a'|] eqn:Ea; [|discriminate].
    destruct (fx b) as [b'|] eqn:Eb; [|discriminate].
    destruct (hashable a'); [|discriminate].
    eapply IH; [intros; eapply HA; eauto|intros; eapply HB; eauto| |exact H].
    apply dict_set_forall; [split; cbn; eauto|intros k' x' [Hk' _]; split; cbn; eauto|assumption].
Qed.

Lemma dedupe_incl l : forall acc x, In x (dedupe l acc) -> In x l \/ In x acc.
Proof.
  induction l as [|y l IH]; intros acc x; cbn.
  - rewrite <- in_rev. auto.
  - destruct (existsb _ acc).
    + intros H. destruct (IH _ _ H); auto.
    + intros H. destruct (IH _ _ H) as [|[->|]]; auto.
Qed.

Lemma cls_eqb_refl c : cls_eqb c c = true.
Proof. destruct c; cbn; try reflexivity; [now destruct f|apply Nat.eqb_refl..]. Qed.

Lemma cls_eqb_eq a b : cls_eqb a b = true <-> a = b.
Proof.
  split; [|intros ->; apply cls_eqb_refl].
  destruct a; destruct b; try exact (fun H => False_ind _ (diff_false_true H)); intros H; try reflexivity.
  - destruct f, f0; try discriminate H; reflexivity.
  - apply Nat.eqb_eq in H. now subst.
  - apply Nat.eqb_eq in H. now subst.
Qed.

Lemma In_cls c l : In c l <-> existsb (cls_eqb c) l = true.
Proof. symmetry. exact (existsb_eqb_In cls_eqb cls_eqb_eq c l). Qed.

Definition seq_classes : list cls := [CList; CTuple; CSet; CFrozenset].

Definition seq_value (o : cls) (k : tag) (l : list val) : val :=
  match o with CList => VList k l | CTuple => VTuple k l | CSet => VSet k false l | _ => VSet k true l end.

Lemma seq_value_base o k l : In o seq_classes -> base_class (seq_value o k l) = o.
Proof. intros [<-|[<-|[<-|[<-|[]]]]]; reflexivity. Qed.

Lemma seq_value_tag o k l : tag_of (seq_value o k l) = k.
Proof. destruct o; reflexivity. Qed.

Lemma iter_seq_value o k l : iter (seq_value o k l) = Ok l.
Proof. destruct o; reflexivity. Qed.

Definition is_setc (o : cls) : bool := match o with CSet | CFrozenset => true | _ => false end.
(* the items a container of class o keeps of the list it is built from *)
Definition stored (o : cls) (items : list val) : list val := if is_setc o then dedupe items [] else items.

Lemma stored_forall (P : val -> Prop) o items : Forall P items -> Forall P (stored o items).
Proof.
  unfold stored. destruct (is_setc o); [|trivial]. apply incl_Forall.
  intros x Hx. apply dedupe_incl in Hx. destruct Hx as [Hx|[]]. exact Hx.
Qed.

(* [build] in closed form: type(obj)(items) keeps the tag of an instance obj (the model speaks only where obj has the
   origin's own shape), origin(items) gives an untagged value; a set refuses unhashable items *)
Lemma build_eq o v inst items : In o seq_classes ->
  build o v inst (Ok items) =
  if inst && negb (cls_eqb (base_class v) o) then Err EUnmodelled
  else if is_setc o && negb (forallb hashable items) then Err ETypeError
  else Ok (seq_value o (if inst then tag_of v else None) (stored o items)).
Proof.
  intros [<-|[<-|[<-|[<-|[]]]]]; destruct inst; cbn [build construct_container]; unfold mk_set;
    try (destruct v as [| | | | | | |f| | |k fr l0|]; try destruct fr; try destruct f); cbn;
    try reflexivity; destruct (forallb hashable items); reflexivity.
Qed.

Lemma construct_container_eq o items : In o seq_classes ->
  construct_container o items =
  if is_setc o && negb (forallb hashable items) then Err ETypeError else Ok (seq_value o None (stored o items)).
Proof. exact (build_eq o VNone false items). Qed.

Lemma build_ok o v inst l :
  In o seq_classes -> (inst = true -> base_class v = o) -> (is_setc o = true -> forallb hashable l = true) ->
  build o v inst (Ok l) = Ok (seq_value o (if inst then tag_of v else None) (stored o l)).
Proof.
  intros Ho Hb Hh. rewrite build_eq by exact Ho.
  assert (inst && negb (cls_eqb (base_class v) o) = false) as ->.
  { destruct inst; [|reflexivity]. rewrite Hb by reflexivity. now rewrite cls_eqb_refl. }
  destruct (is_setc o); [rewrite Hh by reflexivity|]; reflexivity.
Qed.

Definition base_value_classes : list cls :=
  [CNone; CBool; CInt; CFloat; CStr; CBytes; CPath; CFile FFile; CFile FText; CFile FDir;
   CList; CTuple; CSet; CFrozenset; CDict].
(* every class a value can have: the builtins and the registered (sub)classes KSub n *)
Definition value_classes (T : tables) : list cls :=
  (base_value_classes ++ map KSub (seq 0 (List.length (t_subs T))))%list.
Definition container_classes : list cls := [CList; CTuple; CSet; CFrozenset; CDict].

Lemma seq_classes_container o : In o seq_classes -> In o container_classes.
Proof. cbn. tauto. Qed.

(* issubclass is reflexive on the classes values have, and among the builtin classes the containers have no
   subclasses *)
Definition tables_wf (T : tables) : bool :=
  forallb (fun c => sub T c c) (value_classes T) &&
  forallb (fun o => forallb (fun c => implb (sub T c o) (cls_eqb c o)) base_value_classes) container_classes &&
  negb (sub T CList CStr) && negb (sub T CList CBytes).       (* a plain list is not a string *)

Lemma base_class_value v : In (base_class v) base_value_classes.
Proof. apply In_cls. destruct v as [| | | | | | |f| | |k fr|]; try destruct f; try destruct fr; reflexivity. Qed.

Lemma class_of_cases T v :
  class_of T v = base_class v \/
  exists n, class_of T v = KSub n /\ nth_error (t_subs T) n = Some (base_class v).
Proof.
  unfold class_of. destruct (tag_of v) as [n|]; [|now left].
  destruct (nth_error (t_subs T) n) as [b|] eqn:E; [|now left].
  destruct (cls_eqb b (base_class v)) eqn:Eb; [|now left].
  apply cls_eqb_eq in Eb. subst b. right. eauto.
Qed.

Lemma class_of_value T v : In (class_of T v) (value_classes T).
Proof.
  unfold value_classes. apply in_or_app.
  destruct (class_of_cases T v) as [->|[n [-> Hn]]].
  - left. apply base_class_value.
  - right. apply in_map, in_seq. split; [lia|]. cbn. apply nth_error_Some. congruence.
Qed.

Lemma base_class_not_any v : base_class v <> KAny.
Proof. destruct v as [| | | | | | |f| | |k fr|]; cbn; try discriminate. destruct fr; discriminate. Qed.

Lemma class_of_not_any T v : class_of T v <> KAny.
Proof. destruct (class_of_cases T v) as [->|[n [-> _]]]; [apply base_class_not_any|discriminate]. Qed.

(* the builtin whose behaviour values of class kv have *)
Definition shape_of_class (T : tables) (kv : cls) : cls :=
  match kv with KSub n => match nth_error (t_subs T) n with Some b => b | None => kv end | _ => kv end.

Lemma shape_class T v : shape_of_class T (class_of T v) = base_class v.
Proof.
  destruct (class_of_cases T v) as [->|[n [-> Hn]]].
  - pose proof (base_class_value v) as H. apply In_cls in H. destruct (base_class v); try reflexivity; discriminate H.
  - cbn. now rewrite Hn.
Qed.

Lemma unless_any {A} k (x y : A) : k <> KAny -> match k with KAny => x | _ => y end = y.
Proof. destruct k; congruence. Qed.

Lemma unless_any_in {A} k (x y z : A) : k <> KAny -> match k with KAny => x | _ => y end = z -> y = z.
Proof. intros Hk <-. symmetry. now apply unless_any. Qed.

Definition fails_with {A} (P : err -> Prop) (r : result A) : Prop := forall e, r = Err e -> P e.

Lemma fails_ok {A} P (x : A) : fails_with P (Ok x).
Proof. intros e H; discriminate. Qed.

Lemma fails_err {A} (P : err -> Prop) e : P e -> fails_with P (@Err A e).
Proof. intros H e' [= <-]. exact H. Qed.

Lemma fails_weaken {A} (P Q : err -> Prop) (r : result A) :
  (forall e, P e -> Q e) -> fails_with P r -> fails_with Q r.
Proof. intros HPQ H e He. apply HPQ, H, He. Qed.

Lemma fails_bind {A B} P (r : result A) (k : A -> result B) :
  fails_with P r -> (forall x, r = Ok x -> fails_with P (k x)) ->
  fails_with P (match r with Ok x => k x | Err e => Err e end).
Proof. intros Hr Hk. destruct r as [x|e]; [now apply Hk|apply fails_err, Hr; reflexivity]. Qed.

Lemma map_res_fails {A B} P (f : A -> result B) l :
  Forall (fun x => fails_with P (f x)) l -> fails_with P (map_res f l).
Proof.
  induction 1 as [|x l Hx _ IH]; cbn; [apply fails_ok|].
  apply fails_bind; [exact Hx|intros y _]. apply fails_bind; [exact IH|intros; apply fails_ok].
Qed.

(* [fails_with P] follows the structure of a computation; at the leaves, an accepted value or a constant exception *)
Create HintDb fails.
#[global] Hint Resolve fails_ok fails_err : fails.
#[global] Hint Extern 1 (fails_with _ (Err _)) => apply fails_err; first [discriminate | reflexivity] : fails.

Section WithTables.
Variable T : tables.
Variable W : world.
Hypothesis WF : tables_wf T = true.
Variable sac : bool.

Lemma sub_refl_value v : sub T (class_of T v) (class_of T v) = true.
Proof.
  pose proof WF as H. unfold tables_wf in H. rewrite !andb_true_iff in H. destruct H as [[[H _] _] _].
  rewrite forallb_forall in H. apply H, class_of_value.
Qed.

Lemma sub_container_base c o :
  In c base_value_classes -> In o container_classes -> sub T c o = true -> c = o.
Proof.
  intros Hc Ho Hs. pose proof WF as H. unfold tables_wf in H. rewrite !andb_true_iff in H. destruct H as [[[_ H] _] _].
  rewrite forallb_forall in H. specialize (H o Ho). rewrite forallb_forall in H.
  specialize (H _ Hc). rewrite Hs in H. cbn in H. now apply cls_eqb_eq.
Qed.

Lemma is_subclass_sub k c : k <> KAny -> c <> KAny -> is_subclass T k c = sub T k c.
Proof. intros Hk Hc. unfold is_subclass. destruct c; try congruence; apply unless_any, Hk. Qed.

Lemma is_instance_sub v c : c <> KAny -> is_instance T v c = sub T (class_of T v) c.
Proof. apply is_subclass_sub, class_of_not_any. Qed.

Lemma py_isinstance_is_instance v c : py_isinstance T v c = is_instance T v c.
Proof.
  unfold py_isinstance, is_instance, is_subclass.
  destruct c; try reflexivity; symmetry; apply unless_any, class_of_not_any.
Qed.

Lemma plain_list_not_vstr l : is_vstr T (VList None l) = false.
Proof.
  pose proof WF as H. unfold tables_wf in H. rewrite !andb_true_iff in H. destruct H as [[_ H1] H2].
  apply negb_true_iff in H1, H2. unfold is_vstr, is_instance. cbn. now rewrite H1, H2.
Qed.

Lemma is_instance_self v : is_instance T v (class_of T v) = true.
Proof. rewrite is_instance_sub by apply class_of_not_any. apply sub_refl_value. Qed.

Lemma untagged_class v : tag_of v = None -> class_of T v = base_class v.
Proof. unfold class_of. now intros ->. Qed.

Lemma class_of_parts v w : tag_of v = tag_of w -> base_class v = base_class w -> class_of T v = class_of T w.
Proof. unfold class_of. now intros -> ->. Qed.

Lemma fileset_ctor_val f ps v : fileset_ctor W f ps = Ok v -> exists p, v = VFile f p.
Proof.
  unfold fileset_ctor. destruct (existsb _ _); [discriminate|].
  destruct (dedupe_str _ _) as [|p [|q r]]; try discriminate.
  destruct (w_check W f p); [discriminate|]. inversion 1. eauto.
Qed.

Lemma construct_shape c v v' : construct W c v = Ok v' -> base_class v' = c /\ tag_of v' = None.
Proof.
  destruct c; cbn [construct]; try discriminate;
    try (destruct (iter v) as [l|]; [|discriminate]; rewrite construct_container_eq by (cbn; tauto);
         destruct (_ && _); [discriminate|]; intros [= <-]; now split).
  - intros [= <-]. now split.
  - destruct v; try discriminate; intros [= <-]; now split.
  - destruct (num_of v); [|discriminate]. intros [= <-]. now split.
  - destruct (py_str v); [|discriminate]. intros [= <-]. now split.
  - destruct v; try discriminate; try (intros [= <-]; now split);
      (destruct (bytes_of _); [|discriminate]; intros [= <-]; now split).
  - destruct v; try discriminate; intros [= <-]; now split.
  - intros H. assert (exists p, v' = VFile f p) as [p ->]; [|now split]. revert H.
    destruct (is_pathish v); [apply fileset_ctor_val|].
    destruct v; try discriminate; (destruct (all_some _); [apply fileset_ctor_val|discriminate]).
  - destruct v; try discriminate; intros [= <-]; now split.
Qed.

Lemma construct_class c v v' : construct W c v = Ok v' -> class_of T v' = c.
Proof. intros H. apply construct_shape in H. destruct H as [<- Ht]. now apply untagged_class. Qed.

Lemma matches_criteria_cls a b crit : exists m, matches_criteria T (SCls a) b crit = Ok m.
Proof. induction crit as [|[x y] crit [m Hm]]; cbn; [eauto|]. rewrite Hm. eauto. Qed.

Lemma check_type_coercible_err a b : fails_with (eq ETypeError) (check_type_coercible T sac a b).
Proof.
  unfold check_type_coercible, check_type_coercible_gen.
  destruct (cls_eqb a b); [apply fails_ok|]. destruct (sac && _); [apply fails_ok|].
  destruct (matches_criteria_cls a b (t_coercible T)) as [[] ->]; [|now apply fails_err].
  destruct (matches_criteria_cls a b (t_not_coercible T)) as [[] ->]; [now apply fails_err|apply fails_ok].
Qed.

Lemma check_coercible_err v c : fails_with (eq ETypeError) (check_coercible T sac v c).
Proof. unfold check_coercible. destruct (_ && _); [apply fails_ok|apply check_type_coercible_err]. Qed.

Lemma enter_true o v : enter T sac o v = Ok true -> is_instance T v o = true.
Proof.
  unfold enter. destruct (is_instance T v o); [reflexivity|].
  destruct (check_coercible T sac v o); discriminate.
Qed.

Lemma enter_inst o v : is_instance T v o = true -> enter T sac o v = Ok true.
Proof. unfold enter. now intros ->. Qed.

Lemma enter_err o v : fails_with (eq ETypeError) (enter T sac o v).
Proof.
  unfold enter. destruct (is_instance T v o); [apply fails_ok|].
  apply fails_bind; [apply check_coercible_err|intros; apply fails_ok].
Qed.

Lemma seq_value_class o l : In o seq_classes -> class_of T (seq_value o None l) = o.
Proof. intros Ho. now rewrite untagged_class, seq_value_base by (exact Ho || apply seq_value_tag). Qed.

Lemma build_shape o v inst items v' :
  In o seq_classes -> enter T sac o v = Ok inst -> build o v inst (Ok items) = Ok v' ->
  is_instance T v' o = true /\ v' = seq_value o (if inst then tag_of v else None) (stored o items) /\
  (is_setc o = true -> forallb hashable items = true).
Proof.
  intros Ho He H. rewrite (build_eq _ _ _ _ Ho) in H.
  destruct (inst && _) eqn:Eb; [discriminate|]. destruct (is_setc o && _) eqn:Eh; [discriminate|].
  injection H as <-. split; [|split; [reflexivity|]].
  - destruct inst.
    + apply negb_false_iff, cls_eqb_eq in Eb. unfold is_instance.
      rewrite (class_of_parts _ v) by (now rewrite ?seq_value_tag, ?seq_value_base). exact (enter_true _ _ He).
    + pose proof (is_instance_self (seq_value o None (stored o items))) as Hs. now rewrite seq_value_class in Hs.
  - intros Hs. rewrite Hs in Eh. now apply negb_false_iff in Eh.
Qed.

(* a plain class is entered like a container origin: an instance is returned as it is, a coercible object goes to
   the constructor *)
Lemma coerce_basic_enter c v :
  coerce_basic T W sac c v =
  match enter T sac c v with Ok inst => if inst then Ok v else construct W c v | Err e => Err e end.
Proof.
  unfold coerce_basic, enter. destruct (is_instance T v c); [reflexivity|]. now destruct (check_coercible T sac v c).
Qed.

Lemma coerce_basic_conforms c v v' : coerce_basic T W sac c v = Ok v' -> py_isinstance T v' c = true.
Proof.
  rewrite coerce_basic_enter, py_isinstance_is_instance. destruct (enter T sac c v) as [[|]|] eqn:E; [| |discriminate].
  - intros [= <-]. exact (enter_true _ _ E).
  - intros H. apply construct_class in H. subst c. apply is_instance_self.
Qed.

Lemma coerce_seq_shape o f v v' :
  In o seq_classes -> coerce_seq T sac o f v = Ok v' ->
  is_instance T v' o = true /\
  exists items l k, map_res f items = Ok l /\ v' = seq_value o k (stored o l) /\ (is_setc o = true -> forallb hashable l = true).
Proof.
  intros Ho. unfold coerce_seq. destruct (enter T sac o v) as [inst|] eqn:E; [|discriminate].
  destruct (iter v) as [items|]; [|discriminate]. destruct (map_res f items) as [l|] eqn:El; [|discriminate]. intros H.
  destruct (build_shape _ _ _ _ _ Ho E H) as [Hi [Hs Hh]]. split; [exact Hi|]. now exists items, l, (if inst then tag_of v else None).
Qed.

Lemma coerce_seq_conforms a o f v v' :
  In o seq_classes -> (forall x y, f x = Ok y -> conforms T a y) ->
  coerce_seq T sac o f v = Ok v' ->
  py_isinstance T v' o = true /\ exists k l', v' = seq_value o k l' /\ Forall (conforms T a) l'.
Proof.
  intros Ho Hf H. apply coerce_seq_shape in H; [|exact Ho]. destruct H as [Hi [items [l [k [Hl [Hs _]]]]]].
  rewrite py_isinstance_is_instance. split; [exact Hi|]. exists k, (stored o l). split; [exact Hs|].
  apply stored_forall, (map_res_forall Hl). intros x y _. apply Hf.
Qed.

Lemma coerce_dict_shape fk fx v v' :
  coerce_dict T sac fk fx v = Ok v' ->
  is_instance T v' CDict = true /\
  exists k kv g d, v = VDict k kv /\ dict_res fk fx kv [] = Ok d /\ v' = VDict g d.
Proof.
  unfold coerce_dict. destruct (enter T sac CDict v) as [inst|] eqn:E; [|discriminate].
  destruct v as [| | | | | | | | | | |k kv]; try discriminate.
  destruct (dict_res fk fx kv []) as [d|] eqn:Ed; [|discriminate]. inversion 1; subst. split.
  - destruct inst.
    + apply enter_true in E. exact E.
    + apply (is_instance_self (VDict None d)).
  - eauto 8.
Qed.

Lemma coerce_tuple_shape (g : ty -> val -> result val) ts v v' :
  coerce_tuple T sac (map g ts) v = Ok v' ->
  is_instance T v' CTuple = true /\ exists l k, v' = VTuple k l /\ Forall2 (fun a y => exists x, g a x = Ok y) ts l.
Proof.
  unfold coerce_tuple. destruct (enter T sac CTuple v) as [inst|] eqn:E; [|discriminate].
  destruct (iter v) as [items|]; [|discriminate].
  destruct (Nat.eqb _ _) eqn:El; [|discriminate]. apply Nat.eqb_eq in El. rewrite map_length in El.
  destruct (zip_res _ items) as [l|] eqn:Ez; [|discriminate]. intros H.
  destruct (build_shape CTuple _ _ _ _ ltac:(cbn; tauto) E H) as [Hi [Hs _]]. split; [exact Hi|].
  cbn in Hs. eauto using zip_res_ok.
Qed.

Lemma coerce_multi_shape f v v' :
  coerce_multi T f v = Ok v' ->
  (exists x, f v = Ok x /\ v' = VList None [x]) \/
  (is_vstr T v = false /\ exists items l, iter v = Ok items /\ map_res f items = Ok l /\ v' = VList None l).
Proof.
  unfold coerce_multi.
  assert (wrap1 (f v) = Ok v' -> exists x, f v = Ok x /\ v' = VList None [x]) as Hw.
  { destruct (f v) as [x|]; [|discriminate]. intros [= <-]. eauto. }
  destruct (is_vstr T v); [auto|].
  destruct (iter v) as [items|[]]; try discriminate; [|auto].
  destruct (map_res f items) as [l|[]] eqn:El; try discriminate; [|auto].
  intros [= <-]. right. split; [reflexivity|]. now exists items, l.
Qed.

Lemma conforms_union ts v : conforms T (TUnion ts) v <-> exists a, In a ts /\ conforms T a v.
Proof.
  cbn [conforms]. induction ts as [|b ts IH]; [split; [intros []|intros [a [[] _]]]|].
  rewrite IH. split.
  - intros [H|[a [Ha H]]]; [exists b|exists a]; split; auto using in_eq, in_cons.
  - intros [a [[->|Ha] H]]; [now left|right; eauto].
Qed.

Theorem coerce_conforms : forall t v v', coerce T W sac t v = Ok v' -> conforms T t v'.
Proof.
  induction t as [c|a IHa|ts IHts|a IHa|k x IHk IHx|fr a IHa|ts IHts|a IHa] using ty_nested_ind;
    intros v v' H; cbn [coerce] in H; cbn [conforms]; try destruct fr;
    try (eapply coerce_seq_conforms in H; [|cbn; tauto|exact IHa]; destruct H as [Hi [k [l' [-> HF]]]]; cbn [seq_value]; now eauto).
  - eapply coerce_basic_conforms; eassumption.
  - destruct (coerce_tuple_shape _ _ _ _ H) as [Hi [l [k [-> Hz]]]].
    rewrite py_isinstance_is_instance. split; [exact Hi|]. exists k, l. split; [reflexivity|].
    clear - Hz IHts. revert IHts.
    induction Hz as [|a y ts l [x Hg] _ IH]; intros IHts; [exact I|].
    inversion IHts as [|? ? Ha Hts]; subst. split; [exact (Ha _ _ Hg)|exact (IH Hts)].
  - destruct (coerce_dict_shape _ _ _ _ H) as [Hi [g0 [kv [g [d [-> [Hd ->]]]]]]].
    rewrite py_isinstance_is_instance. split; [exact Hi|]. exists g, d. split; [reflexivity|].
    eapply (dict_res_forall (conforms T k) (conforms T x)); [intros; eapply IHk|intros; eapply IHx| |]; eauto.
  - apply first_ok_ok in H. destruct H as [a [Ha Hc]].
    rewrite Forall_forall in IHts. apply conforms_union. eauto.
  - destruct (coerce_multi_shape _ _ _ H) as [[x [Hx ->]]|[_ [items [l [_ [Hl ->]]]]]];
      (split; [rewrite py_isinstance_is_instance; apply (is_instance_self (VList None _))|]);
      eexists None, _; (split; [reflexivity|]).
    + constructor; [exact (IHa _ _ Hx)|constructor].
    + apply (map_res_forall Hl). intros x y _. apply IHa.
Qed.

End WithTables.

(* the test of a value's constructor and items that [conformsb] makes decides the shape clause of [conforms] *)
Lemma list_shape_iff (b : list val -> bool) (P : list val -> Prop) v :
  (forall l, b l = true <-> P l) ->
  match v with VList _ l => b l | _ => false end = true <-> exists k l, v = VList k l /\ P l.
Proof.
  intros H. split.
  - destruct v; try discriminate. intros Hb. eexists _, _. split; [reflexivity|]. now apply H.
  - intros [k [l [-> Hl]]]. now apply H.
Qed.

Lemma tuple_shape_iff (b : list val -> bool) (P : list val -> Prop) v :
  (forall l, b l = true <-> P l) ->
  match v with VTuple _ l => b l | _ => false end = true <-> exists k l, v = VTuple k l /\ P l.
Proof.
  intros H. split.
  - destruct v; try discriminate. intros Hb. eexists _, _. split; [reflexivity|]. now apply H.
  - intros [k [l [-> Hl]]]. now apply H.
Qed.

Theorem conformsb_spec T : forall t v, conformsb T t v = true <-> conforms T t v.
Proof.
  induction t as [c|a IHa|ts IHts|a IHa|k x IHk IHx|fr a IHa|ts IHts|a IHa] using ty_nested_ind;
    intros v; cbn [conformsb conforms]; try (rewrite andb_true_iff; apply and_iff_compat_l).
  - reflexivity.
  - apply list_shape_iff, (forallb_Forall IHa).
  - apply tuple_shape_iff.
    induction IHts as [|a ts Ha Hts IH]; intros [|y l']; try (split; [discriminate|contradiction]);
      [split; auto|]. rewrite andb_true_iff, Ha, IH. reflexivity.
  - apply tuple_shape_iff, (forallb_Forall IHa).
  - assert (forall p, conformsb T k (fst p) && conformsb T x (snd p) = true <->
                      conforms T k (fst p) /\ conforms T x (snd p)) as Hp.
    { intros p. now rewrite andb_true_iff, IHk, IHx. }
    split.
    + destruct v; try discriminate. intros H. eexists _, _. split; [reflexivity|]. now apply (forallb_Forall Hp).
    + intros [g [l [-> H]]]. now apply (forallb_Forall Hp).
  - split.
    + destruct v as [| | | | | | | | | |g fr' l|]; try discriminate. rewrite andb_true_iff. intros [E H].
      apply eqb_prop in E. subst. eexists _, _. split; [reflexivity|]. now apply (forallb_Forall IHa).
    + intros [g [l [-> H]]]. rewrite eqb_reflx. now apply (forallb_Forall IHa).
  - induction IHts as [|a ts Ha Hts IH]; cbn; [split; [discriminate|contradiction]|].
    rewrite orb_true_iff, Ha, IH. reflexivity.
  - apply list_shape_iff, (forallb_Forall IHa).
Qed.
