(* Proofs/StateComb.v — C02: the combiner path of State.prepare_states.  Whatever the removal returned, the mapping loop
   yields a partition of the jobs into increasing groups, because that is its invariant (parts, combined_partition).  When
   the removal returned the RPN of the pruned splitter, the loop's dict lookup by index tuple is the reference's comparison
   of what is left of a job once the combined fields are forgotten (find_add, mapping_groups), so the groups are the
   reference's (combined_pruned).  Also what prune and linked are (prune_spec, in_linked), and that expand lists no job
   twice (expand_nodup). *)
From Coq Require Import Permutation Sorting.Sorted.
From Pydra Require Import Base.Prelude Model.State Spec.State Proofs.State Proofs.ListFacts.

(* the invariant of the mapping loop is its result: the jobs below n, each in exactly one group, every group increasing *)
Definition parts (n : nat) (m : list (list nat)) : Prop :=
  Permutation (List.concat m) (seq 0 n) /\ Forall (StronglySorted lt) m.

Lemma sorted_snoc n l : StronglySorted lt l -> (forall y, In y l -> y < n) -> StronglySorted lt (l ++ [n]).
Proof. intros S B. apply SSorted_app. repeat split; [exact S|repeat constructor|]. intros a b Ha [<-|[]]. now apply B. Qed.

Lemma sorted_seq a n : StronglySorted lt (seq a n).
Proof.
  revert a. induction n as [|n IH]; intros a; cbn [seq]; constructor; [apply IH|].
  apply Forall_forall. intros x Hx. apply in_seq in Hx. lia.
Qed.

Lemma lookup_last_bound k l : forall i acc g, lookup_last k l i acc = Some g ->
  acc = Some g \/ (i <= g < i + List.length l).
Proof.
  induction l as [|x l IH]; intros i acc g H; cbn [lookup_last List.length] in *; [left; exact H|].
  apply IH in H. destruct H as [H|H]; [|right; lia].
  destruct (list_eqb Nat.eqb k x); [inversion H; subst; right; lia| left; exact H].
Qed.

Lemma add_at_spec g ii : forall m, g < List.length m ->
  List.length (add_at g ii m) = List.length m /\
  Permutation (List.concat (add_at g ii m)) (ii :: List.concat m) /\
  (Forall (StronglySorted lt) m -> (forall y, In y (List.concat m) -> y < ii) -> Forall (StronglySorted lt) (add_at g ii m)).
Proof.
  induction g as [|g IH]; intros [|x m] Hg; cbn [List.length] in Hg; try lia; cbn [add_at List.length List.concat].
  - split; [reflexivity|]. split.
    + rewrite <- app_assoc. cbn [app]. rewrite (Permutation_app_comm x (ii :: List.concat m)). cbn [app].
      constructor. apply Permutation_app_comm.
    + intros F B. inversion F; subst. constructor; [|assumption].
      apply sorted_snoc; [assumption|]. intros y Hy. apply B, in_or_app. auto.
  - destruct (IH m ltac:(lia)) as (L & P & Srt). split; [rewrite L; reflexivity|]. split.
    + rewrite P. rewrite Permutation_middle. reflexivity.
    + intros F B. inversion F; subst. constructor; [assumption|]. apply Srt; [assumption|]. intros y Hy. apply B, in_or_app. auto.
Qed.

Lemma fill_mapping_parts keysf fin : forall si ii m0 m,
  fill_mapping si ii keysf fin m0 = Some m -> List.length m0 = List.length fin -> parts ii m0 ->
  parts (ii + List.length si) m.
Proof.
  induction si as [|a si IH]; intros ii m0 m H L [P F]; cbn [fill_mapping List.length] in *.
  - inversion H; subst. rewrite Nat.add_0_r. split; assumption.
  - destruct (lookup_last _ fin 0 None) as [g|] eqn:E; [|discriminate].
    apply lookup_last_bound in E as [E|E]; [discriminate|].
    destruct (add_at_spec g ii m0 ltac:(lia)) as (L' & P' & Srt').
    rewrite <- Nat.add_succ_comm. apply (IH (S ii) (add_at g ii m0) m H); [lia|]. split.
    + rewrite P', P, seq_S. cbn [Nat.add]. apply Permutation_cons_append.
    + apply Srt'; [exact F|]. intros y Hy. apply (Permutation_in _ P), in_seq in Hy. lia.
Qed.

Lemma concat_singletons (l : list nat) : List.concat (map (fun i => [i]) l) = l.
Proof. induction l as [|x l IH]; cbn; [reflexivity| now rewrite IH]. Qed.

Theorem combined_partition e s comb si m :
  prepare_combined e s comb = inr (si, m) -> parts (List.length si) m.
Proof.
  unfold prepare_combined. intros H.
  destruct (combiner_all_of (rpn s) comb) as [x|call]; [discriminate|].
  destruct (prepare_states e s) as [si'|x]; [|discriminate].
  assert (One : forall n, parts n [seq 0 n]).
  { intros n. split; [cbn [List.concat]; rewrite app_nil_r; reflexivity|]. constructor; [|constructor]. apply sorted_seq. }
  destruct comb as [|c comb'].
  - inversion H; subst. split; [rewrite concat_singletons; reflexivity|].
    apply Forall_forall. intros g Hg. apply in_map_iff in Hg as (i & <- & _). repeat constructor.
  - destruct (remove_rpn (rpn s) call) as [[|t crpn]|]; [inversion H; subst; apply One| |discriminate].
    destruct (splits e (t :: crpn)) as [[[|f fin] keysf]|x]; [inversion H; subst; apply One| |discriminate].
    destruct (fill_mapping si' 0 keysf (f :: fin) (map (fun _ => []) (f :: fin))) as [m'|] eqn:F; [|discriminate].
    inversion H; subst. apply (fill_mapping_parts keysf (f :: fin) si 0 _ m F); [rewrite map_length; reflexivity|]. split.
    + clear. induction (f :: fin) as [|? ? IH]; cbn; [reflexivity| exact IH].
    + apply Forall_forall. intros g Hg. apply in_map_iff in Hg as (? & <- & _). constructor.
Qed.

Definition keepf (gone : list nat) (f : nat) : bool := negb (memb f gone).
Definition pruned_list (gone : list nat) (l : list spl) : list spl :=
  flat_map (fun x => match prune gone x with Some y => [y] | None => [] end) l.

Lemma prune_outer gone l : prune gone (Outer l) = match pruned_list gone l with [] => None | l' => Some (Outer l') end.
Proof. reflexivity. Qed.
Lemma prune_inner gone l : prune gone (Inner l) = match pruned_list gone l with [] => None | l' => Some (Inner l') end.
Proof. reflexivity. Qed.

Lemma pruned_list_cons gone x l :
  pruned_list gone (x :: l) = match prune gone x with Some y => y :: pruned_list gone l | None => pruned_list gone l end.
Proof. unfold pruned_list. cbn [flat_map]. destruct (prune gone x); reflexivity. Qed.

Lemma prune_node gone dot l :
  prune gone (node dot l) = match pruned_list gone l with [] => None | l' => Some (node dot l') end.
Proof. destruct dot; reflexivity. Qed.

Lemma prune_spec gone s :
  match prune gone s with
  | Some s' => (wfb s = true -> wfb s' = true) /\ leaves s' = filter (keepf gone) (leaves s)
  | None => filter (keepf gone) (leaves s) = []
  end.
Proof.
  induction s as [f|dot l IH] using spl_node_ind.
  - cbn [prune leaves filter]. unfold keepf. destruct (memb f gone); cbn [negb]; [reflexivity| split; [auto|reflexivity]].
  - assert (A : (forallb wfb l = true -> forallb wfb (pruned_list gone l) = true) /\
                flat_map leaves (pruned_list gone l) = filter (keepf gone) (flat_map leaves l)).
    { induction l as [|x l IHl]; [split; reflexivity|].
      apply Forall_cons_iff in IH as [Hx IH]. specialize (IHl IH) as [W Lv].
      rewrite pruned_list_cons. cbn [flat_map forallb]. rewrite filter_app, andb_true_iff.
      destruct (prune gone x) as [y|].
      - destruct Hx as [Wy Ly]. cbn [flat_map forallb]. rewrite Ly, Lv, andb_true_iff. tauto.
      - rewrite Hx, Lv. tauto. }
    destruct A as [W Lv]. rewrite prune_node, leaves_node, wfb_node, <- Lv.
    destruct (pruned_list gone l) as [|y l'] eqn:P; [reflexivity|].
    rewrite leaves_node, wfb_node. split; [|reflexivity]. destruct l as [|x l]; [discriminate| exact W].
Qed.

Definition uniform (a : list assignment) : Prop := exists n, Forall (fun x => List.length x = n) a.

Lemma nodup_cart a b : NoDup a -> NoDup b -> uniform a -> NoDup (cart a b).
Proof.
  intros Na Nb [n U]. induction a as [|x a IH]; [constructor|].
  change (cart (x :: a) b) with (map (fun y => x ++ y) b ++ cart a b).
  inversion Na as [|? ? Hx Na']; subst. inversion U as [|? ? Lx U']; subst.
  apply NoDup_app_intro.
  - apply FinFun.Injective_map_NoDup; [intros y y'; apply app_inv_head| exact Nb].
  - apply IH; assumption.
  - intros z H1 H2. apply in_map_iff in H1 as (y & <- & Hy). apply in_cart in H2 as (x' & y' & Hx' & Hy' & E).
    rewrite Forall_forall in U'. apply app_eq_len in E as [-> _]; [contradiction| symmetry; apply U'; exact Hx'].
Qed.

Lemma nodup_pairup (a : list assignment) : forall b, NoDup a -> uniform a -> NoDup (pairup a b).
Proof.
  induction a as [|x a IH]; intros [|y b] Na [n U]; cbn [pairup]; try constructor.
  - inversion Na as [|? ? Hx Na']; subst. inversion U as [|? ? Lx U']; subst.
    intros H. apply in_pairup in H as (x' & y' & Hx' & _ & E).
    rewrite Forall_forall in U'. apply app_eq_len in E as [-> _]; [contradiction| symmetry; apply U'; exact Hx'].
  - inversion Na; subst. inversion U; subst. apply IH; [assumption| exists (List.length x); assumption].
Qed.

Lemma good_uniform e lv a : Forall (good e lv) a -> uniform a.
Proof. intros G. exists (List.length lv). eapply Forall_impl; [|exact G]. intros x [<- _]. symmetry. apply map_length. Qed.

Lemma expand_nodup [e s a sh] : expand e s = Some (a, sh) -> NoDup a.
Proof.
  intros E. apply (expand_preserves e (fun lv a _ => Forall (good e lv) a /\ NoDup a)) in E; [apply E| | |].
  - intros f. split; [apply good_leaf|].
    apply FinFun.Injective_map_NoDup; [|apply seq_NoDup]. intros i j H. inversion H. reflexivity.
  - intros la a1 _ lb b1 _ [G1 N1] [G2 N2].
    split; [eapply good_prod; [intros z; apply in_cart| assumption..]| apply nodup_cart; [assumption..| exact (good_uniform e la a1 G1)]].
  - intros la a1 _ lb b1 [G1 N1] [G2 N2].
    split; [eapply good_prod; [intros z; apply in_pairup| assumption..]| apply nodup_pairup; [assumption| exact (good_uniform e la a1 G1)]].
Qed.

Fixpoint find_idx (k : idx) (l : list idx) : option nat :=
  match l with [] => None | x :: r => if list_eqb Nat.eqb k x then Some 0 else option_map S (find_idx k r) end.

Lemma find_idx_none k l : ~ In k l -> find_idx k l = None.
Proof.
  induction l as [|x l IH]; intros H; cbn [find_idx]; [reflexivity|].
  destruct (list_eqb Nat.eqb k x) eqn:E; [apply nat_list_eqb_eq in E; subst; exfalso; apply H; left; reflexivity|].
  rewrite IH; [reflexivity| intros Hin; apply H; right; exact Hin].
Qed.

Lemma lookup_last_nodup k : forall l i acc, NoDup l ->
  lookup_last k l i acc = match find_idx k l with Some j => Some (i + j) | None => acc end.
Proof.
  induction l as [|x l IH]; intros i acc N; cbn [lookup_last find_idx]; [reflexivity|].
  inversion N as [|? ? Hx N']; subst. rewrite (IH _ _ N').
  destruct (list_eqb Nat.eqb k x) eqn:E.
  - apply nat_list_eqb_eq in E. subst. rewrite (find_idx_none x l Hx). f_equal. lia.
  - destruct (find_idx k l) as [j|]; cbn [option_map]; [f_equal; lia| reflexivity].
Qed.

(* the keys ks of the dict are told apart by h; P says which of them the looked-up x is: the lookup fails when it is none of
   them, and otherwise appends the job ii to the group of that one *)
Lemma find_add {K} (h : K -> idx) (F : K -> list nat) (P : K -> bool) x ii : forall ks,
  NoDup (map h ks) -> (forall k, In k ks -> P k = true <-> x = h k) ->
  option_map (fun g => add_at g ii (map F ks)) (find_idx x (map h ks)) =
  if existsb P ks then Some (map (fun k => F k ++ if P k then [ii] else []) ks) else None.
Proof.
  induction ks as [|k ks IH]; intros N H; [reflexivity|]. cbn [map find_idx existsb]. inversion N as [|? ? Hk N']; subst.
  pose proof (H k (or_introl eq_refl)) as Hk0. destruct (list_eqb Nat.eqb x (h k)) eqn:E.
  - apply nat_list_eqb_eq in E. rewrite (proj2 Hk0 E). cbn [orb option_map add_at]. do 2 f_equal. apply map_ext_in. intros k' Hk'.
    destruct (P k') eqn:E'; [|symmetry; apply app_nil_r]. exfalso. apply Hk. apply (H k' (or_intror Hk')) in E'.
    rewrite <- E, E'. apply in_map. exact Hk'.
  - destruct (P k); [rewrite (proj2 (nat_list_eqb_eq _ _) (proj1 Hk0 eq_refl)) in E; discriminate|]. cbn [orb]. rewrite app_nil_r.
    specialize (IH N' (fun k' Hk' => H k' (or_intror Hk'))).
    destruct (find_idx x (map h ks)), (existsb P ks); cbn [option_map add_at] in *; congruence.
Qed.

Lemma kv_eqb_eq x y : kv_eqb x y = true <-> x = y.
Proof. exact (pair_eqb_ok Nat.eqb_eq Nat.eqb_eq x y). Qed.
Lemma key_eqb_eq a b : key_eqb a b = true <-> a = b.
Proof. apply list_eqb_spec. apply kv_eqb_eq. Qed.
Lemma key_eqb_refl a : key_eqb a a = true.
Proof. apply key_eqb_eq. reflexivity. Qed.
Lemma key_eqb_sym a b : key_eqb a b = key_eqb b a.
Proof. apply Bool.eq_true_iff_eq. rewrite !key_eqb_eq. split; congruence. Qed.

Lemma has_key_in k l : has_key k l = true <-> In k l.
Proof. exact (existsb_eqb_In key_eqb key_eqb_eq k l). Qed.

Lemma fst_snd_eq (a b : assignment) : map fst a = map fst b -> map snd a = map snd b -> a = b.
Proof.
  revert b. induction a as [|[k v] a IH]; intros [|[k' v'] b] F S; cbn in *; try discriminate; [reflexivity|].
  inversion F; inversion S; subst. f_equal. apply IH; assumption.
Qed.

Lemma forget_fst gone a : map fst (forget gone a) = filter (keepf gone) (map fst a).
Proof.
  unfold forget, keepf. induction a as [|[k v] a IH]; cbn [filter map fst]; [reflexivity|].
  destruct (negb (memb k gone)); cbn [map fst]; rewrite IH; reflexivity.
Qed.

Lemma assoc_get_in (a : assignment) : NoDup (map fst a) -> forall k v, In (k, v) a -> assoc_get k a = v.
Proof.
  induction a as [|[k0 v0] a IH]; intros N k v H; [contradiction|]. cbn [map fst] in N. inversion N as [|? ? Hk N']; subst.
  cbn [assoc_get]. destruct H as [[= -> ->]|H]; [rewrite Nat.eqb_refl; reflexivity|].
  destruct (Nat.eqb k k0) eqn:E; [|exact (IH N' k v H)]. apply Nat.eqb_eq in E. subst. exfalso. apply Hk, (in_map fst _ _ H).
Qed.

(* tuple(st[k] for k in keys_final): the dict key fill_mapping looks up for job a *)
Definition keyf (keysf : list nat) (a : assignment) : idx := map (fun k => assoc_get k a) keysf.

Lemma keyf_forget gone a lv : map fst a = lv -> NoDup lv -> keyf (filter (keepf gone) lv) a = map snd (forget gone a).
Proof.
  intros <- N. unfold keyf. rewrite <- forget_fst, map_map. apply map_ext_in. intros [k v] H.
  apply (assoc_get_in a N). apply filter_In in H. apply H.
Qed.

Lemma keyf_eq gone lv a k : map fst a = lv -> NoDup lv -> map fst k = filter (keepf gone) lv ->
  keyf (filter (keepf gone) lv) a = map snd k <-> forget gone a = k.
Proof.
  intros Fa N Fk. rewrite (keyf_forget gone a lv Fa N). split; [|intros <-; reflexivity].
  intros E. apply fst_snd_eq; [rewrite forget_fst, Fa, Fk; reflexivity| exact E].
Qed.

Lemma ixs_nodup (a : list assignment) lv : NoDup a -> (forall x, In x a -> map fst x = lv) -> NoDup (ixs a).
Proof.
  intros N F. unfold ixs. induction a as [|x a IH]; cbn [map]; constructor; inversion N as [|? ? Hx N']; subst.
  - intros H. apply in_map_iff in H as (y & E & Hy).
    assert (x = y) by (apply fst_snd_eq; [rewrite (F y (or_intror Hy)); apply F; left; reflexivity| symmetry; exact E]). subst. contradiction.
  - apply IH; [assumption| intros y Hy; apply F; right; exact Hy].
Qed.

Lemma tok_eqb_eq x y : tok_eqb x y = true <-> x = y.
Proof.
  destruct x as [f| |], y as [f'| |]; cbn [tok_eqb]; try (split; [discriminate|discriminate]); try (split; reflexivity).
  rewrite Nat.eqb_eq. split; [intros ->; reflexivity| intros E; inversion E; reflexivity].
Qed.

Lemma mapping_groups gone lv (ks : list assignment) : NoDup lv ->
  (forall k, In k ks -> map fst k = filter (keepf gone) lv) -> NoDup (ixs ks) ->
  forall js ii F, (forall a, In a js -> map fst a = lv) ->
  fill_mapping js ii (filter (keepf gone) lv) (ixs ks) (map F ks) =
  if forallb (fun k => has_key k ks) (map (forget gone) js)
  then Some (map (fun k => F k ++ positions k (map (forget gone) js) ii) ks) else None.
Proof.
  intros ND Fks Nfin. induction js as [|a js IH]; intros ii F Fjs; cbn [fill_mapping map forallb positions].
  - f_equal. apply map_ext. intros k. symmetry. apply app_nil_r.
  - rewrite (lookup_last_nodup _ _ 0 None Nfin). fold (keyf (filter (keepf gone) lv) a).
    (* the model compares index tuples, the reference what is left of the job: the same test *)
    assert (Kq : forall k, In k ks -> key_eqb (forget gone a) k = true <-> keyf (filter (keepf gone) lv) a = map snd k).
    { intros k Hk. rewrite key_eqb_eq. symmetry. apply keyf_eq; [apply Fjs; left; reflexivity| exact ND| apply Fks; exact Hk]. }
    pose proof (find_add (K := assignment) (map snd) F _ _ ii ks Nfin Kq) as S. change (map (map snd) ks) with (ixs ks) in S.
    unfold has_key at 1.
    destruct (find_idx _ (ixs ks)) as [g|], (existsb _ ks); cbn [option_map andb Nat.add] in *; try discriminate S; [|reflexivity].
    injection S as ->. rewrite IH by (intros b Hb; apply Fjs; right; exact Hb).
    destruct (forallb _ _); [|reflexivity]. f_equal. apply map_ext. intros k.
    rewrite <- app_assoc, (key_eqb_sym k). destruct (key_eqb _ k); reflexivity.
Qed.

Theorem combined_pruned e s comb :
  wfb s = true -> NoDup (leaves s) -> comb <> [] -> (forall f, In f (leaves s) -> nprod (e f) >= 1) ->
  good_removalb s comb = true ->
  groups_of (prepare_combined e s comb) = spec_groups_pruned e s comb.
Proof.
  intros W ND Hc Hpos G. unfold good_removalb in G.
  unfold prepare_combined, spec_groups_pruned.
  destruct (combiner_all_of (rpn s) comb) as [x|call] eqn:Ecall; [discriminate|].
  apply andb_true_iff in G as [_ G].
  destruct (remove_rpn (rpn s) call) as [crpn|] eqn:Erm; [|discriminate].
  apply (list_eqb_spec tok_eqb tok_eqb_eq) in G. subst crpn.
  rewrite (prepare_states_spec e s W). unfold spec_result. unfold jobs at 1 2.
  destruct (expand e s) as [[js sh]|] eqn:Es; cbn [groups_of]; [|reflexivity].
  destruct comb as [|c0 comb']; [congruence|]. set (comb := c0 :: comb') in *.
  set (gone := linked s comb) in *.
  pose proof (prune_spec gone s) as Hp. destruct (prune gone s) as [s'|]; [|reflexivity].
  destruct Hp as [Ws' Ls']. specialize (Ws' W).
  pose proof (rpn_nonempty s' Ws') as Hne. pose proof (splits_rpn e s' Ws') as Hsp. unfold jobs.
  destruct (rpn s') as [|t p] eqn:Erpn; [congruence|]. rewrite Hsp, Ls'.
  destruct (expand e s') as [[ks sh']|] eqn:Es'; cbn [groups_of]; [|reflexivity].
  assert (Hks : ks <> []).
  { eapply expand_nonempty; [|exact Es']. intros f Hf. apply Hpos. rewrite Ls' in Hf. apply filter_In in Hf. tauto. }
  assert (Fks : forall k, In k ks -> map fst k = filter (keepf gone) (leaves s)).
  { intros k Hk. rewrite <- Ls'. exact (expand_keys Es' Hk). }
  assert (Nfin : NoDup (ixs ks)).
  { apply (ixs_nodup ks (filter (keepf gone) (leaves s))); [apply (expand_nodup Es')| exact Fks]. }
  (* the model tests the remaining jobs for emptiness before the loop; they are not empty, every field having an element *)
  destruct (ixs ks) as [|f0 fin] eqn:Eix; [destruct ks; [congruence|discriminate]|]. rewrite <- Eix in *.
  (* mapping_groups has the table over the jobs ks, the model builds it over their index tuples *)
  replace (map (fun _ => []) (ixs ks)) with (map (fun _ : assignment => @nil nat) ks) by (symmetry; apply map_map).
  rewrite (mapping_groups gone (leaves s) ks ND Fks Nfin js 0 _ (fun a => expand_keys Es)).
  destruct (forallb (fun k => has_key k ks) (map (forget gone) js)); reflexivity.
Qed.

Corollary combined_all e s comb js :
  wfb s = true -> NoDup (leaves s) -> comb <> [] -> (forall f, In f (leaves s) -> nprod (e f) >= 1) ->
  good_removalb s comb = true -> jobs e s = Some js -> prune (linked s comb) s = None ->
  groups_of (prepare_combined e s comb) = Some [seq 0 (List.length js)].
Proof.
  intros W ND Hc Hpos G J P. rewrite (combined_pruned e s comb W ND Hc Hpos G).
  unfold spec_groups_pruned. rewrite J, P. reflexivity.
Qed.

Lemma in_linked s comb x :
  In x (linked s comb) <-> exists ax, In ax (axes s) /\ In x ax /\ exists c, In c ax /\ In c comb.
Proof.
  unfold linked. rewrite in_flat_map. split.
  - intros (ax & Hax & Hx). destruct (existsb (fun f => memb f comb) ax) eqn:E; [|contradiction].
    apply existsb_exists in E as (c & Hc & Mc). apply memb_In in Mc. eauto 6.
  - intros (ax & Hax & Hx & c & Hc & Hcc). exists ax. split; [exact Hax|].
    rewrite (proj2 (existsb_exists _ _)); [exact Hx|]. exists c. split; [exact Hc| apply memb_In; exact Hcc].
Qed.

Lemma linked_axis s comb ax f g : In ax (axes s) -> In f ax -> In f comb -> In g ax -> In g (linked s comb).
Proof. intros Hax Hf Hc Hg. apply in_linked. eauto 7. Qed.
