(* Proofs/HashSort.v — facts about Base/PySort.v (CPython's small-list sort):
   - the output is a permutation of the input whenever the sort does not raise;
   - when `<` is a strict total order on the (pairwise distinct) elements, the sort does not raise and
     its output is strictly sorted;
   - a strictly sorted permutation is unique, hence the output does not depend on the input order;
   - related inputs (same comparisons) give related outputs; this is said with `Forall2` and `orel` (two optional
     results, both missing or related), and the `Forall2` facts (F2_impl_in … F2_rev) that it and the Hash files after it need
     stand here, before Section SortRel. *)
From Coq Require Import Sorting.Permutation Sorting.Sorted.
From Pydra Require Import Base.Prelude Base.PySort Proofs.ListFacts.

Lemma mid_split {A} : forall l : list A,
    l = [] \/ exists a p b, l = a ++ p :: b /\ List.length a = Nat.div2 (List.length l).
Proof.
  intros [|a0 l0]; [now left|right]. set (l := a0 :: l0). set (k := Nat.div2 (List.length l)).
  assert (Hk : k < List.length l) by (apply Nat.lt_div2; cbn; lia).
  pose proof (firstn_skipn k l) as Hs. pose proof (firstn_length_le l (Nat.lt_le_incl _ _ Hk)) as Hl.
  destruct (skipn k l) as [|p b].
  - rewrite app_nil_r in Hs. rewrite Hs in Hl. lia.
  - exists (firstn k l), p, b. auto.
Qed.

Section SortFacts.
  Context {A : Type}.
  Variable lt : A -> A -> option bool.
  Definition precedes (x y : A) : Prop := lt x y = Some true.

  (* one probe of the binary search: the list split at its middle element *)
  Lemma bins_mid : forall f x a p b, List.length a = Nat.div2 (List.length (a ++ p :: b)) ->
      bins lt (S f) x (a ++ p :: b) =
      match lt x p with
      | None => None
      | Some true => option_map (fun a' => a' ++ p :: b) (bins lt f x a)
      | Some false => option_map (fun b' => a ++ p :: b') (bins lt f x b)
      end.
  Proof.
    intros f x a p b E. destruct (a ++ p :: b) as [|a0 l0] eqn:El; [destruct a; discriminate|].
    cbn [bins]. rewrite <- E, <- El, skipn_app, firstn_app, skipn_all, firstn_all, Nat.sub_diag, app_nil_r. reflexivity.
  Qed.

  Lemma bins_perm : forall f x l l', bins lt f x l = Some l' -> Permutation (x :: l) l'.
  Proof.
    induction f as [|f IH]; intros x l l' E.
    - destruct l; cbn in E; [inversion E; auto|discriminate].
    - destruct (mid_split l) as [->|(a & p & b & -> & Ek)]; [cbn in E; inversion E; auto|]. rewrite bins_mid in E by exact Ek.
      destruct (lt x p) as [[|]|]; [| |discriminate].
      + destruct (bins lt f x a) as [a'|] eqn:Eb; [|discriminate]. cbn in E. inversion E; subst l'.
        apply IH in Eb. now rewrite <- Eb.
      + destruct (bins lt f x b) as [b'|] eqn:Eb; [|discriminate]. cbn in E. inversion E; subst l'.
        apply IH in Eb. rewrite <- Eb, <- !Permutation_middle. apply perm_swap.
  Qed.

  Lemma run_desc_perm : forall l prev acc run rest,
      run_desc lt prev acc l = Some (run, rest) -> Permutation (acc ++ l) (run ++ rest).
  Proof.
    induction l as [|c r IH]; intros prev acc run rest E; cbn in E.
    - inversion E; subst. reflexivity.
    - destruct (lt c prev) as [[|]|]; [| |discriminate].
      + apply IH in E. rewrite <- E. cbn. symmetry. apply Permutation_middle.
      + inversion E; subst. reflexivity.
  Qed.

  Lemma run_asc_perm : forall l prev acc run rest,
      run_asc lt prev acc l = Some (run, rest) -> Permutation (rev acc ++ l) (run ++ rest).
  Proof.
    induction l as [|c r IH]; intros prev acc run rest E; cbn in E.
    - inversion E; subst. reflexivity.
    - destruct (lt c prev) as [[|]|]; [| |discriminate].
      + inversion E; subst. reflexivity.
      + apply IH in E. rewrite <- E. cbn. rewrite <- app_assoc. reflexivity.
  Qed.

  Lemma fold_ins_perm : forall rest run l',
      fold_left (ins_step lt) rest (Some run) = Some l' -> Permutation (run ++ rest) l'.
  Proof.
    induction rest as [|e rest IH]; intros run l' E; cbn in E.
    - inversion E; subst. now rewrite app_nil_r.
    - destruct (bins lt (List.length run) e run) as [run'|] eqn:Eb.
      + apply IH in E. rewrite <- E. apply bins_perm in Eb.
        rewrite <- Eb. cbn. symmetry. apply Permutation_middle.
      + (* once an insertion has raised, the fold stays None *)
        exfalso. clear -E. induction rest; cbn in E; [discriminate|auto].
  Qed.

  Theorem py_sorted_perm : forall l l', py_sorted lt l = Some l' -> Permutation l l'.
  Proof.
    intros l l' E. destruct l as [|x [|y r]]; cbn in E; try (inversion E; subst; reflexivity).
    destruct (lt y x) as [d|]; [|discriminate].
    destruct d.
    - destruct (run_desc lt y [y; x] r) as [[run rest]|] eqn:Er; [|discriminate].
      apply run_desc_perm in Er. apply fold_ins_perm in E. rewrite <- E, <- Er. cbn. constructor.
    - destruct (run_asc lt y [y; x] r) as [[run rest]|] eqn:Er; [|discriminate].
      apply run_asc_perm in Er. apply fold_ins_perm in E. rewrite <- E, <- Er. cbn. reflexivity.
  Qed.

  Lemma SS_insert : forall a b x,
      StronglySorted precedes (a ++ b) -> Forall (fun y => precedes y x) a -> Forall (precedes x) b ->
      StronglySorted precedes (a ++ x :: b).
  Proof.
    intros a b x Hs Ha Hb. apply SSorted_app in Hs. destruct Hs as (Sa & Sb & Hab).
    apply SSorted_app. repeat split; auto; [constructor; auto|].
    intros u v Hu [<-|Hv]; [|auto]. rewrite Forall_forall in Ha. auto.
  Qed.

  Variable P : A -> Prop.
  Hypothesis lt_def : forall x y, P x -> P y -> exists b, lt x y = Some b.
  Hypothesis lt_trans : forall x y z, P x -> P y -> P z -> precedes x y -> precedes y z -> precedes x z.
  Hypothesis lt_asym : forall x y, P x -> P y -> precedes x y -> precedes y x -> False.
  Hypothesis lt_total : forall x y, P x -> P y -> x <> y -> precedes x y \/ precedes y x.

  Lemma lt_false_gt : forall x y, P x -> P y -> x <> y -> lt x y = Some false -> precedes y x.
  Proof.
    intros x y Hx Hy Hne E. destruct (lt_total x y Hx Hy Hne) as [H|H]; [|exact H].
    unfold precedes in H. congruence.
  Qed.

  Lemma bins_split : forall f x l,
      P x -> Forall P l -> ~ In x l -> StronglySorted precedes l -> List.length l <= f ->
      exists a b, l = a ++ b /\ bins lt f x l = Some (a ++ x :: b) /\
                  Forall (fun y => precedes y x) a /\ Forall (precedes x) b.
  Proof.
    induction f as [|f IH]; intros x l Hx Hl Hnin Hs Hlen.
    - destruct l; [|cbn in Hlen; lia]. exists [], []. repeat split; constructor.
    - destruct (mid_split l) as [->|(A0 & p & B & -> & Ek)]; [exists [], []; repeat split; constructor|].
      rewrite bins_mid by exact Ek.
      rewrite app_length in Hlen. cbn [List.length] in Hlen.
      apply SSorted_app in Hs. destruct Hs as (HsA & HsB & HAB). inversion HsB as [|? ? HsB' HpB]; subst.
      apply Forall_app in Hl. destruct Hl as [HPA HPpB]. inversion HPpB as [|? ? HPp HPB]; subst.
      assert (Hxp : x <> p) by (intros ->; apply Hnin, in_elt).
      rewrite in_app_iff in Hnin. cbn [In] in Hnin. rewrite Forall_forall in HPA, HPB, HpB.
      destruct (lt_def x p Hx HPp) as [[|] Elt]; rewrite Elt.
      + destruct (IH x A0 Hx) as (a & b & Ea & Eb & Fa & Fb); [now apply Forall_forall|tauto|exact HsA|lia|].
        rewrite Eb. cbn [option_map]. exists a, (b ++ p :: B). rewrite Ea, <- !app_assoc. repeat split; auto.
        apply Forall_app. split; [exact Fb|]. constructor; [exact Elt|].
        apply Forall_forall. intros e He. apply (lt_trans x p e); auto.
      + destruct (IH x B Hx) as (a & b & Ea & Eb & Fa & Fb); [now apply Forall_forall|tauto|exact HsB'|lia|].
        rewrite Eb. cbn [option_map]. exists (A0 ++ p :: a), b. rewrite Ea, <- !app_assoc. repeat split; auto.
        assert (Hpx : precedes p x) by (apply lt_false_gt; auto).
        apply Forall_app. split; [|constructor; auto].
        apply Forall_forall. intros e He. apply (lt_trans e p x); auto. apply HAB; [exact He|now left].
  Qed.

  Lemma fold_ins_sorted : forall rest run,
      Forall P (run ++ rest) -> NoDup (run ++ rest) -> StronglySorted precedes run ->
      exists l', fold_left (ins_step lt) rest (Some run) = Some l' /\ StronglySorted precedes l'.
  Proof.
    induction rest as [|e rest IH]; intros run HP Hnd Hs; cbn.
    - eexists; split; [reflexivity|exact Hs].
    - pose proof HP as HP'. apply Forall_app in HP'. destruct HP' as [HPr HPe]. inversion HPe as [|? ? HPe' _]; subst.
      assert (Hnin : ~ In e run).
      { intros Hin. apply NoDup_remove_2 in Hnd. apply Hnd, in_or_app. now left. }
      destruct (bins_split (List.length run) e run HPe' HPr Hnin Hs (le_n _)) as (a & b & El & Eb & Fa & Fb).
      rewrite Eb. pose proof (bins_perm _ _ _ _ Eb) as Hp. apply IH.
      + rewrite <- Hp. cbn. rewrite Permutation_middle. exact HP.
      + rewrite <- Hp. cbn. rewrite Permutation_middle. exact Hnd.
      + subst run. now apply SS_insert.
  Qed.

  Lemma run_desc_sorted : forall l prev acc',
      P prev -> Forall P acc' -> Forall P l -> StronglySorted precedes (prev :: acc') ->
      exists run rest, run_desc lt prev (prev :: acc') l = Some (run, rest) /\ StronglySorted precedes run.
  Proof.
    induction l as [|c r IH]; intros prev acc' HPp HPa HPl Hs; cbn [run_desc].
    - do 2 eexists; split; [reflexivity|exact Hs].
    - inversion HPl as [|? ? HPc HPr]; subst.
      destruct (lt_def c prev HPc HPp) as [[|] E]; rewrite E.
      + apply (IH c (prev :: acc')); auto. constructor; [exact Hs|]. constructor; [exact E|].
        inversion Hs as [|? ? _ Hf]; subst. rewrite Forall_forall in Hf |- *. intros e He.
        rewrite Forall_forall in HPa. apply (lt_trans c prev e); auto.
      + do 2 eexists; split; [reflexivity|exact Hs].
  Qed.

  Lemma run_asc_sorted : forall l prev acc',
      P prev -> Forall P acc' -> Forall P l -> NoDup (prev :: l) ->
      StronglySorted precedes (rev (prev :: acc')) ->
      exists run rest, run_asc lt prev (prev :: acc') l = Some (run, rest) /\ StronglySorted precedes run.
  Proof.
    induction l as [|c r IH]; intros prev acc' HPp HPa HPl Hnd Hs; cbn [run_asc].
    - do 2 eexists; split; [reflexivity|exact Hs].
    - inversion HPl as [|? ? HPc HPr]; subst. apply NoDup_cons_iff in Hnd. destruct Hnd as [Hnin Hnd'].
      destruct (lt_def c prev HPc HPp) as [[|] E]; rewrite E.
      + do 2 eexists; split; [reflexivity|exact Hs].
      + assert (Hpc : precedes prev c) by (apply lt_false_gt; auto; intros ->; apply Hnin; now left).
        apply IH; auto. change (rev (c :: prev :: acc')) with (rev (prev :: acc') ++ [c]).
        apply (SS_insert _ [] c); [now rewrite app_nil_r| |constructor].
        apply Forall_forall. intros a Ha. apply in_rev in Ha. destruct Ha as [<-|Ha]; [exact Hpc|].
        cbn in Hs. apply SSorted_app in Hs. destruct Hs as (_ & _ & Hs). rewrite Forall_forall in HPa.
        apply (lt_trans a prev c); auto. apply Hs; [now apply in_rev in Ha|now left].
  Qed.

  Theorem py_sorted_sorted : forall l, Forall P l -> NoDup l ->
      exists l', py_sorted lt l = Some l' /\ StronglySorted precedes l'.
  Proof.
    intros l HP Hnd. destruct l as [|x [|y r]].
    - eexists; split; [reflexivity|constructor].
    - eexists; split; [reflexivity|repeat constructor].
    - cbn [py_sorted]. inversion HP as [|? ? HPx HP']; subst. inversion HP' as [|? ? HPy HPr]; subst.
      destruct (proj1 (NoDup_cons_iff _ _) Hnd) as [Hnin Hnd']. assert (Hne : y <> x) by (intros ->; apply Hnin; now left).
      pose proof (perm_swap y x r) as Hsw.
      destruct (lt_def y x HPy HPx) as [[|] E]; rewrite E.
      + destruct (run_desc_sorted r y [x] HPy (Forall_cons _ HPx (Forall_nil _)) HPr) as (run & rest & Er & Hs).
        * repeat constructor. exact E.
        * rewrite Er. apply run_desc_perm in Er. apply fold_ins_sorted; auto; rewrite <- Er, <- Hsw; assumption.
      + destruct (run_asc_sorted r y [x] HPy (Forall_cons _ HPx (Forall_nil _)) HPr) as (run & rest & Er & Hs).
        * exact Hnd'.
        * cbn. repeat constructor. apply lt_false_gt; auto.
        * rewrite Er. apply run_asc_perm in Er. apply fold_ins_sorted; auto; rewrite <- Er; assumption.
  Qed.

  Lemma SS_perm_unique : forall l1 l2,
      Forall P l1 -> StronglySorted precedes l1 -> StronglySorted precedes l2 -> Permutation l1 l2 -> l1 = l2.
  Proof.
    intros l1 l2 HP. apply sorted_perm_unique. rewrite Forall_forall in HP.
    intros x y Hx Hy H1 H2. destruct (lt_asym x y); auto.
  Qed.

  Theorem py_sorted_perm_invariant : forall l1 l2,
      Forall P l1 -> NoDup l1 -> Permutation l1 l2 ->
      exists s, py_sorted lt l1 = Some s /\ py_sorted lt l2 = Some s /\ StronglySorted precedes s.
  Proof.
    intros l1 l2 HP Hnd Hp.
    destruct (py_sorted_sorted l1 HP Hnd) as (s1 & E1 & S1).
    destruct (py_sorted_sorted l2) as (s2 & E2 & S2); [now rewrite <- Hp|now rewrite <- Hp|].
    pose proof (py_sorted_perm _ _ E1) as Q1. pose proof (py_sorted_perm _ _ E2) as Q2.
    assert (s1 = s2) by (apply SS_perm_unique; auto; [now rewrite <- Q1|now rewrite <- Q1, Hp]).
    subst s2. eauto.
  Qed.
End SortFacts.

Lemma F2_impl_in {A B} {P Q : A -> B -> Prop} {l l'} :
  Forall2 P l l' -> (forall a b, In a l -> In b l' -> P a b -> Q a b) -> Forall2 Q l l'.
Proof.
  intros HF. induction HF; intros Himp; constructor; [apply Himp; auto; now left|].
  apply IHHF. intros a b Ha Hb. apply Himp; now right.
Qed.

Lemma F2_refl {A} (R : A -> A -> Prop) : (forall x, R x x) -> forall l, Forall2 R l l.
Proof. intros Hr l. induction l; constructor; auto. Qed.

Lemma F2_diag {A} (R : A -> A -> Prop) l : (forall x, In x l -> R x x) -> Forall2 R l l.
Proof. induction l as [|x l IH]; intros Hl; constructor; [apply Hl; now left|apply IH; intros y Hy; apply Hl; now right]. Qed.

Section Forall2Facts.
  Context {A B : Type}.
  Variable R : A -> B -> Prop.

  Lemma F2_in_l : forall l1 l2 a, Forall2 R l1 l2 -> In a l1 -> exists b, In b l2 /\ R a b.
  Proof.
    induction 1 as [|x y l1 l2 Hxy HF IH]; intros Hin; [contradiction|].
    destruct Hin as [->|Hin]; [exists y; split; [now left|auto]|].
    destruct (IH Hin) as (b & Hb & Hr). exists b. split; [now right|auto].
  Qed.

  Lemma F2_flip : forall l1 l2, Forall2 R l1 l2 -> Forall2 (fun b a => R a b) l2 l1.
  Proof. induction 1; constructor; auto. Qed.

  Lemma F2_combine : forall l l', Forall2 R l l' -> Forall2 (fun a a' => In (a, a') (combine l l')) l l'.
  Proof.
    induction 1 as [|a b l l' Hab HF IH]; cbn [combine]; constructor; [now left|].
    apply (F2_impl_in IH). intros x y _ _ Hin. now right.
  Qed.

  Lemma F2_in_combine : forall l l' a a', Forall2 R l l' -> In (a, a') (combine l l') -> R a a'.
  Proof.
    induction 1 as [|x y l l' Hxy HF IH]; cbn; intros Hin; [contradiction|].
    destruct Hin as [E|Hin]; [inversion E; subst; exact Hxy|auto].
  Qed.

  Lemma F2_rev : forall l l', Forall2 R l l' -> Forall2 R (rev l) (rev l').
  Proof. induction 1; cbn; [constructor|]. apply Forall2_app; auto. Qed.
End Forall2Facts.

(* two optional results: both missing, or both there and related *)
Definition orel {X Y} (R : X -> Y -> Prop) (x : option X) (y : option Y) : Prop :=
  match x, y with Some a, Some b => R a b | None, None => True | _, _ => False end.

Lemma orel_bind {X Y X' Y'} {R : X -> Y -> Prop} {S : X' -> Y' -> Prop} {f : X -> option X'} {g : Y -> option Y'} {x y} :
  orel R x y -> (forall a b, R a b -> orel S (f a) (g b)) ->
  orel S (match x with Some a => f a | None => None end) (match y with Some b => g b | None => None end).
Proof. destruct x, y; cbn; intros Hr Hf; try contradiction; auto. Qed.

Section SortRel.
  Context {A B : Type}.
  Variable lta : A -> A -> option bool.
  Variable ltb : B -> B -> option bool.
  Variable Q : A -> B -> Prop.
  Hypothesis Hlt : forall a a' b b', Q a b -> Q a' b' -> lta a a' = ltb b b'.

  Lemma bins_rel : forall f x y l l', Q x y -> Forall2 Q l l' -> orel (Forall2 Q) (bins lta f x l) (bins ltb f y l').
  Proof.
    induction f as [|f IH]; intros x y l l' Hxy HF.
    - destruct HF; cbn; [repeat constructor; auto|exact Logic.I].
    - destruct (mid_split l) as [->|(a & p & b & -> & Ek)]; [inversion HF; cbn; repeat constructor; auto|].
      apply Forall2_app_inv_l in HF. destruct HF as (a' & r' & Ha & Hr & ->).
      inversion Hr as [|? q ? b' Hpq Hb]; subst.
      rewrite (bins_mid lta f x a p b Ek), (bins_mid ltb f y a' q b').
      2:{ rewrite app_length in *. cbn [List.length] in *.
          now rewrite <- (Forall2_length _ _ _ Ha), <- (Forall2_length _ _ _ Hb). }
      rewrite (Hlt x p y q Hxy Hpq). destruct (ltb y q) as [[|]|]; [| |exact Logic.I].
      + apply (orel_bind (IH x y _ _ Hxy Ha)). intros u v Huv. apply Forall2_app; auto.
      + apply (orel_bind (IH x y _ _ Hxy Hb)). intros u v Huv. apply Forall2_app; auto.
  Qed.

  (* a run and the rest of the list, as count_run leaves them *)
  Definition prel (x : list A * list A) (y : list B * list B) : Prop := Forall2 Q (fst x) (fst y) /\ Forall2 Q (snd x) (snd y).

  Lemma run_desc_rel : forall l l' p q acc acc', Forall2 Q l l' -> Q p q -> Forall2 Q acc acc' ->
      orel prel (run_desc lta p acc l) (run_desc ltb q acc' l').
  Proof.
    intros l l' p q acc acc' HF. revert p q acc acc'.
    induction HF as [|c c' l l' Hc HF IH]; intros p q acc acc' Hpq Hacc; cbn.
    - split; [auto|constructor].
    - rewrite (Hlt c p c' q Hc Hpq). destruct (ltb c' q) as [[|]|]; [| |exact Logic.I].
      + apply IH; auto.
      + split; cbn; auto.
  Qed.

  Lemma run_asc_rel : forall l l' p q acc acc', Forall2 Q l l' -> Q p q -> Forall2 Q acc acc' ->
      orel prel (run_asc lta p acc l) (run_asc ltb q acc' l').
  Proof.
    intros l l' p q acc acc' HF. revert p q acc acc'.
    induction HF as [|c c' l l' Hc HF IH]; intros p q acc acc' Hpq Hacc; cbn.
    - split; [apply F2_rev; auto|constructor].
    - rewrite (Hlt c p c' q Hc Hpq). destruct (ltb c' q) as [[|]|]; [| |exact Logic.I].
      + split; cbn; [apply F2_rev; auto|constructor; auto].
      + apply IH; auto.
  Qed.

  Lemma fold_ins_rel : forall rest rest', Forall2 Q rest rest' -> forall r r', orel (Forall2 Q) r r' ->
      orel (Forall2 Q) (fold_left (ins_step lta) rest r) (fold_left (ins_step ltb) rest' r').
  Proof.
    induction 1 as [|e e' rest rest' He HF IH]; intros r r' Hr; cbn; [exact Hr|].
    apply IH, (orel_bind Hr). intros a a' Ha.
    rewrite <- (Forall2_length _ _ _ Ha). apply bins_rel; auto.
  Qed.

  Theorem py_sorted_rel : forall l l', Forall2 Q l l' -> orel (Forall2 Q) (py_sorted lta l) (py_sorted ltb l').
  Proof.
    intros l l' HF. destruct HF as [|x x' l l' Hx HF]; [cbn; constructor|].
    destruct HF as [|y y' l l' Hy HF]; [cbn; repeat constructor; auto|].
    cbn [py_sorted]. rewrite (Hlt y x y' x' Hy Hx). destruct (ltb y' x') as [[|]|]; [| |exact Logic.I];
      (eapply orel_bind; [apply run_desc_rel || apply run_asc_rel; repeat constructor; auto|]);
      intros [r s] [r' s'] [Hr Hs]; now apply fold_ins_rel.
  Qed.
End SortRel.
