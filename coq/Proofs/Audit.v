(* Proofs/Audit.v — C36: an invariant [Inv] of one job frame (its start and end records around a body that
   satisfies it) carried through any forest of nested executions by [run_job_ind], with one Audit object per job
   and PROV on; without PROV no message is written; the pieces of the executable check against their relations. *)
From Pydra Require Import Base.Prelude Model.Audit Spec.Audit Proofs.ListFacts.
From Coq Require Import Permutation.
Local Open Scope nat_scope.
Local Open Scope list_scope.

Lemma starts_app a b : starts (a ++ b) = starts a ++ starts b.
Proof.
  induction a as [|[d m] a IH]; cbn [app starts]; [reflexivity|].
  destruct m; cbn; rewrite ?IH; reflexivity.
Qed.
Lemma ends_app a b : ends (a ++ b) = ends a ++ ends b.
Proof.
  induction a as [|[d m] a IH]; cbn [app ends]; [reflexivity|].
  destruct m; cbn; rewrite ?IH; reflexivity.
Qed.

Lemma NoDup_app_range (a b : list nat) k :
  NoDup a -> NoDup b -> (forall x, In x a -> x < k) -> (forall x, In x b -> k <= x) -> NoDup (a ++ b).
Proof.
  intros Ha Hb La Lb. apply NoDup_app_intro; [exact Ha|exact Hb|].
  intros x Hxa Hxb. specialize (La x Hxa). specialize (Lb x Hxb). lia.
Qed.

Lemma upd_length h : forall r f, List.length (upd h r f) = List.length h.
Proof. induction h as [|a h IH]; intros [|r] f; cbn; auto. Qed.
Lemma get_upd_same h : forall r f, r < List.length h -> get (upd h r f) r = f (get h r).
Proof.
  unfold get. induction h as [|a h IH]; intros [|r] f; cbn; intros L; try lia; auto.
  apply IH. lia.
Qed.
Lemma get_upd_other h : forall r f i, i <> r -> get (upd h r f) i = get h i.
Proof.
  unfold get. induction h as [|a h IH]; intros [|r] f [|i]; cbn; intros N; try congruence; auto.
Qed.

(* the heap only grows: every reference of h still names the same object in h' *)
Definition pres (h h' : list audit) : Prop :=
  List.length h <= List.length h' /\ forall i, i < List.length h -> get h' i = get h i.
Lemma pres_refl h : pres h h.
Proof. split; auto. Qed.
Lemma pres_trans a b c : pres a b -> pres b c -> pres a c.
Proof.
  intros [L1 G1] [L2 G2]. split; [lia|]. intros i Hi. rewrite G2 by lia. apply G1; assumption.
Qed.
Lemma pres_app h e : pres h (h ++ e).
Proof.
  split; [rewrite app_length; lia|]. intros i Hi. unfold get. apply app_nth1; assumption.
Qed.

(* what a step may do to the heap: only reference r changes *)
Definition only (r : nat) (h h' : list audit) : Prop :=
  List.length h' = List.length h /\ forall i, i <> r -> get h' i = get h i.
Lemma only_refl r h : only r h h.
Proof. split; auto. Qed.
Lemma only_trans r a b c : only r a b -> only r b c -> only r a c.
Proof. intros [L1 G1] [L2 G2]. split; [congruence|]. intros i Hi. rewrite G2, G1; auto. Qed.
Lemma only_upd r h f : only r h (upd h r f).
Proof. split; [apply upd_length|]. intros i Hi. apply get_upd_other; assumption. Qed.
Lemma only_pres h0 r h h' : List.length h0 <= r -> only r h h' -> pres h0 h -> pres h0 h'.
Proof.
  intros L [L1 G1] [L2 G2]. split; [lia|]. intros i Hi. rewrite G1 by lia. auto.
Qed.
Lemma pres_upd h0 h r f : List.length h0 <= r -> pres h0 h -> pres h0 (upd h r f).
Proof. intros L. apply (only_pres h0 r h _ L), only_upd. Qed.

Lemma input_msgs_spec c s files : forall n,
  n <= snd (input_msgs c s files n) /\
  starts (fst (input_msgs c s files n)) = [] /\ ends (fst (input_msgs c s files n)) = [].
Proof.
  induction files as [|f r IH]; intros n; cbn; [auto|].
  destruct (input_msgs c s r (S n)) as [ms n'] eqn:E. specialize (IH (S n)). rewrite E in IH.
  cbn in *. destruct IH as (L & S1 & E1). repeat split; [lia|assumption|assumption].
Qed.

(* job r is under audit as activity a from directory d: what start_audit sets up and finalize_audit relies on *)
Definition opened (c : cfg) (r : nat) (a : uid) (d : loc) (s : sys) : Prop :=
  r < List.length (heap s) /\ a_aid (get (heap s) r) = a /\ a_mon (get (heap s) r) = c_res c /\
  place c s = home (c_md c) d.

Lemma opened_pres c r a d s s' :
  opened c r a d s -> pres (heap s) (heap s') -> cwd s' = cwd s -> opened c r a d s'.
Proof.
  intros (L & A & M & Pl) [Le G] C. unfold opened, place in *. rewrite (G r L), C.
  split; [lia|]. auto.
Qed.

Lemma start_audit_spec c r d s :
  c_prov c = true -> r < List.length (heap s) -> a_mon (get (heap s) r) = false ->
  exists s', start_audit c r d s = (s', [(home (c_md c) d, MStart (next s) (next s + 1))]) /\
  only r (heap s) (heap s') /\ next s' = next s + 2 /\ opened c r (next s) d s'.
Proof.
  intros P L M. unfold start_audit, emit, opened, place, home. rewrite P.
  destruct (c_res c); (eexists; split; [reflexivity|]); cbn [with_heap heap next cwd].
  - rewrite !get_upd_same, !upd_length by (rewrite ?upd_length; exact L).
    split; [eapply only_trans; apply only_upd|]. repeat split. exact L.
  - rewrite get_upd_same, upd_length by exact L. split; [apply only_upd|]. repeat split; [exact L|exact M].
Qed.

Lemma audit_task_spec c r name files shell s :
  exists s' ms, audit_task c r name files shell s = (s', ms) /\
  heap s' = heap s /\ next s <= next s' /\ cwd s' = cwd s /\ starts ms = [] /\ ends ms = [].
Proof.
  unfold audit_task. pose proof (input_msgs_spec c s files (next s)) as H.
  destruct (input_msgs c s files (next s)) as [m n']. cbn [fst snd] in H. destruct H as (L & S1 & E1).
  eexists _, _. split; [reflexivity|]. rewrite starts_app, ends_app, S1, E1. repeat split. exact L.
Qed.

Lemma monitor_spec c r a d s :
  opened c r a d s ->
  exists s' ms, monitor c r s = (s', ms) /\
  only r (heap s) (heap s') /\ next s <= next s' /\ cwd s' = cwd s /\
  opened c r a d s' /\ starts ms = [] /\ ends ms = [].
Proof.
  intros Op. unfold monitor. destruct (c_res c && c_prov c); (eexists _, _; split; [reflexivity|]).
  - destruct Op as (L & A & M & Pl). unfold opened, place in *. cbn [heap next cwd].
    rewrite get_upd_same, upd_length by exact L. split; [apply only_upd|]. repeat split; auto.
  - split; [apply only_refl|]. repeat split; auto; apply Op.
Qed.

Lemma finalize_spec c r a d err s :
  c_prov c = true -> opened c r a d s ->
  exists s' ms, finalize_audit c r err s = Some (s', ms) /\
    only r (heap s) (heap s') /\ next s <= next s' /\
    starts ms = [] /\ ends ms = [(home (c_md c) d, a, err)].
Proof.
  intros P (L & <- & M & Pl). unfold finalize_audit. rewrite M, P. destruct (c_res c); cbn [andb negb].
  - eexists _, _. split; [reflexivity|]. unfold emit, place in *. cbn [heap next cwd starts ends app].
    rewrite !get_upd_same by (rewrite ?upd_length; exact L). rewrite Pl.
    split; [eapply only_trans; apply only_upd|]. repeat split. lia.
  - eexists _, _. split; [reflexivity|]. unfold emit. cbn [starts ends app]. rewrite Pl.
    split; [apply only_refl|]. repeat split. lia.
Qed.

(* the specification, with where the new activity ids lie and what happens to the state *)
Definition Inv (md : option loc) (s s' : sys) (ms : list lmsg) (rs : list res) : Prop :=
  pres (heap s) (heap s') /\ next s <= next s' /\ cwd s' = cwd s /\
  (forall a, In a (map snd (starts ms)) -> next s <= a < next s') /\
  audit_ok md ms rs.

(* a property of runs as a property of what a run returns; the raised flag is left unconstrained *)
Definition of_out (P : sys -> sys -> list lmsg -> list res -> Prop) (s : sys) (o : out) : Prop :=
  let '(s', ms, rs, _) := o in P s s' ms rs.

Lemma Inv_audit_ok {md s s' ms rs} : Inv md s s' ms rs -> audit_ok md ms rs.
Proof. intros (_ & _ & _ & _ & H). exact H. Qed.

Lemma Inv_quiet md s s' ms :
  pres (heap s) (heap s') -> next s <= next s' -> cwd s' = cwd s -> starts ms = [] -> ends ms = [] ->
  Inv md s s' ms [].
Proof.
  intros Hp Hn Hc Hs He. unfold Inv, audit_ok. rewrite Hs, He.
  split; [exact Hp|]. split; [exact Hn|]. split; [exact Hc|]. split; [intros a []|]. repeat split; constructor.
Qed.

Lemma Inv_nil md s : Inv md s s [] [].
Proof. apply Inv_quiet; auto using pres_refl. Qed.

Lemma Inv_seq md s s1 m1 r1 s2 m2 r2 :
  Inv md s s1 m1 r1 -> Inv md s1 s2 m2 r2 -> Inv md s s2 (m1 ++ m2) (r1 ++ r2).
Proof.
  unfold Inv, audit_ok. intros (P1 & N1 & C1 & I1 & D1 & S1 & R1) (P2 & N2 & C2 & I2 & D2 & S2 & R2).
  rewrite starts_app, ends_app, !map_app.
  split; [eapply pres_trans; eassumption|]. split; [lia|]. split; [congruence|].
  split; [|split; [|split; apply Permutation_app; assumption]].
  - intros a Ha. apply in_app_iff in Ha as [H|H]; [specialize (I1 a H)|specialize (I2 a H)]; lia.
  - apply NoDup_app_range with (k := next s1); auto; intros a Ha; [apply (I1 a Ha)|apply (I2 a Ha)].
Qed.

(* a start and an end record with a fresh id around a body that satisfies Inv *)
Lemma Inv_wrap md s sb sb' s' ms m_body r_body d a err :
  Inv md sb sb' m_body r_body ->
  starts ms = (home md d, a) :: starts m_body ->
  ends ms = ends m_body ++ [(home md d, a, err)] ->
  next s <= a < next sb -> next sb' <= next s' -> pres (heap s) (heap s') -> cwd s' = cwd s ->
  Inv md s s' ms (r_body ++ [(d, err)]).
Proof.
  unfold Inv, audit_ok. intros (_ & N & _ & I & D & S & R) Hs He Ha Hn Hp Hc.
  rewrite Hs, He, !map_app. cbn [map fst snd].
  split; [exact Hp|]. split; [lia|]. split; [exact Hc|]. split; [|split; [|split]].
  - intros x [<-|Hin]; [lia|]. specialize (I x Hin). lia.
  - constructor; [|exact D]. intros Hin. specialize (I a Hin). lia.
  - apply Permutation_cons_app. now rewrite app_nil_r.
  - apply Permutation_app; [exact R|reflexivity].
Qed.

Lemma frame_inv c is_wf d name files shell cr cf body s0 :
  c_sharing c = false -> c_prov c = true ->
  (forall s, of_out (Inv (c_md c)) s (body s)) ->
  of_out (Inv (c_md c)) s0 (frame c is_wf d name files shell cr cf body s0).
Proof.
  intros Sh P Hbody. unfold frame, alloc. rewrite Sh. cbn [andb].
  set (r := List.length (heap s0)). set (s1 := with_heap s0 (heap s0 ++ [get (heap s0) 0])).
  change (heap s0 ++ [get (heap s0) 0]) with (heap s1).
  assert (Pr1 : pres (heap s0) (heap s1)) by apply pres_app.
  assert (L1 : r < List.length (heap s1)) by (cbn; rewrite app_length; cbn; lia).
  destruct (a_mon (get (heap s1) r)) eqn:M0; [now apply Inv_quiet|].
  destruct (start_audit_spec c r d s1 P L1 M0) as (s2 & -> & O2 & N2 & Op2).
  destruct (monitor_spec c r _ d s2 Op2) as (s3 & m_mon & -> & O3 & N3 & _ & Op3 & S3 & En3).
  (* the part between monitor() and the finally block, whatever it is, behaves like a body started in s3 *)
  set (inner := if _ && cr then _ else _).
  assert (Hinner : of_out (Inv (c_md c)) s3 inner).
  { subst inner. destruct (_ && cr); [apply Inv_nil|].
    destruct (c_prov c && negb (c_async c && is_wf)).
    - destruct (audit_task_spec c r name files shell s3) as (s4 & m_task & -> & H4 & N4 & C4 & S4 & En4).
      specialize (Hbody s4). destruct (body s4) as [[[s5 m_body] r_body] err].
      apply (Inv_seq _ _ s4 m_task [] _ m_body r_body); [|exact Hbody].
      apply Inv_quiet; auto. rewrite H4. apply pres_refl.
    - specialize (Hbody s3). destruct (body s3) as [[[s5 m_body] r_body] err]. exact Hbody. }
  destruct inner as [[[s5 m_inner] r_body] err].
  pose proof Hinner as (Pr5 & N5 & C5 & _).
  destruct (finalize_spec c r _ d err s5 P (opened_pres _ _ _ _ _ _ Op3 Pr5 C5)) as (s6 & m_fin & -> & O6 & N6 & S6 & En6).
  apply (Inv_wrap _ s0 s3 s5 _ _ m_inner r_body d (next s1) err Hinner).
  - rewrite !starts_app, S3, S6. cbn [starts app]. now rewrite app_nil_r.
  - rewrite !ends_app, En3, En6. reflexivity.
  - cbn [s1 with_heap next] in *. lia.
  - exact N6.
  - assert (Lr : List.length (heap s0) <= r) by apply Nat.le_refl.
    apply (only_pres _ r _ _ Lr O6), (pres_trans _ _ _ (only_pres _ r _ _ Lr O3 (only_pres _ r _ _ Lr O2 Pr1)) Pr5).
  - reflexivity.
Qed.

(* Model.run_job spells the walk over the nodes as an inner fix, which is run_nodes *)
Lemma run_job_wf c d name nodes fails :
  run_job c (Wf d name nodes fails) =
  frame c true d name [] false false false
    (fun s => let '(s', ms, rs, e) := run_nodes c nodes s in (s', ms, rs, e || fails)).
Proof. reflexivity. Qed.

Section RunInd.
  Variables (c : cfg) (P : sys -> sys -> list lmsg -> list res -> Prop).
  Hypothesis Pnil : forall s, P s s [] [].
  Hypothesis Pframe : forall is_wf d name files shell cr cf body s0,
    (forall s, of_out P s (body s)) -> of_out P s0 (frame c is_wf d name files shell cr cf body s0).
  Hypothesis Pseq : forall s s1 m1 r1 s2 m2 r2, P s s1 m1 r1 -> P s1 s2 m2 r2 -> P s s2 (m1 ++ m2) (r1 ++ r2).

  Lemma run_job_ind : forall t s, of_out P s (run_job c t s).
  Proof.
    (* [task] is nested through lists: the inner induction calls IH on members of [nodes] only *)
    fix IH 1. intros [d n f sh fl cr cf | d n nodes fl] s.
    - apply Pframe. intros s'. apply Pnil.
    - rewrite run_job_wf. apply Pframe. intros s'.
      assert (HN : forall s, of_out P s (run_nodes c nodes s)).
      { induction nodes as [|t r IHr]; intros s1; cbn [run_nodes]; [apply Pnil|].
        pose proof (IH t s1) as Ht. destruct (run_job c t s1) as [[[s2 m1] r1] e1].
        destruct e1; [exact Ht|].
        specialize (IHr s2). destruct (run_nodes c r s2) as [[[s3 m2] r2] e2]. exact (Pseq _ _ _ _ _ _ _ Ht IHr). }
      specialize (HN s'). destruct (run_nodes c nodes s') as [[[s2 ms] rs] e]. exact HN.
  Qed.
End RunInd.

Lemma run_job_inv c :
  c_sharing c = false -> c_prov c = true ->
  forall t s, of_out (Inv (c_md c)) s (run_job c t s).
Proof.
  intros Sh P. apply run_job_ind.
  - apply Inv_nil.
  - intros. now apply frame_inv.
  - apply Inv_seq.
Qed.

Lemma run_seq_inv c :
  c_sharing c = false -> c_prov c = true ->
  forall ts s, let '(s', ms, rs) := run_seq c ts s in Inv (c_md c) s s' ms rs.
Proof.
  intros Sh P. induction ts as [|t ts IH]; intros s; cbn [run_seq]; [apply Inv_nil|].
  pose proof (run_job_inv c Sh P t s) as H1.
  destruct (run_job c t s) as [[[s1 m1] r1] e1].
  specialize (IH s1). destruct (run_seq c ts s1) as [[s2 m2] r2].
  eapply Inv_seq; eassumption.
Qed.

Lemma frame_silent c is_wf d name files shell cr cf body s0 :
  c_prov c = false ->
  (forall s, let '(_, ms, _, _) := body s in ms = []) ->
  let '(_, ms, _, _) := frame c is_wf d name files shell cr cf body s0 in ms = [].
Proof.
  intros P Hbody. unfold frame. destruct (alloc c is_wf (heap s0)) as [r h1].
  destruct (a_mon (get h1 r)); [reflexivity|].
  unfold start_audit, monitor, finalize_audit. rewrite P, andb_false_r. cbn [andb].
  set (s4 := if c_res c then with_heap _ _ else _).
  specialize (Hbody s4). destruct (body s4) as [[[s5 mb] rb] err]. subst mb.
  destruct (c_res c); cbn [andb negb]; [destruct (a_mon _)|]; reflexivity.
Qed.

Section Permb.
  Context {A : Type} (eqb : A -> A -> bool) (eqb_ok : forall x y, eqb x y = true <-> x = y).

  Lemma remove1_spec x : forall l,
    match remove1 eqb x l with Some l' => Permutation l (x :: l') | None => ~ In x l end.
  Proof.
    induction l as [|y r IH]; cbn [remove1]; [intros []|].
    destruct (eqb x y) eqn:E.
    - apply eqb_ok in E. now subst.
    - destruct (remove1 eqb x r) as [r'|].
      + apply perm_trans with (y :: x :: r'); [now apply perm_skip|apply perm_swap].
      + intros [->|H]; [|contradiction]. rewrite (proj2 (eqb_ok x x) eq_refl) in E. discriminate.
  Qed.

  Lemma permb_ok : forall a b, permb eqb a b = true <-> Permutation a b.
  Proof.
    induction a as [|x a IH]; intros b; cbn [permb].
    - destruct b; split; intros H; try reflexivity; try discriminate.
      apply Permutation_nil in H. discriminate.
    - pose proof (remove1_spec x b) as R. destruct (remove1 eqb x b) as [b'|].
      + rewrite IH. split; intros H.
        * apply perm_trans with (x :: b'); [now apply perm_skip|now apply Permutation_sym].
        * apply Permutation_cons_inv with (a := x). now apply perm_trans with b.
      + split; [discriminate|]. intros H. destruct R. apply (Permutation_in _ H). now left.
  Qed.
End Permb.

Lemma nodupb_NoDup l : nodupb l = true <-> NoDup l.
Proof. exact (nodupb_of_NoDup Nat.eqb Nat.eqb_eq l). Qed.

Definition wf2 : task := Wf 1 "main" [Leaf 2 "n1" [] false false false false; Leaf 3 "n2" [] false false false false] false.

(* with one Audit object shared by all jobs (c_sharing = true, finding F36): the workflow's own activity (1) is
   never ended, the last node's (5) twice *)
Lemma shared_audit_witness :
  let c := mkCfg true false (Some 0) true false in
  map fst (ends (fst (session c 9 [wf2]))) = [(0, 3); (0, 5); (0, 5)] /\
  starts (fst (session c 9 [wf2])) = [(0, 1); (0, 3); (0, 5)].
Proof. vm_compute. split; reflexivity. Qed.
