(* Proofs/CmdTemplate.v — command-line templates (C25).  parse_field accepts exactly the well-formed tokens and
   builds the field the token spells, its position the token's index plus one; position_sort on pairwise distinct
   non-negative positions is the strictly ordered list; format_arg on values made of words is the flag followed by
   the words.  Together: the argument vector is what the tokens spell, in template order. *)
From Pydra Require Import Base.Prelude Model.CmdTemplate Spec.CmdTemplate Proofs.ListFacts.
From Coq Require Import Sorting.Sorted Sorting.Permutation.
Local Open Scope string_scope.
Local Open Scope list_scope.

Lemma append_empty_r s : (s ++ "")%string = s.
Proof. induction s as [|c s IH]; cbn; [reflexivity|now rewrite IH]. Qed.

Definition flagged (flag : option string) : bool := match flag with Some _ => true | None => false end.
Definition flag_text (flag : option string) : string := match flag with Some o => o | None => "" end.

(* the two matches of parse_field's body, turned into the functions the statement uses *)
Lemma parsed_base_written (is_out : bool) ty (flag : option string) :
  match ty with
  | Some te => base_of te
  | None => match flag with
            | None => BFmt FFsObject
            | Some _ => if is_out then BFmt FFsObject else BPrim PStr
            end
  end = written_base (flagged flag && negb is_out) ty.
Proof. destruct ty as [[[p|f0]|ts|t]|]; try reflexivity. destruct flag, is_out; reflexivity. Qed.

Lemma name_ext b n :
  match b with
  | BFmt f0 => match fmt_ext f0 with Some e => (n ++ e)%string | None => n end
  | _ => n
  end = (n ++ base_ext b)%string.
Proof.
  destruct b as [p|f0|l|t]; cbn; try (now rewrite append_empty_r).
  destruct (fmt_ext f0); [reflexivity|now rewrite append_empty_r].
Qed.

Definition field_for (is_out : bool) (name : string) (b : tbase) (suf : suffix) (argstr : string) (pos : Z) : field :=
  {| f_name := name; f_is_out := is_out;
     f_type := {| t_base := b;
                  t_multi := match suf with SPlus | SStar => true | _ => false end;
                  t_optional := match suf with SOptional => true | _ => false end |};
     f_default := match suf with SOptional => DNone | SStar => DEmptyList | SDefault d => DLit d | _ => DNoDefault end;
     f_position := pos; f_argstr := argstr;
     f_template := if is_out then Some (match suf with STemplate p => p | _ => (name ++ base_ext b)%string end) else None |}.

Lemma parse_field_cases is_out name ty suf flag pos :
  match parse_field is_out name ty suf flag pos with
  | POk f => wf_field is_out (flagged flag) ty suf = true /\
             f = field_for is_out name (written_base (flagged flag && negb is_out) ty) suf (flag_text flag) pos
  | PErr _ => wf_field is_out (flagged flag) ty suf = false
  end.
Proof.
  unfold wf_field, field_for. rewrite <- name_ext, <- parsed_base_written.
  destruct suf as [| | | |d|p], is_out; cbn; auto.
  destruct (lit_ok _ d); auto.
Qed.

Lemma string_eqb_empty_flag fl : word fl = true -> negb (String.eqb fl "") = true.
Proof. unfold word. intros H. apply andb_true_iff in H. tauto. Qed.

(* the flags the grammar allows ("--?[A-Za-z0-9_-]+") are never empty *)
Definition flags_nonempty (t : token) : Prop :=
  match t with Opt fl _ | Flag fl _ _ => fl <> "" | _ => True end.

Fixpoint spells_from (i : nat) (ts : list token) (fs : list field) : Prop :=
  match ts, fs with
  | [], [] => True
  | t :: ts', f :: fs' => spells i t f /\ spells_from (S i) ts' fs'
  | _, _ => False
  end.

Lemma parse_token_cases i t :
  match parse_token t (Z.of_nat (S i)) with
  | POk f => wf_token t = true /\ (flags_nonempty t -> spells i t f)
  | PErr _ => wf_token t = false
  end.
Proof.
  destruct t as [n ty suf|n ty suf|fl [n ty suf|n ty suf| |]|fl n d]; cbn [wf_token parse_token]; try reflexivity.
  (* goals 1-4: the four field forms; 5: Flag; an option before anything else was closed by reflexivity *)
  1: pose proof (parse_field_cases false n ty suf None (Z.of_nat (S i))) as C.
  2: pose proof (parse_field_cases true n ty suf None (Z.of_nat (S i))) as C.
  3: pose proof (parse_field_cases false n ty suf (Some fl) (Z.of_nat (S i))) as C.
  4: pose proof (parse_field_cases true n ty suf (Some fl) (Z.of_nat (S i))) as C.
  1-4: destruct (parse_field _ n ty suf _ _); [|exact C]; destruct C as [Hw ->]; split; [exact Hw|intros Hfl].
  5: split; [reflexivity|intros Hfl].
  all: unfold spells, says_output, says_flag, says_optional, says_repeated, says_template, says_base, says_default;
    cbn [tok_view]; rewrite ?(proj2 (String.eqb_neq fl "") Hfl); repeat split.
Qed.

Lemma parse_tokens_cases ts : forall i,
  match parse_tokens ts (Z.of_nat (S i)) with
  | POk fs => forallb wf_token ts = true /\ (Forall flags_nonempty ts -> spells_from i ts fs)
  | PErr _ => forallb wf_token ts = false
  end.
Proof.
  induction ts as [|t ts IH]; intros i; [now split|]. cbn [parse_tokens forallb].
  pose proof (parse_token_cases i t) as Ht. destruct (parse_token t (Z.of_nat (S i))) as [f|e]; [|now rewrite Ht].
  destruct Ht as [-> Ht]. specialize (IH (S i)). replace (Z.of_nat (S i) + 1)%Z with (Z.of_nat (S (S i))) by lia.
  destruct (parse_tokens ts (Z.of_nat (S (S i)))) as [fs|e]; [|exact IH].
  destruct IH as [-> IH]. split; [reflexivity|]. intros Hfl. inversion Hfl; subst. split; auto.
Qed.

Lemma fields_of_ast_cases ts :
  match fields_of_ast ts with
  | POk fs => wf_template ts = true /\ (Forall flags_nonempty ts -> spells_from 0 ts fs)
  | PErr _ => wf_template ts = false
  end.
Proof.
  unfold fields_of_ast, wf_template. pose proof (parse_tokens_cases ts 0) as C. change (Z.of_nat 1) with 1%Z in C.
  destruct (nodupb (map token_name ts)); [now rewrite andb_true_r|apply andb_false_r].
Qed.

Lemma fields_spell ts fs : Forall flags_nonempty ts -> fields_of_ast ts = POk fs -> spells_from 0 ts fs.
Proof. intros Hfl H. pose proof (fields_of_ast_cases ts) as C. rewrite H in C. now apply C. Qed.

Lemma spells_from_nth ts : forall i fs, spells_from i ts fs ->
  List.length fs = List.length ts /\
  forall k t f, nth_error ts k = Some t -> nth_error fs k = Some f -> spells (i + k) t f.
Proof.
  induction ts as [|t ts IH]; intros i [|f fs] H; try contradiction.
  - split; [reflexivity|]. intros [|k] t f; discriminate.
  - destruct H as [H0 H]. destruct (IH (S i) fs H) as [Hlen Hk]. split; [cbn; now rewrite Hlen|].
    intros [|k] t' f' Ht' Hf'; cbn in Ht', Hf'.
    + inversion Ht'; inversion Hf'; subst. now rewrite Nat.add_0_r.
    + rewrite <- plus_n_Sm. now apply (Hk k).
Qed.

Theorem inference ts fs :
  Forall flags_nonempty ts -> fields_of_ast ts = POk fs ->
  List.length fs = List.length ts /\
  forall k t f, nth_error ts k = Some t -> nth_error fs k = Some f -> spells k t f.
Proof. intros Hfl H. now apply (spells_from_nth ts 0), fields_spell. Qed.

Section Sort.
Context {A : Type}.
Definition key_lt (a b : Z * A) : Prop := (fst a < fst b)%Z.

(* strictly ordered = ordered with ties allowed (which bisect.insort keeps whatever it is given: equal keys go after
   one another) + distinct keys (which make the ordered permutation unique) *)
Lemma key_lt_ordered (l : list (Z * A)) : StronglySorted key_lt l -> kordered fst l /\ NoDup (map fst l).
Proof.
  induction 1 as [|a l _ [IH1 IH2] F]; cbn [map]; split; constructor; auto.
  - eapply Forall_impl; [|exact F]. unfold key_lt, kle. intros; lia.
  - rewrite in_map_iff. intros [b [E Hb]]. rewrite Forall_forall in F. specialize (F b Hb). unfold key_lt in F. lia.
Qed.

Lemma position_folds_nonneg (es : list (Z * A)) : Forall (fun e => (0 <= fst e)%Z) es -> forall acc,
  fold_left (fun a e => if Z.ltb (fst e) 0 then a else insort e a) es acc = fold_left (fun a e => insort e a) es acc
  /\ fold_left (fun a e => if Z.ltb (fst e) 0 then insort e a else a) es acc = acc.
Proof.
  induction 1 as [|e es He _ IH]; intros acc; cbn; [split; reflexivity|].
  destruct (Z.ltb_spec (fst e) 0); [lia|]. split; [apply (IH (insort e acc))|apply (IH acc)].
Qed.

Lemma position_sort_sorted (entries sorted : list (Z * A)) :
  StronglySorted key_lt sorted -> Forall (fun e => (0 <= fst e)%Z) sorted ->
  Permutation entries sorted -> position_sort entries = map snd sorted.
Proof.
  intros Hs Hnn Hp. unfold position_sort.
  pose proof (Permutation_Forall (Permutation_sym Hp) Hnn) as Hnn'.
  destruct (position_folds_nonneg entries Hnn' []) as [-> ->]. cbn. rewrite app_nil_r. f_equal.
  destruct (key_lt_ordered sorted Hs) as [So Nd].
  apply (ins_fold_unique fst insort (fun _ => eq_refl) (fun _ _ _ => eq_refl)); [|exact So|now symmetry].
  now rewrite (Permutation_map fst Hp).
Qed.
End Sort.

Lemma split_sp_word w : no_space w = true -> forall rest cur,
  split_sp (w ++ rest)%string cur = split_sp rest (cur ++ w)%string.
Proof.
  induction w as [|c w IH]; intros Hn rest cur; cbn.
  - now rewrite append_empty_r.
  - cbn in Hn. apply andb_true_iff in Hn. destruct Hn as [Hc Hw].
    destruct (Ascii.eqb c " "); [discriminate|]. rewrite (IH Hw). now rewrite append_assoc.
Qed.

Lemma split_sp_flag w rest : no_space w = true ->
  split_sp (w ++ " " ++ rest)%string "" = with_flag w (split_sp rest "").
Proof. intros H. now rewrite (split_sp_word w H). Qed.

Lemma word_nonempty w : word w = true -> w <> "" /\ no_space w = true.
Proof.
  unfold word. intros H. apply andb_true_iff in H. destruct H as [H1 H2]. split; [|assumption].
  intros ->. discriminate.
Qed.

Lemma split_sp_words l : forallb word l = true ->
  split_sp (join_sp l) "" = l.
Proof.
  induction l as [|w l IH]; intros H; [reflexivity|].
  cbn in H. apply andb_true_iff in H. destruct H as [Hw Hl]. destruct (word_nonempty w Hw) as [Hne Hns].
  destruct l as [|w2 l].
  - cbn [join_sp]. rewrite <- (append_empty_r w) at 1. rewrite (split_sp_word w Hns "" ""). cbn.
    destruct w; [congruence|reflexivity].
  - change (join_sp (w :: w2 :: l)) with (w ++ " " ++ join_sp (w2 :: l))%string.
    rewrite (split_sp_flag w _ Hns), (IH Hl). now destruct w.
Qed.

Lemma join_sp_nonempty l : l <> [] -> forallb word l = true -> join_sp l <> "".
Proof.
  destruct l as [|w l]; [congruence|]. intros _ H. cbn in H. apply andb_true_iff in H. destruct H as [Hw _].
  destruct (word_nonempty w Hw) as [Hne _]. destruct l; cbn; destruct w; cbn; congruence.
Qed.

Lemma format_arg_words argstr v :
  sval_ok v = true -> no_space argstr = true ->
  format_arg argstr v = with_flag argstr (sval_words v).
Proof.
  intros Hv Hns. unfold format_arg.
  assert (Hws : forallb word (sval_words v) = true /\ sval_words v <> []).
  { destruct v as [s|l]; cbn in *; [now rewrite Hv|]. apply andb_prop in Hv. destruct Hv as [Hl Hf].
    split; [exact Hf|]. intros ->. discriminate Hl. }
  destruct Hws as [Hws Hne].
  replace (match v with SText s => s | STuple l => join_sp l end) with (join_sp (sval_words v)) by now destruct v.
  pose proof (join_sp_nonempty _ Hne Hws) as Hj.
  destruct (join_sp (sval_words v)) as [|c r] eqn:Ej; [congruence|]. rewrite <- Ej. unfold split_cmd.
  now rewrite (split_sp_flag argstr _ Hns), (split_sp_words _ Hws).
Qed.

Lemma flat_format argstr l :
  forallb sval_ok l = true -> no_space argstr = true ->
  flat_map (format_arg argstr) l = flat_map (fun s => with_flag argstr (sval_words s)) l.
Proof.
  intros Hl Ha. induction l as [|x l IH]; [reflexivity|].
  cbn [forallb] in Hl. apply andb_true_iff in Hl. destruct Hl as [Hx Hl]. cbn [flat_map].
  rewrite (format_arg_words _ x Hx Ha). now rewrite (IH Hl).
Qed.

Lemma pos_args_spec i t f v :
  spells i t f -> value_ok v = true -> flag_ok t = true ->
  match pos_args f v with
  | Some (p, args) => p = Z.of_nat (S i) /\ args = token_args t v
  | None => token_args t v = []
  end.
Proof.
  intros Hs Hv Hf. destruct Hs as (_ & _ & _ & _ & _ & _ & _ & Harg & Hpos).
  assert (Ha : no_space (f_argstr f) = true).
  { rewrite Harg. unfold flag_ok in Hf. destruct (says_flag t); [reflexivity|now apply word_nonempty in Hf]. }
  destruct v as [|s|l|b]; cbn [pos_args token_args].
  - reflexivity.
  - split; [assumption|]. rewrite <- Harg. now apply format_arg_words.
  - destruct l as [|s l]; [reflexivity|]. split; [assumption|]. rewrite <- Harg.
    cbn [value_ok] in Hv. now apply flat_format.
  - split; [assumption|]. rewrite Harg. reflexivity.
Qed.

Lemma filter_map_perm {X Y} (g : X -> option Y) l1 l2 :
  Permutation l1 l2 -> Permutation (filter_map g l1) (filter_map g l2).
Proof.
  induction 1; cbn.
  - reflexivity.
  - destruct (g x); [now constructor|assumption].
  - destruct (g x), (g y); try reflexivity. apply perm_swap.
  - etransitivity; eassumption.
Qed.

Lemma entries_in_order ts : forall fs vs i,
  spells_from i ts fs -> List.length vs = List.length ts ->
  forallb value_ok vs = true -> forallb flag_ok ts = true ->
  let es := filter_map (fun fv => pos_args (fst fv) (snd fv)) (combine fs vs) in
  StronglySorted key_lt es /\ Forall (fun e => (Z.of_nat i < fst e)%Z) es /\
  List.concat (map snd es) = flat_map (fun tv => token_args (fst tv) (snd tv)) (combine ts vs).
Proof.
  induction ts as [|t ts IH]; intros [|f fs] vs i Hsp Hlv Hvs Hfl; try contradiction.
  - cbn. repeat split; constructor.
  - destruct vs as [|v vs]; [discriminate|]. destruct Hsp as [Hs0 Hsp]. injection Hlv as Hlv.
    cbn in Hvs, Hfl. apply andb_prop in Hvs. destruct Hvs as [Hv Hvs]. apply andb_prop in Hfl. destruct Hfl as [Hft Hfl].
    destruct (IH fs vs (S i) Hsp Hlv Hvs Hfl) as (Hs & Hall & Hc).
    pose proof Hall as Hall'.
    apply (Forall_impl (fun e : Z * list string => (Z.of_nat i < fst e)%Z)) in Hall'; [|intros; lia].
    pose proof (pos_args_spec i t f v Hs0 Hv Hft) as Hp.
    cbn [combine filter_map flat_map fst snd]. destruct (pos_args f v) as [[p args]|].
    + destruct Hp as [-> ->]. split; [constructor; [exact Hs|exact Hall]|].
      split; [constructor; [cbn; lia|exact Hall']|]. cbn. now rewrite Hc.
    + rewrite Hp. now repeat split.
Qed.

Theorem order executable ts fs vs fvs :
  Forall flags_nonempty ts -> fields_of_ast ts = POk fs ->
  List.length vs = List.length ts ->
  forallb value_ok vs = true -> forallb flag_ok ts = true ->
  Permutation fvs (combine fs vs) ->
  command_args executable fvs [] = expected_argv executable (combine ts vs).
Proof.
  intros Hfl Hf Hlv Hvs Hfo Hp.
  destruct (entries_in_order ts fs vs 0 (fields_spell ts fs Hfl Hf) Hlv Hvs Hfo) as (Hs & Hall & Hc).
  unfold command_args, expected_argv. rewrite app_nil_r.
  set (g := fun fv : field * fvalue => pos_args (fst fv) (snd fv)) in *.
  rewrite (position_sort_sorted _ ((0%Z, executable) :: filter_map g (combine fs vs))).
  - cbn. now rewrite Hc.
  - constructor; [exact Hs|exact Hall].
  - constructor; [cbn; lia|]. eapply Forall_impl; [|exact Hall]. cbn. intros; lia.
  - constructor. now apply filter_map_perm.
Qed.

Lemma prim_eqb_sound a b : prim_eqb a b = true -> a = b.
Proof. destruct a, b; cbn; congruence. Qed.
Lemma fmt_eqb_sound a b : fmt_eqb a b = true -> a = b.
Proof. destruct a, b; cbn; congruence. Qed.
Lemma tname_eqb_sound a b : tname_eqb a b = true -> a = b.
Proof.
  destruct a, b; cbn; try discriminate; intros H; f_equal; [now apply prim_eqb_sound|now apply fmt_eqb_sound].
Qed.
Lemma tnames_eqb_sound l : forall m, list_eqb tname_eqb l m = true -> l = m.
Proof.
  induction l as [|x l IH]; intros [|y m] H; cbn in H; try discriminate; [reflexivity|].
  apply andb_true_iff in H. destruct H as [H1 H2]. f_equal; [now apply tname_eqb_sound|now apply IH].
Qed.
Lemma tbase_eqb_sound a b : tbase_eqb a b = true -> a = b.
Proof.
  destruct a, b; cbn; try discriminate; intros H; f_equal;
    [now apply prim_eqb_sound|now apply fmt_eqb_sound|now apply tnames_eqb_sound|now apply tname_eqb_sound].
Qed.

Fixpoint lit_eqb_sound (a : lit) {struct a} : forall b, lit_eqb a b = true -> a = b.
Proof.
  destruct a as [x|x|x|x|l]; intros [y|y|y|y|m] H; cbn in H; try discriminate.
  - apply Z.eqb_eq in H. now subst.
  - apply String.eqb_eq in H. now subst.
  - apply String.eqb_eq in H. now subst.
  - apply Bool.eqb_prop in H. now subst.
  - f_equal. revert m H. induction l as [|x l IH]; intros [|y m] H; try discriminate; [reflexivity|].
    apply andb_prop in H. destruct H as [H1 H2]. f_equal; [now apply lit_eqb_sound|now apply IH].
Qed.

Lemma dflt_eqb_sound a b : dflt_eqb a b = true -> a = b.
Proof.
  destruct a, b; cbn; try discriminate; try reflexivity. intros H. f_equal. now apply lit_eqb_sound.
Qed.
Lemma ostring_eqb_sound a b : ostring_eqb a b = true -> a = b.
Proof.
  destruct a, b; cbn; try discriminate; try reflexivity. intros H. apply String.eqb_eq in H. now subst.
Qed.

Lemma spellsb_sound i t f : spellsb i t f = true -> spells i t f.
Proof.
  unfold spellsb, spells. intros H. repeat (apply andb_prop in H; destruct H as [H ?]).
  repeat split.
  - now apply String.eqb_eq.
  - now apply Bool.eqb_prop.
  - now apply tbase_eqb_sound.
  - now apply Bool.eqb_prop.
  - now apply Bool.eqb_prop.
  - now apply dflt_eqb_sound.
  - now apply ostring_eqb_sound.
  - now apply String.eqb_eq.
  - now apply Z.eqb_eq.
Qed.
