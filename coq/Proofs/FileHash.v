(* Proofs/FileHash.v — C09: under any key that never comes back with another content along a
   history (key_sound), every cached entry was computed in an earlier state of the history and so
   is current, and every request returns the hash of the current content.  The key of the current
   code is sound on the Unix model because every operation stamps the inodes it changes with a
   ctime larger than any earlier one.  Witness histories against the mtime key and the shallow key. *)
From Pydra Require Import Base.Prelude Model.FileHash Spec.FileHash Proofs.ListFacts.
Local Open Scope nat_scope.
Local Open Scope list_scope.

Section Generic.
  Variables FS Target Key Digest Fop : Type.
  Variable key_eqb : Key -> Key -> bool.
  Variable texists : Target -> FS -> bool.
  Variable K : Target -> FS -> Key.
  Variable chash : Target -> FS -> Digest.
  Variable fstep : FS -> Fop -> FS.
  Variable fs0 : FS.
  Hypothesis key_eqb_true : forall a b, key_eqb a b = true -> a = b.

  Notation kv := (kv Key Digest).
  Notation cstate := (cstate Key Digest).
  Notation run_states := (run_states FS Target Key Digest Fop key_eqb texists K chash fstep).
  Notation gstep := (gstep FS Target Key Digest Fop key_eqb texists K chash fstep).
  Notation do_hash := (do_hash FS Target Key Digest key_eqb texists K chash).
  Notation spec_outputs := (spec_outputs FS Target Digest Fop texists chash fstep).
  Notation outs_of := (outs_of FS Key Digest).

  Definition reach (a b : FS) : Prop := exists ops, b = run_fs FS Fop fstep a ops.

  (* The condition on the key: along every history of file-system operations, a key never
     comes back with a different content — whatever it is the key of. *)
  Definition key_sound : Prop :=
    forall s1 s2 t1 t2,
      reach fs0 s1 -> reach s1 s2 ->
      texists t1 s1 = true -> texists t2 s2 = true ->
      K t1 s1 = K t2 s2 -> chash t1 s1 = chash t2 s2.

  Lemma reach_refl a : reach a a.
  Proof. exists []. reflexivity. Qed.
  Lemma reach_step a b o : reach a b -> reach a (fstep b o).
  Proof.
    intros [ops ->]. exists (ops ++ [o]). unfold run_fs. rewrite fold_left_app. reflexivity.
  Qed.

  (* every cached entry was computed from some earlier state of this very history *)
  Definition entry_ok (fs : FS) (e : Key * Digest) : Prop :=
    exists s1 t1, reach fs0 s1 /\ reach s1 fs /\ texists t1 s1 = true /\
                  K t1 s1 = fst e /\ chash t1 s1 = snd e.
  Definition inv (st : FS * cstate) : Prop :=
    reach fs0 (fst st) /\
    Forall (entry_ok (fst st)) (c_store (snd st)) /\
    Forall (fun pm => Forall (entry_ok (fst st)) (snd pm)) (c_mems (snd st)).

  Lemma entry_ok_step fs o e : entry_ok fs e -> entry_ok (fstep fs o) e.
  Proof.
    intros (s1 & t1 & R0 & R1 & E & HK & HC). exists s1, t1.
    repeat split; auto using reach_step.
  Qed.

  Lemma kv_get_Forall (P : Key * Digest -> Prop) k (l : kv) d :
    Forall P l -> kv_get Key Digest key_eqb k l = Some d -> P (k, d).
  Proof.
    induction 1 as [|[k' d'] r Hp _ IH]; cbn; [discriminate|].
    destruct (key_eqb k k') eqn:E; [|exact IH]. intros [= <-]. now rewrite (key_eqb_true _ _ E).
  Qed.

  Lemma mem_of_ok fs p (ms : list (nat * kv)) :
    Forall (fun pm => Forall (entry_ok fs) (snd pm)) ms -> Forall (entry_ok fs) (mem_of Key Digest p ms).
  Proof.
    unfold mem_of. induction 1 as [|[p' m'] r Hm _ IH]; cbn; [constructor|].
    destruct (Nat.eqb p p'); [exact Hm|exact IH].
  Qed.

  Notation goc := (get_or_calc Key Digest key_eqb).

  Lemma goc_keeps (P : Key * Digest -> Prop) mem store k c :
    Forall P mem -> Forall P store -> P (k, c) ->
    let '(d, mem', store') := goc mem store k c in P (k, d) /\ Forall P mem' /\ Forall P store'.
  Proof.
    intros Hm Hs Hk. unfold get_or_calc.
    destruct (kv_get Key Digest key_eqb k mem) as [d|] eqn:G1;
      [|destruct (kv_get Key Digest key_eqb k store) as [d|] eqn:G2]; repeat split; auto.
    - exact (kv_get_Forall P k mem d Hm G1).
    - exact (kv_get_Forall P k store d Hs G2).
  Qed.

  Hypothesis key_eqb_refl : forall a, key_eqb a a = true.
  Lemma goc_stable mem store k c :
    kv_get Key Digest key_eqb k mem <> None \/ kv_get Key Digest key_eqb k store <> None ->
    snd (goc mem store k c) = store.
  Proof.
    intros H. unfold get_or_calc. destruct (kv_get Key Digest key_eqb k mem); [reflexivity|].
    destruct (kv_get Key Digest key_eqb k store); [reflexivity|]. now destruct H.
  Qed.

  Lemma goc_stored mem store k c :
    kv_get Key Digest key_eqb k (snd (goc mem store k c)) <> None \/
    kv_get Key Digest key_eqb k mem <> None /\ snd (fst (goc mem store k c)) = mem.
  Proof.
    unfold get_or_calc. destruct (kv_get Key Digest key_eqb k mem) eqn:G1; [right; split; [discriminate|reflexivity]|left].
    destruct (kv_get Key Digest key_eqb k store) eqn:G2; cbn [snd kv_get]; [now rewrite G2|now rewrite key_eqb_refl].
  Qed.

  (* the cache is not trivial: asking again without any change in between neither recalculates
     nor stores anything *)
  Lemma second_hash_is_a_hit fs cs p m t :
    texists t fs = true ->
    c_store (snd (do_hash fs (snd (do_hash fs cs p m t)) p m t)) = c_store (snd (do_hash fs cs p m t)).
  Proof.
    intros E. unfold do_hash. rewrite E.
    (* after the first request the key is in the store, or it was found in the process' own table,
       which the request left alone: either way the second request finds it *)
    pose proof (goc_stored (match m with MObj => mem_of Key Digest p (c_mems cs) | _ => [] end)
                           (c_store cs) (K t fs) (chash t fs)) as S.
    destruct (goc _ (c_store cs) (K t fs) (chash t fs)) as [[d1 m1] s1]. cbn [fst snd c_store c_mems] in *.
    set (mem2 := match m with MObj => mem_of Key Digest p _ | _ => [] end).
    pose proof (goc_stable mem2 s1 (K t fs) (chash t fs)) as A.
    destruct (goc mem2 s1 (K t fs) (chash t fs)) as [[d2 m2] s2]. cbn [fst snd c_store] in *. apply A.
    destruct S as [S|[S ->]]; [now right|left]. subst mem2.
    destruct m; try (now elim S). unfold mem_of at 1. cbn [aget]. now rewrite Nat.eqb_refl.
  Qed.

  Hypothesis sound : key_sound.

  Lemma hit_correct fs t d :
    entry_ok fs (K t fs, d) -> texists t fs = true -> d = chash t fs.
  Proof.
    intros (s1 & t1 & R0 & R1 & E1 & HK1 & HC1) E. cbn in *. rewrite <- HC1. now apply sound.
  Qed.

  Lemma fresh_entry_ok fs t : reach fs0 fs -> texists t fs = true -> entry_ok fs (K t fs, chash t fs).
  Proof. intros R E. exists fs, t. repeat split; auto using reach_refl. Qed.

  Lemma do_hash_correct fs cs p m t :
    inv (fs, cs) ->
    fst (do_hash fs cs p m t) = (if texists t fs then Some (chash t fs) else None) /\
    inv (fs, snd (do_hash fs cs p m t)).
  Proof.
    intros (R & HS & HM). cbn [fst snd] in *. unfold do_hash.
    destruct (texists t fs) eqn:E; [|cbn; repeat split; auto].
    pose proof (goc_keeps (entry_ok fs) (match m with MObj => mem_of Key Digest p (c_mems cs) | _ => [] end)
                          (c_store cs) (K t fs) (chash t fs)) as G.
    destruct (goc _ (c_store cs) (K t fs) (chash t fs)) as [[d mem'] store'].
    destruct G as (Hd & Hm' & Hs'); [destruct m; auto using mem_of_ok|exact HS|now apply fresh_entry_ok|].
    cbn [fst snd]. rewrite (hit_correct fs t d Hd E).
    repeat split; cbn [c_store c_mems]; auto. destruct m; auto. constructor; auto.
  Qed.

  Lemma gstep_inv st g : inv st -> inv (fst (gstep st g)).
  Proof.
    destruct st as [fs cs]. intros I. destruct g as [o|p m t|]; cbn [gstep].
    - destruct I as (R & HS & HM). cbn [fst snd] in *. repeat split; cbn [fst snd].
      + now apply reach_step.
      + eapply Forall_impl; [|exact HS]. intros e. apply entry_ok_step.
      + eapply Forall_impl; [|exact HM]. intros pm H. eapply Forall_impl; [|exact H].
        intros e. apply entry_ok_step.
    - destruct (do_hash_correct fs cs p m t I) as [_ I'].
      destruct (do_hash fs cs p m t) as [out cs']. exact I'.
    - destruct I as (R & HS & HM). cbn [fst snd] in *. repeat split; cbn [fst snd c_store c_mems]; auto.
  Qed.

  Lemma run_correct h : forall st, inv st ->
    outs_of (run_states st h) = spec_outputs (fst st) h /\ Forall (fun x => inv (fst x)) (run_states st h).
  Proof.
    induction h as [|g r IH]; intros st I; [split; [reflexivity|constructor]|].
    pose proof (gstep_inv st g I) as I'. destruct (IH _ I') as [O F]. split; [|now constructor].
    cbn [run_states]. unfold FileHash.outs_of. cbn [flat_map].
    fold (outs_of (run_states (fst (gstep st g)) r)). rewrite O.
    destruct st as [fs cs]. destruct g as [o|p m t|]; cbn [gstep spec_outputs fst snd]; try reflexivity.
    destruct (do_hash_correct fs cs p m t I) as [A _].
    destruct (do_hash fs cs p m t) as [out cs']. cbn [fst snd] in *. now rewrite A.
  Qed.

  Lemma inv_init : inv (fs0, cempty Key Digest).
  Proof. repeat split; cbn; auto using reach_refl. Qed.

  Theorem outputs_correct h :
    outputs FS Target Key Digest Fop key_eqb texists K chash fstep fs0 h = spec_outputs fs0 h.
  Proof. exact (proj1 (run_correct h _ inv_init)). Qed.

  (* the invariant in the "current state" form: every entry, in the store or in any process'
     table, equals the content hash of every target that carries its key now *)
  Definition entries_current (st : FS * cstate) : Prop :=
    forall k d t,
      (In (k, d) (c_store (snd st)) \/ exists p m, In (p, m) (c_mems (snd st)) /\ In (k, d) m) ->
      texists t (fst st) = true -> K t (fst st) = k -> d = chash t (fst st).

  Lemma inv_entries_current st : inv st -> entries_current st.
  Proof.
    intros (_ & HS & HM) k d t [HI|(p & m & HP & HI)] E HK.
    - rewrite Forall_forall in HS. subst k. apply (hit_correct (fst st) t d); auto.
    - rewrite Forall_forall in HM. specialize (HM _ HP). rewrite Forall_forall in HM. subst k.
      apply (hit_correct (fst st) t d); auto.
  Qed.

  Theorem store_always_current h :
    Forall (fun x => entries_current (fst x)) (run_states (fs0, cempty Key Digest) h).
  Proof.
    eapply Forall_impl; [|apply run_correct, inv_init]. intros x. apply inv_entries_current.
  Qed.
End Generic.

Lemma aget_aset {A} i (f : A) T j : aget j (aset i f T) = if Nat.eqb j i then Some f else aget j T.
Proof.
  induction T as [|[k v] T IH]; cbn; [reflexivity|].
  destruct (Nat.eqb_spec i k) as [<-|N]; cbn; [now destruct (Nat.eqb j i)|].
  rewrite IH. destruct (Nat.eqb_spec j k) as [->|]; [|reflexivity].
  now rewrite (proj2 (Nat.eqb_neq k i)) by auto.
Qed.
Lemma aget_adel {A} k (l : list (nat * A)) j : aget j (adel k l) = if Nat.eqb j k then None else aget j l.
Proof.
  induction l as [|[k' v] l IH]; cbn; [now destruct (Nat.eqb j k)|].
  destruct (Nat.eqb_spec k k') as [<-|N]; cbn; rewrite IH; [now destruct (Nat.eqb j k)|].
  destruct (Nat.eqb_spec j k) as [<-|]; [|reflexivity].
  now rewrite (proj2 (Nat.eqb_neq j k')).
Qed.

Lemma map_eq_lift {A B C} (F1 F2 : A -> B) (G1 G2 : A -> C) :
  (forall x y, F1 x = F2 y -> G1 x = G2 y) ->
  forall l1 l2, map F1 l1 = map F2 l2 -> map G1 l1 = map G2 l2.
Proof.
  intros H. induction l1 as [|x l1 IH]; destruct l2 as [|y l2]; cbn; try discriminate; auto.
  intros E. inversion E. f_equal; auto.
Qed.

Lemma path_eqb_spec a b : path_eqb a b = true <-> a = b.
Proof.
  destruct a as [n|d n], b as [m|e m]; cbn; try (split; discriminate).
  - destruct (Nat.eqb_spec n m); split; congruence.
  - destruct (Nat.eqb_spec d e), (Nat.eqb_spec n m); cbn; split; congruence.
Qed.
Lemma target_eqb_spec a b : target_eqb a b = true <-> a = b.
Proof.
  destruct a as [p|d], b as [q|e]; cbn; try (split; discriminate).
  - rewrite path_eqb_spec. split; congruence.
  - destruct (Nat.eqb_spec d e); split; congruence.
Qed.
Lemma triple_eqb_spec x y : option_eqb triple_eqb x y = true <-> x = y.
Proof.
  destruct x as [[[a1 a2] a3]|], y as [[[b1 b2] b3]|]; cbn; try (split; congruence).
  destruct (Nat.eqb_spec a1 b1) as [->|]; [|cbn; split; congruence].
  destruct (Nat.eqb_spec a2 b2) as [->|]; [|cbn; split; congruence].
  destruct (Nat.eqb_spec a3 b3) as [->|]; cbn; split; congruence.
Qed.
Lemma kstat_eqb_spec a b : kstat_eqb a b = true <-> a = b.
Proof.
  destruct a as [[[n1 n2] i] x], b as [[[m1 m2] j] y]. cbn.
  destruct (Nat.eqb_spec n1 m1) as [->|]; [|cbn; split; congruence].
  destruct (Nat.eqb_spec n2 m2) as [->|]; [|cbn; split; congruence].
  destruct (Nat.eqb_spec i j) as [->|]; [|cbn; split; congruence].
  cbn. rewrite triple_eqb_spec. split; congruence.
Qed.
Lemma key_eqb_spec a b : key_eqb a b = true <-> a = b.
Proof. exact (pair_eqb_ok target_eqb_spec (list_eqb_spec kstat_eqb kstat_eqb_spec) a b). Qed.

Definition changes_stamped (t : nat) (T T' : list (ino * file)) : Prop :=
  forall i f', aget i T' = Some f' -> aget i T = Some f' \/ f_ctime f' = t.

Lemma changes_stamped_refl t T : changes_stamped t T T.
Proof. intros i f H. now left. Qed.
Lemma changes_stamped_aset t T0 T i f : f_ctime f = t -> changes_stamped t T0 T -> changes_stamped t T0 (aset i f T).
Proof.
  intros Hf H j f' G. rewrite aget_aset in G.
  destruct (Nat.eqb j i); [injection G as <-; now right|now apply H].
Qed.

(* namespace updates touch neither the inode table nor the clock *)
Lemma itab_set_reg s p i : itab (set_reg s p i) = itab s.
Proof. unfold set_reg. destruct p; [reflexivity|]. destruct (aget d (dirs s)); reflexivity. Qed.
Lemma itab_del_entry s p : itab (del_entry s p) = itab s.
Proof. unfold del_entry. destruct p; [reflexivity|]. destruct (aget d (dirs s)); reflexivity. Qed.
Lemma itab_stamp_parent t s p : itab (stamp_parent t s p) = itab s.
Proof. unfold stamp_parent. destruct p; [reflexivity|]. destruct (aget d (dirs s)); reflexivity. Qed.
Lemma itab_with_tops s x : itab (with_tops s x) = itab s. Proof. reflexivity. Qed.
Lemma itab_with_dirs s x : itab (with_dirs s x) = itab s. Proof. reflexivity. Qed.
Lemma itab_with_itab s x : itab (with_itab s x) = x. Proof. reflexivity. Qed.
Lemma clock_set_reg s p i : clock (set_reg s p i) = clock s.
Proof. unfold set_reg. destruct p; [reflexivity|]. destruct (aget d (dirs s)); reflexivity. Qed.
Lemma clock_del_entry s p : clock (del_entry s p) = clock s.
Proof. unfold del_entry. destruct p; [reflexivity|]. destruct (aget d (dirs s)); reflexivity. Qed.
Lemma clock_stamp_parent t s p : clock (stamp_parent t s p) = clock s.
Proof. unfold stamp_parent. destruct p; [reflexivity|]. destruct (aget d (dirs s)); reflexivity. Qed.
Lemma clock_with_tops s x : clock (with_tops s x) = clock s. Proof. reflexivity. Qed.
Lemma clock_with_dirs s x : clock (with_dirs s x) = clock s. Proof. reflexivity. Qed.
Lemma clock_with_itab s x : clock (with_itab s x) = clock s. Proof. reflexivity. Qed.
Lemma clock_idrop t s i : clock (idrop t s i) = clock s. Proof. reflexivity. Qed.

Definition only_stamps (t : nat) (s s' : fsys) : Prop :=
  changes_stamped t (itab s) (itab s') /\ clock s' = clock s.

Lemma only_stamps_refl t s : only_stamps t s s.
Proof. split; [apply changes_stamped_refl|reflexivity]. Qed.
Lemma only_stamps_set_reg t s s1 p i : only_stamps t s s1 -> only_stamps t s (set_reg s1 p i).
Proof. intros [L C]. split; [now rewrite itab_set_reg|now rewrite clock_set_reg]. Qed.
Lemma only_stamps_del_entry t s s1 p : only_stamps t s s1 -> only_stamps t s (del_entry s1 p).
Proof. intros [L C]. split; [now rewrite itab_del_entry|now rewrite clock_del_entry]. Qed.
Lemma only_stamps_stamp_parent t s s1 p : only_stamps t s s1 -> only_stamps t s (stamp_parent t s1 p).
Proof. intros [L C]. split; [now rewrite itab_stamp_parent|now rewrite clock_stamp_parent]. Qed.
Lemma only_stamps_with_tops t s s1 x : only_stamps t s s1 -> only_stamps t s (with_tops s1 x).
Proof. exact (fun H => H). Qed.
Lemma only_stamps_with_dirs t s s1 x : only_stamps t s s1 -> only_stamps t s (with_dirs s1 x).
Proof. exact (fun H => H). Qed.
Lemma only_stamps_iset t s s1 i c m : only_stamps t s s1 -> only_stamps t s (with_itab s1 (iset t i c m (itab s1))).
Proof. intros [L C]. split; [now apply changes_stamped_aset|exact C]. Qed.
Lemma only_stamps_istamp t s s1 i : only_stamps t s s1 -> only_stamps t s (with_itab s1 (istamp t i (itab s1))).
Proof.
  intros [L C]. split; [|exact C]. cbn [itab with_itab]. unfold istamp.
  destruct (aget i (itab s1)); [now apply changes_stamped_aset|exact L].
Qed.
Lemma only_stamps_idrop t s s1 i : only_stamps t s s1 -> only_stamps t s (idrop t s1 i).
Proof.
  intros H. unfold idrop. destruct (Nat.eqb (refs s1 i) 0); [|now apply only_stamps_istamp].
  destruct H as [L C]. split; [|exact C]. intros j f' G. cbn [itab with_itab] in G. rewrite aget_adel in G.
  destruct (Nat.eqb j i); [discriminate|now apply L].
Qed.

Section Concrete.
  Variable now : nat -> nat.
  Variable parent : name -> option name.      (* any nesting of the directory ids *)
  (* THE ASSUMPTION ABOUT THE OPERATING SYSTEM: the clock value a later operation stamps into
     st_ctime is strictly larger than the value stamped by any earlier operation *)
  Hypothesis now_strict : forall i j, i < j -> now i < now j.

  Hint Resolve only_stamps_refl only_stamps_set_reg only_stamps_del_entry only_stamps_stamp_parent only_stamps_with_tops only_stamps_with_dirs
       only_stamps_iset only_stamps_istamp only_stamps_idrop : fsdb.

  Ltac split_op H :=
    repeat match type of H with
      | Some _ = Some _ => injection H as <-
      | None = Some _ => discriminate H
      | context [match ?x with _ => _ end] => destruct x
      end.

  Lemma try_op_effect s o :
    only_stamps (now (clock s)) s (match try_op now parent s o with Some s' => s' | None => s end).
  Proof.
    destruct (try_op now parent s o) as [s'|] eqn:H; [|apply only_stamps_refl].
    destruct o; cbn [try_op] in H;
      unfold op_write, op_utime, op_rename, op_copy, op_link, op_unlink, op_symlink, op_mkdir, create in H;
      split_op H; auto 10 with fsdb.   (* every branch is a composition of the steps above *)
  Qed.

  Lemma fstep_effect s o :
    changes_stamped (now (clock s)) (itab s) (itab (fstep now parent s o)) /\ clock (fstep now parent s o) = S (clock s).
  Proof. destruct (try_op_effect s o) as [L C]. split; [exact L|cbn; now rewrite C]. Qed.

  (* later on an inode is the very same record, or carries the stamp of an operation in between *)
  Lemma reach_effect s s' : reach fsys fop (fstep now parent) s s' ->
    clock s <= clock s' /\
    forall i g, aget i (itab s') = Some g -> aget i (itab s) = Some g \/ now (clock s) <= f_ctime g < now (clock s').
  Proof.
    intros [ops ->]. revert s. induction ops as [|o r IH]; intros s; [split; [apply le_n|now left]|].
    destruct (IH (fstep now parent s o)) as [C L]. unfold run_fs in *. cbn [fold_left].
    destruct (fstep_effect s o) as [L1 C1]. rewrite C1 in C, L. split; [lia|]. intros i g G.
    pose proof (now_strict (clock s) (S (clock s)) (Nat.lt_succ_diag_r _)).
    destruct (L _ _ G) as [G1|B]; [|right; lia].
    destruct (L1 _ _ G1) as [G0| ->]; [now left|right]. split; [apply le_n|now apply now_strict].
  Qed.

  Theorem K_fixed_sound :
    key_sound fsys target key digest fop target_exists (K_fixed parent) (content_hash parent) (fstep now parent) fs_empty.
  Proof.
    intros s1 s2 t1 t2 R0 R _ _ HK.   (* equal keys give equal contents even of targets that do not exist *)
    destruct (reach_effect _ _ R0) as [_ L0]. destruct (reach_effect _ _ R) as [_ L].
    unfold K_fixed in HK. injection HK as <- HM.
    unfold content_hash. f_equal.
    revert HM. apply map_eq_lift. intros [n1 i1] [n2 i2]. cbn [fst snd].
    intros [= <- <- E3]. f_equal.
    destruct (aget i1 (itab s1)) as [f|] eqn:A1; destruct (aget i1 (itab s2)) as [g|] eqn:A2;
      cbn in E3; try discriminate; [|reflexivity].
    injection E3 as M C Z.
    (* the empty file system has no inode: f was stamped on the way to s1, so before anything
       stamped on the way from s1 to s2 *)
    destruct (L0 _ _ A1) as [A0|B0]; [discriminate A0|].
    destruct (L _ _ A2) as [A|B]; [congruence|lia].
  Qed.

  Theorem fixed_key_outputs h : model_outputs now parent (K_fixed parent) h = spec_out now parent h.
  Proof.
    unfold model_outputs, spec_out. apply outputs_correct.
    - intros a b. apply key_eqb_spec.
    - exact K_fixed_sound.
  Qed.
End Concrete.

Local Open Scope string_scope.
Definition now0 (k : nat) : nat := 1000 + k.
Lemma now0_strict : forall i j, i < j -> now0 i < now0 j.
Proof. unfold now0. intros. lia. Qed.

(* directory ids 0 and 1 live in the root, 2 in 0, 3 in 2 (depth 3), 4 in 1 *)
Definition parent0 (d : name) : option name :=
  match d with 2 => Some 0 | 3 => Some 2 | 4 => Some 1 | _ => None end.
Definition f0 : target := TFile (Top 0).
(* write a; hash; write b of the same size; utime(old mtime); hash *)
Definition h_utime : hist :=
  [GFs (OWrite (Top 0) "aaaa" 0); GHash 0 MFresh f0;
   GFs (OWrite (Top 0) "bbbb" 1); GFs (OUtime (Top 0) 1000); GHash 0 MFresh f0].
(* two files with equal mtime; hash one; rename the other over it; hash *)
Definition h_rename : hist :=
  [GFs (OWrite (Top 0) "gggg" 0); GFs (OUtime (Top 0) 5);
   GFs (OWrite (Top 1) "hhhh" 1); GFs (OUtime (Top 1) 5);
   GHash 0 MFresh f0; GFs (ORename (Top 1) (Top 0)); GHash 0 MFresh f0].
(* the same with a timestamp-preserving copy *)
Definition h_copy : hist :=
  [GFs (OWrite (Top 0) "gggg" 0); GFs (OUtime (Top 0) 5);
   GFs (OWrite (Top 1) "hhhh" 1); GFs (OUtime (Top 1) 5);
   GHash 0 MFresh f0; GFs (OCopy (Top 1) (Top 0) 2); GHash 0 MFresh f0].
(* a directory input; a file in it is rewritten (no timestamp is touched by hand) *)
Definition h_dir : hist :=
  [GFs (OMkdir 0); GFs (OWrite (Sub 0 0) "1111" 0); GHash 0 MFresh (TDir 0);
   GFs (OWrite (Sub 0 0) "22222222" 1); GHash 0 MFresh (TDir 0)].
(* a symlinked input; its target is rewritten *)
Definition h_symlink : hist :=
  [GFs (OWrite (Top 1) "tttt" 0); GFs (OSymlink 0 (Top 1)); GHash 0 MFresh f0;
   GFs (OWrite (Top 1) "uuuuuuuu" 1); GHash 0 MFresh f0].
(* process 0 hashes, the file is rewritten, process 1 (own PersistentCache object) hashes *)
Definition h_two_procs : hist :=
  [GFs (OWrite (Top 0) "aaaa" 0); GHash 0 MObj f0;
   GFs (OWrite (Top 0) "bbbb" 1); GFs (OUtime (Top 0) 1000); GHash 1 MObj f0].

Lemma pinned_stale_utime : model_outputs now0 parent0 K_pinned h_utime <> spec_out now0 parent0 h_utime.
Proof. vm_compute. discriminate. Qed.

(* the cache really is used: five hash requests, two calculations *)
Definition h_reuse : hist :=
  [GFs (OWrite (Top 0) "aaaa" 0); GHash 0 MFresh f0; GHash 1 MObj f0; GHash 1 MObj f0;
   GFs (OWrite (Top 0) "bbbb" 1); GFs (OUtime (Top 0) 1000); GHash 0 MTask f0; GHash 1 MObj f0].
Definition final_store_size (K : target -> fsys -> key) (h : hist) : nat :=
  match rev (model_states now0 parent0 K h) with
  | x :: _ => List.length (c_store (snd (fst x)))
  | [] => 0
  end.
Lemma fixed_reuse_example :
  model_outputs now0 parent0 (K_fixed parent0) h_reuse = spec_out now0 parent0 h_reuse /\
  final_store_size (K_fixed parent0) h_reuse = 2 /\
  List.length (model_outputs now0 parent0 (K_fixed parent0) h_reuse) = 5 /\
  nth 0 (model_outputs now0 parent0 (K_fixed parent0) h_reuse) None <> nth 4 (model_outputs now0 parent0 (K_fixed parent0) h_reuse) None.
Proof.
  rewrite (fixed_key_outputs now0 parent0 now0_strict h_reuse). vm_compute. repeat split; discriminate.
Qed.

(* a directory input with nested directories; a file two and three levels down is rewritten in
   place (nothing is created, removed or renamed, so no directory stamp moves) *)
Definition h_nested : hist :=
  [GFs (OMkdir 0); GFs (OMkdir 2); GFs (OMkdir 3);
   GFs (OWrite (Sub 0 0) "1111" 0); GFs (OWrite (Sub 2 0) "2222" 1); GFs (OWrite (Sub 3 0) "3333" 2);
   GHash 0 MFresh (TDir 0);
   GFs (OWrite (Sub 2 0) "4444" 3); GHash 1 MFresh (TDir 0);
   GFs (OWrite (Sub 3 0) "5555" 3); GFs (OUtime (Sub 3 0) 1005); GHash 0 MObj (TDir 0); GHash 0 MTask (TDir 2)].
Lemma shallow_stale_nested :
  model_outputs now0 parent0 (K_shallow parent0) h_nested <> spec_out now0 parent0 h_nested.
Proof. vm_compute. discriminate. Qed.
Lemma fixed_nested_example :
  model_outputs now0 parent0 (K_fixed parent0) h_nested = spec_out now0 parent0 h_nested /\
  nth 0 (model_outputs now0 parent0 (K_fixed parent0) h_nested) None
    = Some (true, [((0, 0), Some "1111"); ((3, 0), Some "2222"); ((4, 0), Some "3333")]) /\
  nth 3 (model_outputs now0 parent0 (K_fixed parent0) h_nested) None
    = Some (true, [((0, 0), Some "4444"); ((4, 0), Some "5555")]).
Proof. rewrite (fixed_key_outputs now0 parent0 now0_strict h_nested). vm_compute. repeat split. Qed.
