(* Proofs/GraphFuel.v — the traversal of remove_successors_nodes (_checking_successors_nodes): its depth bound
   only decides where an endless recursion is reported, and the followers it yields are distinct nodes of the graph. *)
From Pydra Require Import Base.Prelude Model.Graph Proofs.GraphBase Proofs.ListFacts.
Local Open Scope nat_scope.

Lemma foldM_mono {A S} (f g : S -> A -> result S) :
  (forall s x r, f s x = Ok r -> g s x = Ok r) ->
  forall l s r, foldM f l s = Ok r -> foldM g l s = Ok r.
Proof.
  intros H. induction l as [|x l IH]; intros s r E; [exact E|].
  cbn [foldM] in *. apply bind_ok in E. destruct E as [s' [E1 E2]].
  rewrite (H s x s' E1). cbn [bind]. apply IH, E2.
Qed.

Lemma succ_all_S d sd n :
  succ_all (S d) sd n =
  (sl <- of_opt EKey (dget sd n) ;; foldM (fun acc x => sx <- succ_all d sd x ;; Ok (acc ++ x :: sx)) sl []).
Proof. reflexivity. Qed.

Lemma succ_all_mono_S d sd : forall n l, succ_all d sd n = Ok l -> succ_all (S d) sd n = Ok l.
Proof.
  induction d as [|d IH]; intros n l E; [discriminate|].
  rewrite succ_all_S in E. rewrite (succ_all_S (S d)).
  apply bind_ok in E. destruct E as [sl [E1 E2]]. rewrite E1. cbn [bind].
  eapply foldM_mono; [|exact E2]. intros acc x r F.
  apply bind_ok in F. destruct F as [sx [F1 F2]]. rewrite (IH x sx F1). exact F2.
Qed.

Theorem succ_all_fuel_irrelevant d d' sd n l : d <= d' -> succ_all d sd n = Ok l -> succ_all d' sd n = Ok l.
Proof. induction 1 as [|m _ IH]; intros E; [exact E|]. apply succ_all_mono_S, IH, E. Qed.

Corollary succ_all_err_stable d d' sd n e : d <= d' -> succ_all d' sd n = Err e -> forall l, succ_all d sd n <> Ok l.
Proof. intros L E l F. rewrite (succ_all_fuel_irrelevant d d' sd n l L F) in E. discriminate. Qed.

(* so every follower of remove_successors_nodes meets remove_nodes' "distinct nodes of the graph" precondition, in
   whatever state the earlier removals leave *)
Lemma collect_followers_spec ns all : forall acc,
  NoDup acc ->
  NoDup (collect_followers ns all acc) /\
  (forall x, In x (collect_followers ns all acc) <-> In x acc \/ (In x all /\ In x ns)).
Proof.
  induction all as [|nd r IH]; intros acc ND; cbn [collect_followers].
  - split; [exact ND|]. intros x. cbn [In]. tauto.
  - destruct (memb nd ns) eqn:E1; [destruct (memb nd acc) eqn:E2|]; cbn [andb negb].
    + apply memb_In in E1, E2. destruct (IH acc ND) as [N S]. split; [exact N|].
      intros x. rewrite S. cbn [In]. split; [intros [H|[H1 H2]]; auto|intros [H|[[<-|H1] H2]]; auto].
    + apply memb_In in E1. apply memb_false in E2.
      destruct (IH (acc ++ [nd]) (NoDup_snoc _ _ ND E2)) as [N S]. split; [exact N|].
      intros x. rewrite S, in_app_iff. cbn [In].
      split; [intros [[H|[<-|[]]]|[H1 H2]]; auto|intros [H|[[<-|H1] H2]]; auto].
    + apply memb_false in E1. destruct (IH acc ND) as [N S]. split; [exact N|].
      intros x. rewrite S. cbn [In].
      split; [intros [H|[H1 H2]]; auto|intros [H|[[<-|H1] H2]]; [auto|contradiction|auto]].
Qed.
