(* Proofs/GraphC18.v — from a graph built by Workflow._create_graph to the end of both submitter loops: what
   sorting (GraphLive.v) returns is an order the loops of GraphSched.v accept. *)
From Pydra Require Import Base.Prelude Model.Graph Spec.Graph
  Proofs.GraphBase Proofs.GraphInv Proofs.GraphEdges Proofs.GraphTopo Proofs.GraphLive Proofs.GraphSched Proofs.ListFacts.
From Coq Require Import Sorting.Permutation.
Local Open Scope nat_scope.
Local Open Scope list_scope.

Lemma lk_plist pd n : lk pd n = plist pd n.
Proof. reflexivity. Qed.

Lemma built_wip_nil ns es ops g0 g :
  init ns es = Ok g0 -> run_build g0 ops = true -> run g0 ops = Ok g -> g_wip g = [].
Proof.
  intros Hi. apply (run_guarded_inv run_build build_ok (fun x => g_wip x = [])); [reflexivity| |].
  - intros g1 o g2 E Hb H. rewrite <- E.
    destruct (order_op o) eqn:O; [destruct (order_only_step g1 o g2 O H) as [s ->]; reflexivity|].
    destruct o; try discriminate Hb; try discriminate O.
    + destruct (add_nodes_frame _ _ _ H) as [_ [o ->]]. reflexivity.
    + destruct (add_edges_frame _ _ _ H) as [_ [ps [o [_ ->]]]]. reflexivity.
  - destruct (init_frame _ _ _ Hi) as [_ [_ [ps [_ ->]]]]. reflexivity.
Qed.

Lemma pos_order_valid pd s :
  NoDup s -> (forall p n, In n s -> In p (plist pd n) -> pos p s < pos n s) -> order_valid pd s.
Proof.
  intros Hnd Hpos l1 n l2 E p Hpn.
  assert (Hlt : pos p s < pos n s) by (apply Hpos; [rewrite E; apply in_or_app; right; now left|exact Hpn]).
  destruct (in_dec Nat.eq_dec p l1) as [Hi|Hi]; [exact Hi|exfalso].
  assert (Hnl1 : ~ In n l1).
  { intros Hin. rewrite E in Hnd. eapply (NoDup_app_disj l1 (n :: l2) n); eauto. now left. }
  rewrite E in Hlt. pose proof (pos_app_notin p l1 (n :: l2) Hi) as E1.
  pose proof (pos_app_notin n l1 (n :: l2) Hnl1) as E2. cbn [pos] in E2. rewrite Nat.eqb_refl in E2.
  unfold node, vertex in *. lia.
Qed.

(* The whole submission, for a workflow graph built the way Workflow._create_graph builds it:
   if its connections are acyclic, sorted_nodes returns an order, and on that order the
   synchronous loop (for every set of failing jobs) stops within 2|nodes|+1 iterations and the
   asynchronous loop (for every completion order, every failure pattern and every
   max_concurrent >= 1) within 2|nodes|+2. *)
Theorem submission_terminates ns es ops g0 g :
  init ns es = Ok g0 -> run_build g0 ops = true -> run g0 ops = Ok g ->
  acyclic (g_nodes g) (g_edges g) ->
  exists g' s, step g GetSorted = Ok g' /\ g_sorted g' = Some s /\
    topo_valid (g_nodes g) (g_edges g) s /\
    (forall fails, run_sync (2 * List.length s + 1) (g_preds g') s fails <> OutOfFuel) /\
    (forall k oracle, 1 <= k -> run_async (2 * List.length s + 2) (g_preds g') s k oracle <> OutOfFuel).
Proof.
  intros Hi Hb Hr Hac.
  destruct (built_acyclic_sorts _ _ _ _ _ Hi Hb Hr Hac) as [_ [g' Hg']].
  assert (Hc : consistent g) by (eapply run_build_consistent; [eapply init_consistent; eauto|exact Hb|exact Hr]).
  assert (Hw : g_wip g = []) by (eapply built_wip_nil; eauto).
  assert (Hinv : inv g) by (eapply run_inv; [eapply init_inv; eauto|exact Hr]).
  assert (Hinv' : inv g') by (eapply step_inv; eauto).
  pose proof Hg' as Eg. cbn [step] in Eg. apply bind_ok in Eg. destruct Eg as [[g1 s] [Eg E1]].
  apply sorted_nodes_frame in Eg. inversion E1; subst g1 g'. clear E1.
  exists (set_sorted g (Some s)), s. split; [exact Hg'|]. split; [reflexivity|].
  assert (Hv : topo_valid (g_nodes g) (g_edges g) s).
  { apply (sorted_valid_edges (set_sorted g (Some s))); [|reflexivity].
    split; [exact Hinv'|apply consistent_rest_ok, Hc]. }
  split; [exact Hv|]. destruct Hv as [Hnds [Hp Hpos]].
  pose proof (consistent_tab g Hc) as L. destruct Hc as [_ [_ [_ [_ [_ [_ CL]]]]]].
  assert (OV : order_valid (g_preds g) s).
  { apply pos_order_valid; [exact Hnds|]. intros p n Hn Hpn.
    assert (Hn' : In n (g_nodes g)) by (eapply Permutation_in; eauto).
    assert (He : In (p, n) (g_edges g)).
    { apply ecnt_pos_In. rewrite <- (proj1 (L p n)). apply (count_occ_In Nat.eq_dec), Hpn. }
    apply Hpos; [exact He| |exact Hn']. pose proof (CL p n He Hn') as Hin. rewrite Hw in Hin. exact Hin. }
  split.
  - intros fails. apply run_sync_ends; assumption.
  - intros k oracle Hk1. apply run_async_ends; assumption.
Qed.
