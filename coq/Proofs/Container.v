(* Proofs/Container.v — container environments (C27).  On the domain (root empty or a normalised absolute path plus
   slashes, files normalised absolute paths) Path(root + dir) / name is root.rstrip("/") + path, by the pathlib
   normal form of Proofs/Template.v; so one call of map_path is one (directory, rw) request answered in the
   statement's terms, get_bindings is a fold of such requests, and the final value of every key is read off the
   request list; that gives the three clauses of the specification on the mounts, and its equation for the argument
   vector once the remapped values are put into the template. *)
From Pydra Require Import Base.Prelude Base.PyPath Proofs.Template Proofs.Assoc Model.Container Spec.Container Proofs.ListFacts.

Local Open Scope list_scope.

Definition no_slash (c : list ascii) : bool := forallb (fun x => negb (Ascii.eqb x slash)) c.
(* the absolute path with components cs *)
Definition A (cs : list (list ascii)) : ppath := {| p_anchor := ARoot; p_comps := cs |}.

Lemma no_slash_spec c : no_slash c = true -> ~ In slash c.
Proof.
  unfold no_slash. rewrite forallb_forall. intros H Hin. specialize (H _ Hin). now rewrite Ascii.eqb_refl in H.
Qed.

Lemma split_join cs : forall rest, cs <> [] -> forallb no_slash cs = true ->
  split_slash (join_slash cs ++ slash :: rest) [] = cs ++ split_slash rest [].
Proof.
  intros rest Hne H. rewrite split_slash_sep, split_join_noslash; [reflexivity| |exact Hne].
  apply Forall_forall. intros c Hc. rewrite forallb_forall in H. now apply no_slash_spec, H.
Qed.

Lemma comps_slashes k l : p_comps (parse (repeat slash k ++ l)) = p_comps (parse l).
Proof.
  induction k as [|k IH]; [reflexivity|].
  change (repeat slash (S k) ++ l) with ([] ++ slash :: repeat slash k ++ l). now rewrite comps_sep, IH.
Qed.

Lemma repeat_snoc_app {T} (x : T) k l : repeat x k ++ x :: l = x :: repeat x k ++ l.
Proof. induction k; cbn; [reflexivity|]. now rewrite IHk. Qed.

(* Path(root + dir): root = normalised absolute rs followed by k slashes *)
Lemma parse_root_concat rs cs k : rs <> [] -> Forall comp_ok rs -> Forall comp_ok cs ->
  parse (render (A rs) ++ repeat slash k ++ render (A cs)) = A (rs ++ cs).
Proof.
  intros Hne Hr Hc. unfold A. cbn [render p_anchor p_comps app]. rewrite repeat_snoc_app.
  assert (L : leading_slashes (join_slash rs ++ slash :: repeat slash k ++ join_slash cs) = 0).
  { destruct Hr as [|r rs Hr0 _]; [congruence|]. destruct rs; cbn [join_slash]; rewrite <- ?app_assoc;
      now apply leading_slashes_comp. }
  unfold parse at 1. cbn [leading_slashes]. rewrite Ascii.eqb_refl, L. f_equal.
  change (p_comps (parse ([] ++ slash :: join_slash rs ++ slash :: repeat slash k ++ join_slash cs)) = rs ++ cs).
  rewrite !comps_sep, comps_slashes. change (p_comps (parse [])) with (@nil (list ascii)).
  cbn [app]. apply (f_equal2 (@app _)); now apply comps_of_join.
Qed.

Lemma join_app rs cs : rs <> [] -> cs <> [] -> join_slash (rs ++ cs) = join_slash rs ++ slash :: join_slash cs.
Proof.
  induction rs as [|r rs IH]; intros Hr Hc; [congruence|].
  destruct rs as [|r2 rs].
  - destruct cs; [congruence|reflexivity].
  - change (join_slash (r :: (r2 :: rs) ++ cs) = (r ++ slash :: join_slash (r2 :: rs)) ++ slash :: join_slash cs).
    rewrite <- app_assoc. cbn [app]. rewrite <- IH by (auto; discriminate). reflexivity.
Qed.

Lemma abs_norm_comps p : abs_norm p = true ->
  exists cs, Forall comp_ok cs /\ ppath_of p = A cs /\ p = pstr (A cs).
Proof.
  unfold abs_norm. rewrite andb_true_iff. intros [H1 H2]. apply String.eqb_eq in H1.
  exists (p_comps (ppath_of p)).
  assert (E : ppath_of p = A (p_comps (ppath_of p))).
  { destruct (ppath_of p) as [[| |] cs]; try discriminate H2. reflexivity. }
  split; [apply parse_wf|]. split; [exact E|]. rewrite <- E. now symmetry.
Qed.

Lemma pstr_A_nil : pstr (A []) = "/"%string.
Proof. reflexivity. Qed.

Lemma lstrip_decomp l : exists k, l = repeat slash k ++ lstrip_slash l.
Proof.
  induction l as [|c l [k IH]]; [now exists 0|]. cbn. destruct (Ascii.eqb c slash) eqn:E.
  - apply Ascii.eqb_eq in E. subst c. exists (S k). cbn. now rewrite <- IH.
  - now exists 0.
Qed.

Lemma rev_repeat_same {T} (x : T) k : rev (repeat x k) = repeat x k.
Proof. induction k; cbn; [reflexivity|]. now rewrite IHk, <- repeat_cons. Qed.

Lemma rstrip_decomp root : exists k, la_of root = la_of (rstrip_slash root) ++ repeat slash k.
Proof.
  unfold rstrip_slash. destruct (lstrip_decomp (rev (la_of root))) as [k H]. exists k.
  rewrite la_of_str_of. rewrite <- (rev_involutive (la_of root)) at 1. rewrite H at 1.
  rewrite rev_app_distr, rev_repeat_same. reflexivity.
Qed.

Lemma rstrip_empty : rstrip_slash "" = ""%string.
Proof. reflexivity. Qed.

Lemma root_cases root : root_ok root = true ->
  root = ""%string \/
  exists rs k, rs <> [] /\ Forall comp_ok rs /\ rstrip_slash root = pstr (A rs) /\
               la_of root = render (A rs) ++ repeat slash k.
Proof.
  unfold root_ok. intros H. apply orb_prop in H. destruct H as [H|H]; [left; now apply String.eqb_eq|].
  apply andb_prop in H. destruct H as [H1 H2]. apply negb_true_iff in H2.
  right. destruct (abs_norm_comps _ H1) as (rs & Hw & _ & E).
  destruct (rstrip_decomp root) as [k Hk]. exists rs, k. split; [|split; [exact Hw|split; [exact E|]]].
  - intros ->. rewrite E in H2. discriminate H2.
  - rewrite Hk, E. unfold pstr. now rewrite la_of_str_of.
Qed.

Lemma file_cases p : file_ok p = true ->
  exists cs n, cs <> [] /\ Forall comp_ok cs /\ keep_comp n = true /\
               path_parent (ppath_of p) = A cs /\ path_name (ppath_of p) = n /\ p = pstr (A (cs ++ [n])).
Proof.
  unfold file_ok. intros H. apply andb_prop in H. destruct H as [H H3]. apply andb_prop in H. destruct H as [H1 H2].
  apply negb_true_iff in H2, H3.
  destruct (abs_norm_comps _ H1) as ([|c0 cs0] & Hw & E1 & E2); [rewrite E2 in H2; discriminate H2|].
  destruct (exists_last (l := c0 :: cs0)) as (cs & n & El); [discriminate|]. rewrite El in Hw, E1, E2.
  apply Forall_app in Hw. destruct Hw as [Hwc Hwn]. apply Forall_inv in Hwn. destruct Hwn as [Hk _].
  assert (Epar : path_parent (ppath_of p) = A cs).
  { rewrite E1. unfold path_parent. cbn [p_anchor p_comps A]. now rewrite removelast_last. }
  exists cs, n. split; [|repeat split; auto].
  - intros ->. unfold dir_of in H3. rewrite Epar in H3. discriminate H3.
  - rewrite E1. apply last_last.
Qed.

Lemma abs_concat rs cs : rs <> [] -> cs <> [] ->
  pstr (A (rs ++ cs)) = String.append (pstr (A rs)) (pstr (A cs)).
Proof.
  intros Hr Hc. unfold pstr, A. cbn [render p_anchor p_comps]. rewrite join_app by assumption.
  now rewrite <- str_of_app.
Qed.

Lemma root_dir_parse root cs : root_ok root = true -> Forall comp_ok cs ->
  exists rs, ppath_of (String.append root (pstr (A cs))) = A (rs ++ cs) /\
             forall ds, ds <> [] -> pstr (A (rs ++ ds)) = String.append (rstrip_slash root) (pstr (A ds)).
Proof.
  intros Hr Hc. unfold ppath_of. rewrite la_of_append. unfold pstr at 1. rewrite la_of_str_of.
  destruct (root_cases _ Hr) as [->|(rs & k & Hrs & Hw & E & Hl)].
  - exists []. split; [|reflexivity]. now apply (parse_render (A cs)).
  - exists rs. split.
    + rewrite Hl, <- app_assoc. now apply parse_root_concat.
    + intros ds Hds. rewrite E. now apply abs_concat.
Qed.

Local Open Scope string_scope.
Local Open Scope list_scope.

Lemma b_lookup_set b k v k0 : b_lookup k0 (b_set b k v) = if String.eqb k0 k then Some v else b_lookup k0 b.
Proof. exact (assoc_get_set String.eqb String.eqb_eq b k v k0). Qed.

Lemma b_nodup_set b k v : NoDup (map fst b) -> NoDup (map fst (b_set b k v)).
Proof. exact (assoc_nodup_set String.eqb String.eqb_eq b k v). Qed.

Lemma b_lookup_none b k : b_lookup k b = None <-> ~ In k (map fst b).
Proof. exact (assoc_get_none String.eqb String.eqb_eq k b). Qed.

Lemma b_lookup_iff b k v : NoDup (map fst b) -> b_lookup k b = Some v <-> In (k, v) b.
Proof.
  intros N. split; [exact (assoc_get_in String.eqb String.eqb_eq k v b)|exact (assoc_in_get String.eqb String.eqb_eq k v b N)].
Qed.

Definition was_rw (h : string) (b : bindings) : bool :=
  match b_lookup h b with Some (_, true) => true | _ => false end.
(* one request: directory h must be bound, read-write if rw *)
Definition stepd (root : string) (b : bindings) (x : string * bool) : bindings :=
  b_set b (fst x) (remap root (fst x), snd x || was_rw (fst x) b).
Definition touched (h : string) (dr : list (string * bool)) : bool := existsb (fun x => String.eqb (fst x) h) dr.
Definition anyrw (h : string) (dr : list (string * bool)) : bool := existsb (fun x => String.eqb (fst x) h && snd x) dr.

Lemma anyrw_touched h dr : touched h dr = false -> anyrw h dr = false.
Proof.
  induction dr as [|x dr IH]; cbn; [reflexivity|]. intros H. apply orb_false_iff in H. destruct H as [H1 H2].
  rewrite H1. cbn. now apply IH.
Qed.

Lemma was_rw_set b k e m h : was_rw h (b_set b k (e, m)) = if String.eqb h k then m else was_rw h b.
Proof. unfold was_rw. rewrite b_lookup_set. destruct (String.eqb h k); [destruct m|]; reflexivity. Qed.

Lemma fold_lookup root dr : forall b h,
  b_lookup h (fold_left (stepd root) dr b) =
  if touched h dr then Some (remap root h, anyrw h dr || was_rw h b) else b_lookup h b.
Proof.
  induction dr as [|[h1 rw1] dr IH]; intros b h; [reflexivity|].
  cbn [fold_left]. rewrite IH. cbn [touched anyrw existsb fst snd].
  fold (touched h dr). fold (anyrw h dr).
  unfold stepd. cbn [fst snd]. rewrite was_rw_set, b_lookup_set.
  rewrite (String.eqb_sym h1 h).
  destruct (String.eqb h h1) eqn:E.
  - apply String.eqb_eq in E. subst h1. cbn [orb andb].
    destruct (touched h dr) eqn:T.
    + f_equal. f_equal. destruct (anyrw h dr), rw1, (was_rw h b); reflexivity.
    + rewrite (anyrw_touched _ _ T). now rewrite orb_false_r.
  - cbn [orb andb]. reflexivity.
Qed.

Lemma fold_nodup root dr : forall b, NoDup (map fst b) -> NoDup (map fst (fold_left (stepd root) dr b)).
Proof.
  induction dr as [|x dr IH]; intros b H; [exact H|]. cbn [fold_left]. apply IH. unfold stepd. now apply b_nodup_set.
Qed.

Definition dreqs (fs : list field) : list (string * bool) :=
  flat_map (fun f => map (fun p => (dir_of p, f_rw f)) (paths_of f)) fs.

Definition up_of (root : string) (f : field) : values :=
  if f_fileset f && truthy (f_value f) then [(f_name f, remap_value root f)] else [].
Definition ups_of (root : string) (fs : list field) : values := flat_map (up_of root) fs.

Lemma map_path_eq root rw b v : root_ok root = true -> file_ok v = true ->
  map_path true root rw b v = (stepd root b (dir_of v, rw), remap root v).
Proof.
  intros Hr Hp. destruct (file_cases _ Hp) as (cs & n & Hne & Hwc & Hk & Epar & En & E2).
  unfold map_path, stepd, was_rw, dir_of, remap. cbn [fst snd andb]. rewrite Epar, En.
  destruct (root_dir_parse root cs Hr Hwc) as (rs & -> & E). rewrite (E cs Hne). f_equal.
  unfold path_join. cbn [p_anchor p_comps A]. rewrite Hk, E2, <- app_assoc. apply (E (cs ++ [n])). now destruct cs.
Qed.

Lemma map_paths_eq root rw ps : root_ok root = true -> forall b, forallb file_ok ps = true ->
  map_paths true root rw b ps =
  (fold_left (stepd root) (map (fun p => (dir_of p, rw)) ps) b, map (remap root) ps).
Proof.
  intros Hr. induction ps as [|p ps IH]; intros b Hok; [reflexivity|]. apply andb_prop in Hok. destruct Hok as [Hp Hok].
  cbn [map_paths]. rewrite map_path_eq, IH by assumption. reflexivity.
Qed.

Lemma scan_fields_eq root fs : root_ok root = true -> fields_ok fs = true -> forall b,
  scan_fields true root fs b = (fold_left (stepd root) (dreqs fs) b, ups_of root fs).
Proof.
  intros Hr. induction fs as [|f fs IH]; intros Hok b; [reflexivity|]. apply andb_prop in Hok. destruct Hok as [Hf Hok].
  cbn [scan_fields]. unfold dreqs, ups_of. cbn [flat_map]. fold (dreqs fs). fold (ups_of root fs).
  unfold up_of, remap_value, paths_of in *.
  destruct (f_fileset f && truthy (f_value f)) eqn:C; [|now rewrite IH].
  destruct (f_value f) as [|p|ps].
  - now rewrite andb_false_r in C.
  - cbn in Hf. rewrite andb_true_r in Hf. rewrite map_path_eq, IH by assumption. reflexivity.
  - rewrite map_paths_eq, IH, fold_left_app by assumption. reflexivity.
Qed.

Definition final_bindings (root : string) (fs : list field) (cr : string) : bindings :=
  b_set (fold_left (stepd root) (dreqs fs) []) cr (remap root cr, true).

Lemma get_bindings_eq root fs cr : root_ok root = true -> fields_ok fs = true ->
  get_bindings true root fs cr = (final_bindings root fs cr, ups_of root fs).
Proof. intros Hr Hok. unfold get_bindings. now rewrite scan_fields_eq. Qed.

Lemma existsb_dreqs (P : string * bool -> bool) fs :
  existsb P (dreqs fs) = existsb (fun f => existsb (fun p => P (dir_of p, f_rw f)) (paths_of f)) fs.
Proof.
  induction fs as [|f fs IH]; [reflexivity|]. unfold dreqs. cbn [flat_map]. fold (dreqs fs).
  rewrite existsb_app, IH. cbn [existsb]. f_equal. induction (paths_of f); cbn; congruence.
Qed.

Lemma anyrw_dreqs h fs : anyrw h (dreqs fs) = existsb (fun f => f_rw f && uses_dir h f) fs.
Proof.
  unfold anyrw. rewrite existsb_dreqs. induction fs as [|f fs IH]; [reflexivity|]. cbn [existsb]. rewrite IH. f_equal.
  unfold uses_dir. induction (paths_of f) as [|p l IHl]; cbn [existsb fst snd] in *; [now rewrite andb_false_r|].
  rewrite IHl. destruct (f_rw f), (String.eqb (dir_of p) h); reflexivity.
Qed.

Lemma final_lookup_spec root fs cr h :
  b_lookup h (final_bindings root fs cr) =
  if required fs cr h then Some (remap root h, needs_rw fs cr h) else None.
Proof.
  unfold final_bindings, required, needs_rw. rewrite b_lookup_set. destruct (String.eqb h cr) eqn:E.
  - apply String.eqb_eq in E. now subst h.
  - rewrite fold_lookup, anyrw_dreqs. unfold touched. rewrite existsb_dreqs. unfold was_rw. cbn [b_lookup orb]. now rewrite orb_false_r.
Qed.

Lemma final_nodup root fs cr : NoDup (map fst (final_bindings root fs cr)).
Proof. unfold final_bindings. apply b_nodup_set. apply fold_nodup. apply NoDup_nil. Qed.

Lemma final_in root fs cr h e m :
  In (h, (e, m)) (final_bindings root fs cr) -> e = remap root h /\ m = needs_rw fs cr h.
Proof.
  intros Hin. apply (b_lookup_iff _ _ _ (final_nodup root fs cr)) in Hin.
  rewrite final_lookup_spec in Hin. destruct (required fs cr h); inversion Hin. now split.
Qed.

Lemma v_lookup_skip n a b : ~ In n (map fst a) -> v_lookup n (a ++ b) = v_lookup n b.
Proof.
  induction a as [|[k v] a IH]; intros H; [reflexivity|]. cbn in H |- *.
  destruct (String.eqb n k) eqn:E; [apply String.eqb_eq in E; subst; tauto|]. apply IH. tauto.
Qed.
Lemma v_lookup_drop n a k v b : String.eqb n k = false -> v_lookup n (a ++ (k, v) :: b) = v_lookup n (a ++ b).
Proof. intros Hk. induction a as [|[k' v'] a IH]; cbn; [now rewrite Hk|now rewrite IH]. Qed.

Lemma ups_keys root fs n : In n (map fst (ups_of root fs)) -> In n (map f_name fs).
Proof.
  induction fs as [|f fs IH]; [tauto|]. unfold ups_of. cbn [flat_map]. fold (ups_of root fs).
  rewrite map_app, in_app_iff. intros [H|H]; [|right; now apply IH]. left. unfold up_of in H.
  destruct (f_fileset f && truthy (f_value f)); cbn in H; tauto.
Qed.

Lemma values_agree root fs : NoDup (map f_name fs) ->
  forall n, v_lookup n (updated fs (ups_of root fs)) = v_lookup n (map (fun f => (f_name f, remap_value root f)) fs).
Proof.
  unfold updated. induction fs as [|f fs IH]; intros Hnd n; [reflexivity|].
  inversion Hnd as [|? ? Hnotin Hnd']; subst.
  unfold ups_of. cbn [flat_map]. fold (ups_of root fs). cbn [inputs_of map v_lookup]. fold (inputs_of fs).
  rewrite <- IH, <- app_assoc by assumption.
  unfold up_of, remap_value. destruct (f_fileset f && truthy (f_value f)); cbn [app v_lookup];
    destruct (String.eqb n (f_name f)) eqn:E.
  - reflexivity.
  - now apply v_lookup_drop.
  - (* f has no update: no update carries its name (NoDup, ups_keys), so the lookup falls through to f's own value *)
    apply String.eqb_eq in E. subst n. rewrite v_lookup_skip by (intros X; apply ups_keys in X; tauto).
    cbn [v_lookup]. now rewrite String.eqb_refl.
  - now apply v_lookup_drop.
Qed.

Lemma instantiate_updated root fs tmpl : NoDup (map f_name fs) ->
  instantiate (updated fs (ups_of root fs)) tmpl = remapped_argv root fs tmpl.
Proof.
  intros H. unfold remapped_argv, instantiate. apply map_ext. intros t. unfold inst_token. f_equal.
  apply map_ext. intros [s|f i]; cbn; [reflexivity|now rewrite values_agree].
Qed.

Definition proj_mount (x : binding) : string * bool := (fst x, snd (snd x)).

Theorem full : forall (c : config) (fs : list field) (tmpl : list token),
  root_ok (c_root c) = true -> fields_ok fs = true -> NoDup (map f_name fs) ->
  container_spec c fs tmpl (container_argv c fs tmpl).
Proof.
  intros c fs tmpl Hr Hok Hnd. unfold container_argv. rewrite get_bindings_eq by assumption.
  set (B := final_bindings (c_root c) fs (c_cache_root c)).
  pose proof (final_lookup_spec (c_root c) fs (c_cache_root c)) as L. fold B in L.
  exists (map proj_mount B). rewrite map_map. change (map (fun x => fst (proj_mount x)) B) with (map fst B).
  split; [apply final_nodup|]. split; [|split].
  - intros h. specialize (L h). destruct (required fs (c_cache_root c) h).
    + split; [reflexivity|]. intros _. apply (b_lookup_iff _ _ _ (final_nodup _ _ _)) in L. exact (in_map fst _ _ L).
    + apply b_lookup_none in L. split; [contradiction|discriminate].
  - intros h m Hin. apply in_map_iff in Hin. destruct Hin as ([h' [e m']] & E & Hin). inversion E; subst.
    now apply (final_in _ _ _ _ _ _ Hin).
  - f_equal. f_equal. rewrite flat_map_concat_map, map_map, <- flat_map_concat_map.
    unfold remap. cbn [app]. f_equal; [|f_equal; f_equal; f_equal].
    + apply flat_map_ext_in. intros [h [e m]] Hin.
      destruct (final_in _ _ _ _ _ _ Hin) as [-> _]. reflexivity.
    + now apply instantiate_updated.
Qed.

Lemma spec_mount_present c fs tmpl argv h : container_spec c fs tmpl argv ->
  required fs (c_cache_root c) h = true ->
  In (mount_str (c_root c) (h, needs_rw fs (c_cache_root c) h)) argv.
Proof.
  intros (ms & _ & Hk & Hm & ->) R. apply Hk in R. apply in_map_iff in R. destruct R as ([h' m] & E & Hin).
  cbn in E. subst h'. rewrite <- (Hm _ _ Hin).
  do 2 (apply in_or_app; right). apply in_or_app. left. apply in_flat_map. exists (h, m). split; [exact Hin| right; now left].
Qed.

Definition pinned_statement : Prop :=
  forall (c : config) (fs : list field) (tmpl : list token),
    root_ok (c_root c) = true -> fields_ok fs = true -> NoDup (map f_name fs) ->
    container_spec c fs tmpl (container_argv_pinned c fs tmpl).

Definition cfg0 : config :=
  {| c_runtime := Docker; c_image := "img"; c_tag := "latest"; c_root := "/mnt/pydra"; c_xargs := [];
     c_cache_root := "/c"; c_cache_dir := "/c/j" |}.
(* a copied input and then a linked input, both staged in the job directory *)
Definition fs_mode : list field :=
  [ {| f_name := "a"; f_fileset := true; f_rw := true; f_value := VOne "/c/j/a.txt" |};
    {| f_name := "z"; f_fileset := true; f_rw := false; f_value := VOne "/c/j/b.txt" |} ].
Definition fs_space : list field :=
  [ {| f_name := "a"; f_fileset := true; f_rw := false; f_value := VOne "/data/my study/a.txt" |} ].
Definition tmpl0 : list token := [[Lit "cmd"]; [Lit "-a"]; [Ref "a" 0]].

Lemma pinned_missing_mount c fs tmpl h :
  root_ok (c_root c) = true -> fields_ok fs = true -> NoDup (map f_name fs) ->
  required fs (c_cache_root c) h = true ->
  existsb (String.eqb (mount_str (c_root c) (h, needs_rw fs (c_cache_root c) h))) (container_argv_pinned c fs tmpl) = false ->
  ~ pinned_statement.
Proof.
  intros Hr Hok Hn R X H. apply (spec_mount_present _ _ _ _ h (H c fs tmpl Hr Hok Hn)) in R.
  apply not_true_iff_false in X. apply X, existsb_exists. eexists. split; [exact R|apply String.eqb_refl].
Qed.

Lemma nodup_fs_mode : NoDup (map f_name fs_mode).
Proof. apply NoDup_cons; [cbn; intros [X|[]]; discriminate|]. apply NoDup_cons; [intros []|apply NoDup_nil]. Qed.

(* root_ok and fields_ok hold of non-trivial roots and field lists, root_ok fails for "/"; and the vector of one docker task *)
Example full_nonvacuous :
  root_ok "/mnt/pydra/" = true /\ fields_ok (fs_mode ++ fs_space) = true /\ root_ok "/" = false /\
  container_argv cfg0 fs_mode tmpl0 =
  ["docker"; "run"; "-v"; "/c/j:/mnt/pydra/c/j:rw"; "-v"; "/c:/mnt/pydra/c:rw"; "-w"; "/mnt/pydra/c/j"; "img:latest";
   "cmd"; "-a"; "/mnt/pydra/c/j/a.txt"].
Proof. vm_compute. repeat split. Qed.
