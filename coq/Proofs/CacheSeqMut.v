(* Proofs/CacheSeqMut.v — C19: an in-place change of an input is detected by the post-run
   hash check, up to the two ways a hash can miss a change: the encoding with the shape hashed is
   prefix-free, hence injective, so there only a collision of H is left; a reported field really
   differs.  A file input staged in copy mode is another file than the original. *)
From Pydra Require Import Base.Prelude Model.CacheSeq Spec.CacheSeq Proofs.ListFacts.

Local Open Scope bool_scope.

Section PyvalInd.
  Variable P : pyval -> Prop.
  Hypothesis HI : forall n, P (VInt n).
  Hypothesis HS : forall s, P (VStr s).
  Hypothesis HL : forall xs, Forall P xs -> P (VList xs).
  Hypothesis HA : forall s d, P (VArr s d).
  Hypothesis HF : forall p c, P (VFile p c).
  Fixpoint pyval_nested_ind (v : pyval) : P v :=
    match v with
    | VInt n => HI n
    | VStr s => HS s
    | VList xs => HL xs ((fix go (l : list pyval) : Forall P l :=
                            match l with [] => Forall_nil P | x :: r => Forall_cons x (pyval_nested_ind x) (go r) end) xs)
    | VArr s d => HA s d
    | VFile p c => HF p c
    end.
End PyvalInd.

Lemma chars_prefix_free s : forall t (r r' : list nat),
  String.length s = String.length t ->
  map nat_of_ascii (list_ascii_of_string s) ++ r = map nat_of_ascii (list_ascii_of_string t) ++ r' ->
  s = t /\ r = r'.
Proof.
  induction s as [|a s IH]; intros [|b t] r r' HL E; cbn in *; try discriminate; [auto|].
  injection HL as HL. injection E as Ea E. apply nat_of_ascii_inj in Ea. subst b.
  destruct (IH t r r' HL E) as [-> ->]. auto.
Qed.

Definition prefix_free (v : pyval) : Prop :=
  forall v' r r', ser true v ++ r = ser true v' ++ r' -> v = v' /\ r = r'.

Lemma flat_ser_prefix_free xs : Forall prefix_free xs ->
  forall ys r r', List.length xs = List.length ys ->
    flat_map (ser true) xs ++ r = flat_map (ser true) ys ++ r' -> xs = ys /\ r = r'.
Proof.
  induction 1 as [|x xs Hx _ IH]; intros [|y ys] r r' HL E; cbn in *; try discriminate; [auto|].
  rewrite <- !app_assoc in E. destruct (Hx y _ _ E) as [-> E'].
  injection HL as HL. destruct (IH ys r r' HL E') as [-> ->]. auto.
Qed.

Theorem ser_prefix_free v : prefix_free v.
Proof.
  induction v as [n|s|xs IH|sh d|p c] using pyval_nested_ind; intros v' r r' E;
    destruct v' as [n'|s'|xs'|sh' d'|p' c']; cbn in E; try discriminate.
  - injection E as -> ->. auto.
  - injection E as HL E. destruct (chars_prefix_free _ _ _ _ HL E) as [-> ->]. auto.
  - injection E as HL E. destruct (flat_ser_prefix_free xs IH xs' r r' HL E) as [-> ->]. auto.
  - injection E as HL E. rewrite <- !app_assoc in E.
    destruct (app_eq_len _ _ _ _ E HL) as [-> E2]. cbn in E2. injection E2 as HL2 E2.
    destruct (app_eq_len _ _ _ _ E2 HL2) as [-> ->]. auto.
  - injection E as HL E. rewrite <- !app_assoc in E.
    destruct (chars_prefix_free _ _ _ _ HL E) as [-> E2]. injection E2 as -> ->. auto.
Qed.

Corollary ser_injective x y : ser true x = ser true y -> x = y.
Proof.
  intros E. destruct (ser_prefix_free x y [] []) as [-> _]; [now rewrite !app_nil_r|reflexivity].
Qed.

(* equality of values is decided by comparing their encodings *)
Lemma pyval_eq_or_neq : forall x y : pyval, x = y \/ x <> y.
Proof.
  intros x y. destruct (list_eq_dec Nat.eq_dec (ser true x) (ser true y)) as [E|N].
  - left. now apply ser_injective.
  - right. congruence.
Qed.

Section Detect.
  Variable sh : bool.
  Variable H : list nat -> nat.

  Lemma same_digest_classified x y : digest sh H x = digest sh H y -> x = y \/ missed (ser sh) H x y.
  Proof.
    unfold digest. intros Hd. destruct (pyval_eq_or_neq x y) as [->|Hne]; [now left|right].
    destruct (list_eq_dec Nat.eq_dec (ser sh x) (ser sh y)) as [E|E]; [now apply NotDiscriminated|now apply Collision].
  Qed.

  Lemma undetected_fields i i' :
    same_shape i i' -> hash_changes sh H (field_hashes sh H i) i' = [] ->
    Forall2 (fun f f' => snd f = snd f' \/ missed (ser sh) H (snd f) (snd f')) i i'.
  Proof.
    revert i'. induction i as [|[k x] i IH]; intros [|[k' y] i'] Hs Hc; cbn in *; try contradiction; [constructor|].
    destruct Hs as [-> Hs].
    destruct (Nat.eqb_spec (digest sh H x) (digest sh H y)) as [E|]; [|discriminate].
    constructor; [now apply same_digest_classified|now apply IH].
  Qed.

  Theorem undetected_classified i i' :
    same_shape i i' -> hash_changes sh H (field_hashes sh H i) i' = [] -> unchanged_or_missed (ser sh) H i i'.
  Proof.
    intros Hs Hc. pose proof (undetected_fields i i' Hs Hc) as F. clear Hs Hc.
    induction F as [|[k x] [k' y] l l' C _ IH]; cbn; auto.
  Qed.

  Theorem reported_fields_differ i : forall i' k,
    same_shape i i' -> In k (hash_changes sh H (field_hashes sh H i) i') ->
    exists x y, In (k, x) i /\ In (k, y) i' /\ x <> y.
  Proof.
    induction i as [|[k0 x] i IH]; intros [|[k' y] i'] k Hs Hin; cbn in *; try contradiction.
    destruct Hs as [-> Hs].
    destruct (Nat.eqb_spec (digest sh H x) (digest sh H y)) as [E|E]; [|destruct Hin as [<-|Hin]].
    2: { exists x, y. repeat split; auto. intros ->. now apply E. }
    all: destruct (IH i' k Hs Hin) as (a & b & H1 & H2 & H3); exists a, b; auto.
  Qed.

  Lemma unchanged_not_reported i : hash_changes sh H (field_hashes sh H i) i = [].
  Proof. induction i as [|[k x] i IH]; cbn; [reflexivity|]. now rewrite Nat.eqb_refl. Qed.

End Detect.

Definition detect_statement (sh : bool) : Prop :=
  forall H i i', same_shape i i' -> hash_changes sh H (field_hashes sh H i) i' = [] ->
    Forall2 (fun f f' => snd f = snd f' \/ (ser sh (snd f) <> ser sh (snd f') /\ H (ser sh (snd f)) = H (ser sh (snd f')))) i i'.

(* with the shape hashed the encoding discriminates every two values: only a collision of H
   itself can hide an in-place change *)
Theorem detect_or_unchanged : detect_statement true.
Proof.
  intros H i i' Hs Hc. pose proof (undetected_fields true H i i' Hs Hc) as F. clear Hs Hc.
  induction F as [|f f' l l' [E|[N E|N E]] _ IH]; constructor; auto.
  now destruct (N (ser_injective _ _ E)).
Qed.

Theorem detect_refuted_without_shape : ~ detect_statement false.
Proof.
  intros St.
  specialize (St (fun l => List.length l) [("x"%string, VArr [2; 3] [0; 0; 0; 0; 0; 0])] [("x"%string, VArr [3; 2] [0; 0; 0; 0; 0; 0])]).
  cbn in St. specialize (St (conj eq_refl I) eq_refl).
  inversion St as [|? ? ? ? [E|[E _]] _]; subst; [discriminate|now apply E].
Qed.

(* "an in-place modification is reported as an error", for every way of submitting: refuted
   on the current tree — without raise_errors the RuntimeError is logged and the stored
   (successful) result is returned (finding F19) *)
Definition reported_statement : Prop :=
  forall sh H re late shared i f,
    snd (fst (run_with_check sh H re late shared i f)) = true -> snd (run_with_check sh H re late shared i f) = true.

Theorem swallowed_without_raise_errors : ~ reported_statement.
Proof.
  intros St.
  specialize (St true (fun l => List.length l + hd 0 (rev l)) false false true [("x"%string, VList [VInt 1])] (fun _ => [("x"%string, VList [VInt 1; VInt 99])])).
  vm_compute in St. specialize (St eq_refl). discriminate.
Qed.

Lemma staged_path_differs jobdir orig : (jobdir ++ "/" ++ orig)%string <> orig.
Proof. intros E. apply (f_equal String.length) in E. rewrite !length_append in E. cbn in E. lia. Qed.

Lemma fs_set_same (f : fs) p c : fs_set f p c p = c.
Proof. unfold fs_set. now rewrite String.eqb_refl. Qed.

Lemma fs_set_other (f : fs) p c q : p <> q -> fs_set f p c q = f q.
Proof. intros N. unfold fs_set. now rewrite (proj2 (String.eqb_neq p q) N). Qed.

Example mutation_examples :
  let H := fun l : list nat => fold_left (fun a x => 2 * a + x) l 0 in
  let i := [("x"%string, VList [VInt 1; VInt 2]); ("a"%string, VArr [2; 3] [0; 0; 0; 0; 0; 0])] in
  (* list append: detected *)
  snd (fst (run_with_check true H true false true i (fun _ => [("x"%string, VList [VInt 1; VInt 2; VInt 99]); ("a"%string, VArr [2; 3] [0; 0; 0; 0; 0; 0])]))) = true /\
  (* reshape: detected when the shape is hashed, invisible otherwise *)
  snd (fst (run_with_check true H true false true i (fun _ => [("x"%string, VList [VInt 1; VInt 2]); ("a"%string, VArr [3; 2] [0; 0; 0; 0; 0; 0])]))) = true /\
  snd (fst (run_with_check false H true false true i (fun _ => [("x"%string, VList [VInt 1; VInt 2]); ("a"%string, VArr [3; 2] [0; 0; 0; 0; 0; 0])]))) = false /\
  (* nothing touched: nothing reported *)
  snd (fst (run_with_check true H true false true i (fun x => x))) = false.
Proof.
  intros H i. repeat apply conj; [vm_compute; reflexivity ..|].
  unfold run_with_check. cbn [fst snd]. now rewrite unchanged_not_reported.
Qed.
