(* Proofs/SchedH.v — states in which the loop condition is false, hence runs of either loop that end by
   themselves (status Finished): which jobs ran, which errors are reported (C14), every job once (C15), the
   values of the jobs that are not downstream of a failure (C17); and what the invariant gives about the
   reported errors at any point of a run. *)
From Pydra Require Import Base.Prelude Base.SchedBase Model.Sched Spec.Sched Proofs.SchedA Proofs.SchedSpec Proofs.SchedC Proofs.SchedE Proofs.SchedF Proofs.ListFacts.
Local Open Scope nat_scope.

Section Final.
Variable V : Type.
Variable body : nat -> nat -> list (list (option V)) -> V.
Variable fails : job -> bool.
Variable vr : variant.
Hypothesis F14 : fix14 vr = true.
Variable g : graph.
Hypothesis WF : wf_graph g.
Variable kmax : option nat.

Notation lstate := (lstate V).
Notation run := (run_async V body fails vr g kmax).
Notation LInv := (LInv V body fails vr g kmax).

Lemma run_loop_finished fuel orc (ls : lstate) :
  o_status (run_loop body fails vr g kmax fuel orc ls) = Finished ->
  loop_cond vr g (o_final (run_loop body fails vr g kmax fuel orc ls)) = false.
Proof.
  apply (run_loop_ind V body fails vr g kmax (fun _ => True) (fun st ls' => st = Finished -> loop_cond vr g ls' = false));
    [|discriminate|exact Logic.I].
  intros o ls0 _. destruct (async_step_case V body fails vr g kmax o ls0); try exact Logic.I; auto; discriminate.
Qed.

Lemma LInv_launched (ls : lstate) j : LInv ls -> In j (launches_of (rev (ls_trace ls))) -> should_run g fails j.
Proof.
  intros I H. pose proof (li_t I) as T. rewrite (ti_fut T) in H.
  apply (should_run_iff g fails WF), should_run_b_true, (ti_fut_ok T j H).
Qed.

Lemma LInv_errors (ls : lstate) j :
  LInv ls -> In j (ls_errors ls) -> should_fail g fails j /\ In j (launches_of (rev (ls_trace ls))).
Proof.
  intros I H. pose proof (li_t I) as T. apply (ti_err_fut T) in H.
  destruct (ti_fin_fails T j false H) as [A B]. rewrite <- (ti_fut T) in A.
  split; [split; [exact (LInv_launched ls j I A)|exact B]|exact A].
Qed.

Section AtEnd.
Variable ls : lstate.
Hypothesis I : LInv ls.
Hypothesis C : loop_cond vr g ls = false.

Let w := ls_w ls.
Let T := li_t I.

Lemma end_pending : ls_pending ls = [].
Proof. apply (loop_cond_false V vr g ls), C. Qed.

Lemma end_node nd :
  In nd g ->
  let s' := fst (update_ns vr w (nid nd) (nst (ls_ss ls) (nid nd))) in
  NInv V fails g w (nid nd) s' /\ done_ns s' = true.
Proof.
  intros Hnd s'. split.
  - apply (refresh_spec V fails vr F14 g w (ls_ss ls) (nid nd)), I.
  - apply (any_not_done_false V vr g w (ls_ss ls)); [apply (loop_cond_false V vr g ls), C|exact Hnd].
Qed.

Lemma end_job j :
  In j (all_jobs g) -> tainted_b g fails (fst j) = false ->
  if fails j then is_err w j = true else is_ok w j = true.
Proof.
  destruct j as [n i]. intros Hj Ht. destruct (all_jobs_node g n i Hj) as [nd [Hnd [<- Hi]]]. cbn [fst] in Ht.
  destruct (end_node nd Hnd) as [N D].
  set (s' := fst (update_ns vr w (nid nd) (nst (ls_ss ls) (nid nd)))) in *.
  assert (U : unrunnable s' = false).
  { destruct (unrunnable s') eqn:E; [|reflexivity]. rewrite (ni_taint_unr N E) in Ht. discriminate. }
  destruct (done_members V fails g w (nid nd) s' N D U) as [_ M].
  destruct (li_w I (nid nd, i)) as [W1 W2].
  destruct (M i) as [X|X]; [rewrite (njobs_of_nd g WF nd Hnd); exact Hi| |].
  - apply (ni_succ N) in X. rewrite (W1 X). exact X.
  - apply (ni_err N) in X. rewrite (W2 X). exact X.
Qed.

Lemma end_launched j :
  In j (launches_of (rev (ls_trace ls))) <-> should_run_b g fails j = true.
Proof.
  rewrite (ti_fut T), should_run_b_true. split.
  - intros H. apply (ti_fut_ok T j H).
  - intros [A B]. apply (ti_res_fut T), has_result_not_none.
    pose proof (end_job j A B) as X. destruct (fails j); auto.
Qed.

Lemma end_errors j : In j (ls_errors ls) <-> should_fail_b g fails j = true.
Proof.
  unfold should_fail_b. rewrite andb_true_iff. split.
  - intros H. destruct (LInv_errors ls j I H) as [[A B] _]. split; [apply (should_run_iff g fails WF), A|exact B].
  - intros [A B]. apply should_run_b_true in A. destruct A as [A1 A2].
    pose proof (end_job j A1 A2) as X. rewrite B in X. apply (ti_err_res T), X.
Qed.

Lemma end_values_untainted nd :
  In nd g -> tainted_b g fails (nid nd) = false ->
  forall i, i < njobs nd -> fails (nid nd, i) = false ->
  value_of w (nid nd, i) = env_lookup V (nid nd, i) (reference V body g).
Proof.
  intros Hnd. rewrite <- (njobs_of_nd g WF nd Hnd). revert nd Hnd.
  apply (topo_ind g (fun n => tainted_b g fails n = false -> forall i, i < njobs_of g n ->
            fails (n, i) = false -> value_of w (n, i) = env_lookup V (n, i) (reference V body g)) WF).
  intros nd0 Hnd IH Ht i Hi Hf. rewrite (njobs_of_nd g WF nd0 Hnd) in Hi.
  pose proof (end_job (nid nd0, i) (in_all_jobs g nd0 i Hnd Hi) Ht) as Ok. rewrite Hf in Ok.
  rewrite (reference_char V body g WF nd0 i Hnd Hi).
  unfold is_ok, probe_job in Ok. unfold value_of.
  destruct (lookup (nid nd0, i) (results w)) as [[v|]|] eqn:L; try discriminate.
  destruct (li_v I (nid nd0) i v L) as [nd' [Fn [_ Ev]]].
  rewrite (topo_b_find [] g nd0 WF Hnd) in Fn. inversion Fn; subst nd'.
  f_equal. rewrite Ev. f_equal.
  rewrite (tainted_char g fails WF nd0 Hnd) in Ht.
  unfold inputs_from, ref_inputs. apply map_ext_in. intros p Hp. apply map_ext_in. intros k Hk.
  apply in_seq in Hk. pose proof (existsb_false_at Ht Hp) as Hpk.
  apply orb_false_iff in Hpk. destruct Hpk as [Tp Fp].
  apply (IH p Hp Tp k); [lia|]. apply (existsb_false_at Fp), in_seq. lia.
Qed.

Hypothesis NF : forall j, fails j = false.

Lemma end_every_job_once : every_job_once g (rev (ls_trace ls)).
Proof.
  split; [rewrite (ti_fut T); apply (ti_nodup T)|split].
  - intros j. rewrite end_launched, should_run_b_true. pose proof (no_fail_no_taint g fails WF (fst j) NF). tauto.
  - intros j Hj. pose proof (end_job j Hj (no_fail_no_taint g fails WF _ NF)) as X. rewrite NF in X.
    apply -> in_rev. apply (ti_ok_trace T), X.
Qed.

Lemma end_outputs :
  map (fun nd => map (fun i => value_of w (nid nd, i)) (seq 0 (njobs nd))) g = reference_outputs V body g.
Proof.
  apply map_ext_in. intros nd Hnd. apply map_ext_in. intros i Hi. apply in_seq in Hi.
  apply (end_values_untainted nd Hnd (no_fail_no_taint g fails WF _ NF) i); [lia|apply NF].
Qed.

End AtEnd.

Theorem async_c14 orc fuel :
  o_status (run orc fuel) = Finished ->
  c14_outcome g fails (launches (run orc fuel)) (error_names (run orc fuel)).
Proof.
  intros St. pose proof (run_async_inv V body fails vr F14 g WF kmax orc fuel) as I.
  pose proof (run_loop_finished _ _ _ St) as C. fold (run orc fuel) in C.
  split; intros j.
  - rewrite <- (should_run_iff g fails WF). apply (end_launched _ I C).
  - rewrite <- (should_fail_iff g fails WF). apply (end_errors _ I C).
Qed.

Theorem async_launched_should_run orc fuel j :
  In j (launches (run orc fuel)) -> should_run g fails j.
Proof. apply LInv_launched, run_async_inv; assumption. Qed.

Theorem async_errors_should_fail orc fuel j :
  In j (error_names (run orc fuel)) -> should_fail g fails j /\ In j (launches (run orc fuel)).
Proof. apply LInv_errors, run_async_inv; assumption. Qed.

Theorem async_all_run orc fuel :
  (forall j, fails j = false) -> o_status (run orc fuel) = Finished ->
  every_job_once g (event_log (run orc fuel)).
Proof.
  intros NF St. exact (end_every_job_once _ (run_async_inv V body fails vr F14 g WF kmax orc fuel) (run_loop_finished _ _ _ St) NF).
Qed.

Theorem async_outputs orc fuel :
  (forall j, fails j = false) -> o_status (run orc fuel) = Finished ->
  node_outputs g (run orc fuel) = reference_outputs V body g.
Proof.
  intros NF St. exact (end_outputs _ (run_async_inv V body fails vr F14 g WF kmax orc fuel) (run_loop_finished _ _ _ St) NF).
Qed.

Theorem async_values_untainted orc fuel :
  o_status (run orc fuel) = Finished ->
  forall nd, In nd g -> tainted_b g fails (nid nd) = false ->
  forall i, i < njobs nd -> fails (nid nd, i) = false ->
  value_of (ls_w (o_final (run orc fuel))) (nid nd, i) = env_lookup V (nid nd, i) (reference V body g).
Proof.
  intros St. exact (end_values_untainted _ (run_async_inv V body fails vr F14 g WF kmax orc fuel) (run_loop_finished _ _ _ St)).
Qed.

End Final.
