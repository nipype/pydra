(* Proofs/GraphWf2.v — well-formed remove_nodes_connections / remove_previous_connections calls
   succeed (C37), on states that satisfy wf_state (GraphWf.v) and two more facts about the dictionaries. *)
From Pydra Require Import Base.Prelude Model.Graph Spec.Graph
  Proofs.GraphBase Proofs.GraphInv Proofs.GraphEdges Proofs.GraphTopo Proofs.GraphLive Proofs.GraphWf.
From Coq Require Import Sorting.Permutation.
Local Open Scope nat_scope.
Local Open Scope list_scope.

Definition wf2 (g : graph) : Prop :=
  wf_state g /\ NoDup (dkeys (g_succs g)) /\ (forall x, In x (g_wip g) -> In x (dkeys (g_preds g))).

Lemma nodup_remove_app (w w' ns : list node) nd :
  remove_one Nat.eqb nd w = Some w' -> NoDup (w ++ ns) ->
  NoDup (w' ++ ns) /\ ~ In nd (w' ++ ns) /\ (forall x, In x (w' ++ ns) -> In x (w ++ ns)).
Proof.
  intros Hr Hnd. pose proof (remove_one_perm Nat.eqb_eq _ _ _ Hr) as P.
  assert (P2 : Permutation (w ++ ns) (nd :: w' ++ ns)) by (apply (Permutation_app_tail ns) in P; exact P).
  assert (N2 : NoDup (nd :: w' ++ ns)) by (eapply Permutation_NoDup; eauto).
  inversion N2; subst. split; [assumption|]. split; [assumption|].
  intros x Hx. eapply Permutation_in; [symmetry; exact P2|now right].
Qed.

(* a table of multiplicities indexed by two nodes, after everything in row nd and column nd is cleared *)
Definition pruned (nd : node) (c c' : node -> node -> nat) : Prop :=
  forall a b, c' a b = if Nat.eqb a nd || Nat.eqb b nd then 0 else c a b.

Lemma pruned_flip nd c c' : pruned nd c c' -> pruned nd (fun a b => c b a) (fun a b => c' b a).
Proof. intros P a b. rewrite P, orb_comm. reflexivity. Qed.

Lemma pruned_ext nd c1 c1' c2 c2' :
  pruned nd c1 c1' -> pruned nd c2 c2' -> (forall a b, c1 a b = c2 a b) -> forall a b, c1' a b = c2' a b.
Proof. intros P1 P2 E a b. rewrite P1, P2, E. reflexivity. Qed.

Lemma pruned_pos nd c c' a b : pruned nd c c' -> c' a b > 0 -> c a b > 0 /\ a <> nd /\ b <> nd.
Proof.
  intros P H. rewrite P in H. destruct (Nat.eqb_spec a nd), (Nat.eqb_spec b nd); cbn [orb] in H; lia.
Qed.

(* clearing row nd of a table whose column nd is empty *)
Lemma pruned_row nd c c' :
  (forall x, c x nd = 0) -> (forall x k, c' x k = if Nat.eqb x nd then 0 else c x k) -> pruned nd c c'.
Proof.
  intros Z R x k. rewrite R. destruct (Nat.eqb x nd); [reflexivity|].
  destruct (Nat.eqb_spec k nd) as [->|]; [apply Z|reflexivity].
Qed.

(* every key of d other than k is a key of d' *)
Definition kept (k : node) (d d' : dict) : Prop := forall x, x <> k -> In x (dkeys d) -> In x (dkeys d').

(* Popping a node marked for removal whose remaining connections all go one way.
   D is the dictionary the inner loop works on (predecessors for remove_nodes_connections, successors
   for remove_previous_connections), O the other one, whose entry for nd the loop runs through;
   [mk x k] is the edge recorded by "x is listed in D[k]" and by "k is listed in O[x]". *)
Section Pop.
  Variables (nd : node) (mk : node -> node -> edge) (f : dict * list edge -> node -> result (dict * list edge)).
  Hypothesis mk_inj : forall x k x' k', mk x k = mk x' k' -> x = x' /\ k = k'.
  Hypothesis f_step : forall d es k d', dremove d k nd = Ok d' ->
    f (d, es) k = (es' <- of_opt ERemove (remove_one edge_eqb (mk nd k) es) ;; Ok (d', es')).

  (* the loop is the dictionary loop of release_one and the removal of a list of edges, side by side:
     one nd leaves D[k] and one [mk nd k] leaves the edges for every occurrence of k in l *)
  Lemma disconnect_ok l D es :
    (forall k, tab D nd k = occ k l) -> (forall k, ecnt (mk nd k) es = occ k l) ->
    exists D' es', foldM f l (D, es) = Ok (D', es') /\ dkeys D' = dkeys D /\
      (forall y k, tab D' y k = if Nat.eqb y nd then 0 else tab D y k) /\
      (forall x k, ecnt (mk x k) es' = if Nat.eqb x nd then 0 else ecnt (mk x k) es).
  Proof.
    intros HD He.
    pose proof (release_list_tab nd l D) as R. destruct (foldM _ l D) as [D'|er] eqn:FD;
      [|exfalso; destruct R as [k Hk]; specialize (HD k); lia].
    destruct R as [K E].
    pose proof (remove_each_spec edge_eqb_eq edge_dec (mk nd) l es) as P.
    destruct (foldM _ l es) as [es'|er] eqn:Fe.
    2:{ exfalso. apply P. intros e. destruct (in_dec edge_dec e (map (mk nd) l)) as [Hi|Hn].
        - apply in_map_iff in Hi. destruct Hi as [k [<- _]]. change (ecnt (mk nd k) (map (mk nd) l) <= ecnt (mk nd k) es).
          rewrite (ecnt_map_mk mk mk_inj), Nat.eqb_refl, He. apply Nat.le_refl.
        - rewrite (proj1 (count_occ_not_In edge_dec _ _) Hn). apply Nat.le_0_l. }
    exists D', es'. split.
    { eapply foldM_pair; [|exact FD|exact Fe]. intros s t x s' H. apply f_step, H. }
    split; [exact K|]. split.
    - intros y k. specialize (E y k). destruct (Nat.eqb_spec y nd), (Nat.eq_dec nd y); try congruence; [subst y; specialize (HD k)|]; lia.
    - intros x k. pose proof (ecnt_perm_app _ _ _ (mk x k) P) as Ce. rewrite (ecnt_map_mk mk mk_inj) in Ce.
      destruct (Nat.eqb_spec x nd) as [->|Hx]; [rewrite He in Ce|]; lia.
  Qed.

  Variables (D O : dict) (es : list edge).
  Hypothesis LD : forall x k, tab D x k = ecnt (mk x k) es.
  Hypothesis LO : forall x k, tab O k x = ecnt (mk x k) es.
  Hypothesis (ND : NoDup (dkeys D)) (NO : NoDup (dkeys O)) (KD : In nd (dkeys D)) (KO : In nd (dkeys O)).
  Hypothesis Ready : lk D nd = [].

  Lemma pop_ok :
    exists sl D1 es' D' O',
      dget O nd = Some sl /\ foldM f sl (D, es) = Ok (D1, es') /\ dpop D1 nd = Some D' /\ dpop O nd = Some O' /\
      pruned nd (fun x k => ecnt (mk x k) es) (fun x k => ecnt (mk x k) es') /\
      pruned nd (tab D) (tab D') /\ pruned nd (fun x k => tab O k x) (fun x k => tab O' k x) /\
      kept nd D D' /\ kept nd O O' /\ NoDup (dkeys D') /\ NoDup (dkeys O').
  Proof.
    destruct (disconnect_ok (lk O nd) D es) as [D1 [es' [F [K [TD1 TE]]]]].
    { intros k. rewrite LD, <- LO. reflexivity. }
    { intros k. rewrite <- LO. reflexivity. }
    destruct (dpop_some D1 nd) as [D' HD]; [rewrite K; exact KD|].
    destruct (dpop_some O nd KO) as [O' HO].
    destruct (dpop_tab D1 nd D' HD) as [ND' [TD ID]]; [rewrite K; exact ND|].
    destruct (dpop_tab _ _ _ HO NO) as [NO' [TO IO]].
    assert (In0 : forall x, ecnt (mk x nd) es = 0) by (intros x; rewrite <- LD, <- cnt_lk_tab, Ready; reflexivity).
    destruct (proj2 (dget_In_keys _ _) KO) as [sl Hsl]. unfold lk in F. rewrite Hsl in F.
    exists sl, D1, es', D', O'. split; [exact Hsl|]. split; [exact F|]. split; [exact HD|]. split; [exact HO|].
    split; [|split; [|split; [|split; [|split; [|auto]]]]].
    - apply pruned_row; [exact In0|exact TE].
    - intros x k. rewrite TD, TD1. destruct (Nat.eqb x nd), (Nat.eqb k nd); reflexivity.
    - apply pruned_row; [intros x; rewrite LO; apply In0|intros x k; apply TO].
    - intros x Hx Hk. apply ID. rewrite K. auto.
    - intros x Hx Hk. apply IO. auto.
  Qed.
End Pop.

Definition without (nd : node) (g g' : graph) : Prop :=
  g_nodes g' = g_nodes g /\ remove_one Nat.eqb nd (g_wip g) = Some (g_wip g') /\
  pruned nd (fun a b => ecnt (a, b) (g_edges g)) (fun a b => ecnt (a, b) (g_edges g')) /\
  pruned nd (tab (g_preds g)) (tab (g_preds g')) /\
  pruned nd (fun a b => tab (g_succs g) b a) (fun a b => tab (g_succs g') b a) /\
  kept nd (g_preds g) (g_preds g') /\ kept nd (g_succs g) (g_succs g') /\ NoDup (dkeys (g_succs g')).

Lemma without_wf2 nd g g' : wf2 g -> inv g' -> without nd g g' -> wf2 g'.
Proof.
  intros [[_ [Hc Hac]] [_ WP]] Hinv' [En [Ew [PE [PP [PS [KP' [KS' NS']]]]]]].
  pose proof (consistent_tab g Hc) as L. destruct Hc as [ND [KS [KP [_ [_ [KE CL]]]]]].
  destruct (nodup_remove_app _ _ (g_nodes g) _ Ew ND) as [ND' [Nnd Sub]].
  assert (LP : forall a b, tab (g_preds g') a b = ecnt (a, b) (g_edges g'))
    by (apply (pruned_ext nd _ _ _ _ PP PE); intros a b; apply L).
  assert (LS : forall a b, tab (g_succs g') b a = ecnt (a, b) (g_edges g'))
    by (apply (pruned_ext nd _ _ _ _ PS PE); intros a b; apply L).
  assert (EI : forall a b, In (a, b) (g_edges g') -> In (a, b) (g_edges g) /\ a <> nd /\ b <> nd).
  { intros a b H. apply ecnt_pos_In in H. destruct (pruned_pos nd _ _ a b PE H) as [H1 H2].
    split; [apply ecnt_pos_In, H1|exact H2]. }
  assert (Nx : forall x, In x (g_wip g' ++ g_nodes g) -> x <> nd) by (intros x Hx ->; contradiction).
  split; [split; [exact Hinv'|split]|split; [exact NS'|]].
  - unfold consistent. rewrite En. repeat apply conj.
    + exact ND'.
    + intros x Hx. apply KS'; [apply Nx, Hx|apply KS, Sub, Hx].
    + intros x Hx. apply KP'; [apply Nx, in_or_app; auto|apply KP, Hx].
    + apply counts_ok_tab. intros b _ a. apply LP.
    + apply scounts_ok_tab, LS.
    + intros a b Hab. destruct (EI a b Hab) as [Hi [Na Nb]].
      split; [apply KS'; [exact Na|]|apply KP'; [exact Nb|]]; apply (KE a b Hi).
    + intros a b Hab Hb. destruct (EI a b Hab) as [Hi [Na _]]. pose proof (CL a b Hi Hb) as X.
      apply in_app_or in X. apply in_or_app. destruct X as [X|X]; [left|right; exact X].
      eapply (remove_one_other Nat.eqb_eq); eauto.
  - rewrite En. eapply acyclic_sub; [exact Sub| |exact Hac]. intros [a b] H. apply (EI a b H).
  - intros x Hx. apply KP'; [apply Nx, in_or_app; auto|apply WP].
    eapply (remove_one_incl Nat.eqb_eq); eauto.
Qed.

Lemma without_lk_nil (fwd : bool) nd g g' : without nd g g' ->
  forall n, lk (if fwd then g_preds g else g_succs g) n = [] -> lk (if fwd then g_preds g' else g_succs g') n = [].
Proof.
  assert (Z : forall c c' a b, pruned nd c c' -> c a b = 0 -> c' a b = 0)
    by (intros c c' a b P H; rewrite P, H; destruct (_ || _); reflexivity).
  intros [_ [_ [_ [PP [PS _]]]]] n Hn. apply (count_occ_inv_nil Nat.eq_dec). intros y. destruct fwd.
  - apply (Z _ _ y n PP). rewrite <- cnt_lk_tab, Hn. reflexivity.
  - apply (Z _ _ n y PS). rewrite <- cnt_lk_tab, Hn. reflexivity.
Qed.

(* the two uses of Section Pop: [fwd = true] is remove_nodes_connections (D the predecessors),
   [fwd = false] remove_previous_connections (D the successors, the edges turned round) *)
Lemma marked_one_succeeds (fwd : bool) g nd :
  wf2 g -> In nd (g_wip g) -> lk (if fwd then g_preds g else g_succs g) nd = [] ->
  exists g', (if fwd then remove_connections_one else remove_previous_one) g nd = Ok g' /\ without nd g g'.
Proof.
  intros [[Hinv [Hc _]] [NS WP]] Hw Hp0.
  pose proof (consistent_tab g Hc) as L. destruct Hc as [_ [KS _]]. destruct Hinv as [_ [NP _]].
  assert (KSnd : In nd (dkeys (g_succs g))) by (apply KS, in_or_app; auto).
  destruct (pop_ok nd (fun x k => if fwd then (x, k) else (k, x)) (if fwd then disconnect_succ nd else disconnect_pred nd))
    with (D := if fwd then g_preds g else g_succs g) (O := if fwd then g_succs g else g_preds g) (es := g_edges g)
    as [sl [D1 [es' [D' [O' [Hsl [F [HD [HO [PE [PD [PO [KD' [KO' [ND' NO']]]]]]]]]]]]]]].
  { intros x k x' k' E. destruct fwd; inversion E; auto. }
  { intros d es k d' H. destruct fwd; [unfold disconnect_succ|unfold disconnect_pred]; cbn [fst snd].
    - rewrite H. reflexivity.
    - assert (M : memb k (dkeys d) = true).
      { apply memb_In, dget_In_keys. apply dremove_inv in H. destruct H as [v [_ [Hv _]]]. eauto. }
      rewrite M, H. reflexivity. }
  { intros x k. destruct fwd; apply L. }
  { intros x k. destruct fwd; apply L. }
  (* ND, NO, KD, KO, Ready *)
  1-5: destruct fwd; auto.
  destruct (remove_one_some Nat.eqb_eq nd (g_wip g) Hw) as [wip' Hrw].
  exists (mkG (g_nodes g) es' (if fwd then D' else O') (if fwd then O' else D') (g_sorted g) wip'). split.
  - destruct fwd; [unfold remove_connections_one|unfold remove_previous_one]; rewrite Hsl; cbn [of_opt bind]; rewrite F;
      cbn [bind fst snd]; unfold pop_node; rewrite HD, HO, Hrw; reflexivity.
  - split; [reflexivity|]. split; [exact Hrw|]. cbn [g_edges g_preds g_succs]. destruct fwd.
    + split; [exact PE|]. split; [exact PD|]. split; [exact PO|auto].
    + split; [exact (pruned_flip _ _ _ PE)|]. split; [exact (pruned_flip _ _ _ PO)|]. split; [exact (pruned_flip _ _ _ PD)|auto].
Qed.

Lemma marked_loop_succeeds (fwd : bool) : forall l g,
  wf2 g -> pre_removal (g_wip g) (if fwd then g_preds g else g_succs g) true l ->
  exists g', foldM (if fwd then remove_connections_one else remove_previous_one) l g = Ok g' /\ wf2 g'.
Proof.
  induction l as [|nd l IH]; intros g W [Hnd [Hw Hp]]; cbn [foldM]; [eauto|].
  inversion Hnd as [|? ? Hx Hnd']; subst.
  destruct (marked_one_succeeds fwd g nd W (Hw nd (or_introl eq_refl)) (Hp eq_refl nd (or_introl eq_refl))) as [g1 [R Wo]].
  assert (W1 : wf2 g1) by (eapply without_wf2; [exact W|eapply (pop_inv fwd); [apply W|exact R]|exact Wo]).
  pose proof Wo as [_ [Ew _]].
  rewrite R. cbn [bind]. apply (IH g1 W1). split; [exact Hnd'|]. split.
  - intros x Hx'. eapply (remove_one_other Nat.eqb_eq); [exact Ew| |apply Hw; now right]. intros ->. contradiction.
  - intros _ x Hx'. apply (without_lk_nil fwd nd g g1 Wo), Hp; [reflexivity|now right].
Qed.

Lemma init_wf2 ns es g : init ns es = Ok g -> acyclic ns es -> wf2 g.
Proof.
  intros H A. split; [eapply init_wf; eauto|]. destruct (init_frame _ _ _ H) as [Hd [_ [ps [Hc ->]]]].
  cbn [g_succs g_wip]. split; [|intros x []]. rewrite (proj2 (connect_all_dkeys _ _ _ _ Hc)), dkeys_empty. exact Hd.
Qed.

Lemma remove_nodes_wf2 g l c :
  wf2 g -> pre_removal (g_nodes g) (g_preds g) c l -> exists g', remove_nodes g l c = Ok g' /\ wf2 g'.
Proof.
  intros [W [NS WP]] P. destruct (remove_nodes_succeeds g l c W P) as [g' [H W']].
  exists g'. split; [exact H|]. split; [exact W'|].
  destruct (remove_nodes_frame _ _ _ _ H) as [g1 [o [Hm ->]]].
  destruct (mark_removed_all _ _ _ _ Hm) as [ns1 [_ ->]].
  cbn. split; [exact NS|].
  intros x Hx. apply in_app_or in Hx. destruct Hx as [Hx|Hx]; [apply WP, Hx|].
  destruct W as [_ [[_ [_ [KP _]]] _]]. apply KP. destruct P as [_ [Hin _]]. apply Hin, Hx.
Qed.

Definition removal_op (o : op) : bool :=
  match o with RemoveNodes _ _ | RemoveNodesConnections _ | RemovePreviousConnections _ => true | _ => false end.

Theorem wellformed_removal_step g o :
  wf2 g -> removal_op o = true -> pre_opb g o = true ->
  exists g', step g o = Ok g' /\ wf2 g' /\ inv2 g' /\ sorted_ok g' /\ sorted_ok_preds g'.
Proof.
  intros W K P.
  assert (S : exists g', step g o = Ok g' /\ wf2 g').
  { destruct o; try discriminate; cbn [step].
    - exact (remove_nodes_wf2 g l check_ready W (pre_removal_of_spec _ _ _ _ P)).
    - exact (marked_loop_succeeds true l g W (pre_removal_of_spec _ _ true _ P)).
    - exact (marked_loop_succeeds false l g W (pre_removal_of_spec _ _ true _ P)). }
  destruct S as [g' [H W']]. exists g'. split; [exact H|]. split; [exact W'|].
  pose proof (wf_state_inv2 g' (proj1 W')) as I'.
  split; [exact I'|]. split; [apply sorted_valid_edges, I'|apply sorted_valid_preds, I'].
Qed.

Fixpoint history_ok (g : graph) (ops : list op) : bool :=
  match ops with
  | [] => true
  | o :: r => removal_op o && pre_opb g o && match step g o with Ok g' => history_ok g' r | Err _ => true end
  end.

(* a checked list of remove_nodes calls ([chk]: Props/C37.v, removals_ok) is a checked history *)
Lemma remove_nodes_history_ok (chk : graph -> list (list node * bool) -> bool) :
  (forall g l c r, chk g ((l, c) :: r) =
     pre_opb g (RemoveNodes l c) && match step g (RemoveNodes l c) with Ok g' => chk g' r | Err _ => true end) ->
  forall calls g, chk g calls = true -> history_ok g (map (fun lc => RemoveNodes (fst lc) (snd lc)) calls) = true.
Proof.
  intros Hchk. induction calls as [|[l c] r IH]; intros g H; [reflexivity|].
  rewrite Hchk in H. apply andb_true_iff in H. destruct H as [P H].
  cbn [map history_ok removal_op fst snd andb]. rewrite P. cbn [andb].
  destruct (step g (RemoveNodes l c)); [apply IH, H|reflexivity].
Qed.

Lemma removal_history_wf ops : forall g0,
  wf2 g0 -> history_ok g0 ops = true -> exists g, run g0 ops = Ok g /\ wf2 g.
Proof.
  induction ops as [|o r IH]; intros g0 W H; [exists g0; auto|].
  cbn [history_ok] in H. apply andb_true_iff in H. destruct H as [H H3]. apply andb_true_iff in H. destruct H as [K P].
  destruct (wellformed_removal_step g0 o W K P) as [g1 [S1 [W1 _]]]. rewrite S1 in H3.
  destruct (IH g1 W1 H3) as [g [R Q]]. exists g. split; [|exact Q].
  unfold run in *. cbn [foldM]. rewrite S1. exact R.
Qed.

Theorem wellformed_removal_history ns es g0 ops :
  init ns es = Ok g0 -> acyclic ns es -> history_ok g0 ops = true ->
  exists g, run g0 ops = Ok g /\ sorted_ok g /\ sorted_ok_preds g.
Proof.
  intros Hi Ha H.
  destruct (removal_history_wf ops g0 (init_wf2 _ _ _ Hi Ha) H) as [g [R W]].
  exists g. split; [exact R|]. pose proof (wf_state_inv2 g (proj1 W)) as I2.
  split; [apply sorted_valid_edges, I2|apply sorted_valid_preds, I2].
Qed.
