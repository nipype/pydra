(* Proofs/Rules.v — C31: the rule checker (Section Code) and the executable formula (Section Exec) are each equivalent to
   Spec_roles T R X for any notions their three tests decide where the roles occur (decides); exclusive groups go through
   one_of_spec, the OR of ANDs through some_alternative; two tasks over a str field left empty show that no single notion
   of "set" fits the code; and a submission runs the task only if the checker accepts it (Section BeforeExecution). *)
From Pydra Require Import Base.Prelude Model.Rules Spec.Rules Proofs.ListFacts.
Local Open Scope string_scope.

(* an exclusive group: [l] lists, without repetition, the members that are set; [none_ok] tells whether the
   group may be left without one *)
Lemma one_of_spec (M : string -> Prop) (l : list string) (none_ok : bool) (NoneIn : Prop) :
  NoDup l -> (forall n, M n <-> In n l) -> (none_ok = true <-> NoneIn) ->
  (Nat.leb (List.length l) 1 && (none_ok || Nat.leb 1 (List.length l)) = true <->
   (forall n m, M n -> M m -> n = m) /\ (~ NoneIn -> exists n, M n)).
Proof.
  intros ND HM HN. split.
  - intros H. apply andb_prop in H as [U G]. apply Nat.leb_le in U. split.
    + intros n m Hn Hm. apply (proj1 (length_le1 l ND) U); apply HM; assumption.
    + intros NN. apply orb_prop in G as [G|G]; [now apply HN in G|].
      apply Nat.leb_le in G. apply length_ge1 in G as [a Ha]. exists a. now apply HM.
  - intros [U G]. apply andb_true_intro. split.
    + apply Nat.leb_le, (length_le1 l ND). intros a b Ha Hb. apply U; apply HM; assumption.
    + destruct none_ok; [reflexivity|]. apply Nat.leb_le, length_ge1.
      destruct G as [n Hn]; [intros NI; apply HN in NI; discriminate|]. exists n. now apply HM.
Qed.

Lemma some_alternative {R} (mb : R -> bool) (M : R -> Prop) (rss : list (list R)) :
  (forall rs r, In rs rss -> In r rs -> (mb r = true <-> M r)) ->
  (existsb (forallb mb) rss = true <-> exists rs, In rs rss /\ forall r, In r rs -> M r).
Proof.
  intros H. rewrite existsb_exists.
  split; intros [rs [Hrs S]]; exists rs; (split; [exact Hrs|]); now apply (forallb_iff mb M rs (fun r => H rs r Hrs)).
Qed.

Record Wf (d : taskdef) : Prop := {
  wf_names : NoDup (map fname (fields d));
  wf_nonempty : forall f, In f (fields d) -> fname f <> "";
  wf_reqs : forall f rs r, In f (fields d) -> In rs (frequires f) -> In r rs ->
            exists g, In g (fields d) /\ fname g = rname r;
  wf_xor_nodup : forall x, In x (xors d) -> NoDup x;
  wf_xor_fields : forall x n, In x (xors d) -> In (Some n) x -> exists g, In g (fields d) /\ fname g = n
}.

Lemma nodupb_NoDup l : nodupb l = true <-> NoDup l.
Proof. exact (nodupb_of_NoDup String.eqb String.eqb_eq l). Qed.

Lemma oeqb_spec (a b : option string) : option_eqb String.eqb a b = true <-> a = b.
Proof. exact (option_eqb_spec String.eqb String.eqb_eq a b). Qed.

Lemma nodupb_o_NoDup l : nodupb_o l = true <-> NoDup l.
Proof. exact (nodupb_of_NoDup _ oeqb_spec l). Qed.

Lemma is_field_spec d n : is_field d n = true <-> exists g, In g (fields d) /\ fname g = n.
Proof.
  unfold is_field. rewrite existsb_exists.
  split; intros [g [Hg E]]; exists g; (split; [exact Hg|]); now apply String.eqb_eq.
Qed.

Lemma wf_def_Wf d : wf_def d = true -> Wf d.
Proof.
  unfold wf_def. intros H. apply andb_prop in H as [H H4]. apply andb_prop in H as [H H3].
  apply andb_prop in H as [H1 H2]. rewrite forallb_forall in H2, H3, H4. constructor.
  - now apply nodupb_NoDup.
  - intros f Hf E. specialize (H2 f Hf). rewrite E in H2. discriminate.
  - intros f rs r Hf Hrs Hr. specialize (H3 f Hf). rewrite forallb_forall in H3.
    specialize (H3 rs Hrs). rewrite forallb_forall in H3. apply is_field_spec. now apply H3.
  - intros x Hx. specialize (H4 x Hx). apply andb_true_iff in H4 as [H4 _]. now apply nodupb_o_NoDup.
  - intros x n Hx Hn. specialize (H4 x Hx). apply andb_true_iff in H4 as [_ H4].
    rewrite forallb_forall in H4. apply is_field_spec. exact (H4 (Some n) Hn).
Qed.

Lemma same_name_same_field d f g : Wf d -> In f (fields d) -> In g (fields d) -> fname f = fname g -> f = g.
Proof. intros W. apply NoDup_map_inj, W. Qed.

Lemma type_of_field d g : Wf d -> In g (fields d) -> type_of d (fname g) = ftype g.
Proof.
  intros W Hg. unfold type_of.
  destruct (find (fun f => fname f =? fname g) (rev (fields d))) as [f|] eqn:F.
  - apply find_some in F as [Hf E]. apply String.eqb_eq in E. rewrite <- in_rev in Hf.
    now rewrite (same_name_same_field d f g W Hf Hg E).
  - apply find_none with (x := g) in F; [|now rewrite <- in_rev].
    rewrite String.eqb_refl in F. discriminate.
Qed.

(* a boolean test read as a notion *)
Definition N (b : notionb) : notion := fun k v => b k v = true.

Lemma allowed_okb_spec r v : allowed_okb r v = true <-> allowed_ok r v.
Proof.
  unfold allowed_okb, allowed_ok. destruct (rallowed r) as [l|]; [|tauto].
  rewrite existsb_exists. split; intros [a Ha]; exists a; exact Ha.
Qed.

(* the tests tb, rb, xb decide the notions T, R, X wherever the formula applies them: to a field that carries
   requirements, to the field a requirement names, to a field as member of a group *)
Record decides (tb rb xb : notionb) (T R X : notion) (d : taskdef) (e : env) : Prop := {
  dec_trigger : forall f, In f (fields d) -> frequires f <> [] ->
    (tb (ftype f) (e (fname f)) = true <-> T (ftype f) (e (fname f)));
  dec_required : forall f rs r g, In f (fields d) -> In rs (frequires f) -> In r rs -> In g (fields d) ->
    fname g = rname r -> (rb (ftype g) (e (rname r)) = true <-> R (ftype g) (e (rname r)));
  dec_member : forall g, In g (fields d) -> (xb (ftype g) (e (fname g)) = true <-> X (ftype g) (e (fname g)))
}.
Arguments dec_trigger {tb rb xb T R X d e}.
Arguments dec_required {tb rb xb T R X d e}.
Arguments dec_member {tb rb xb T R X d e}.

Lemma decides_N tb rb xb d e : decides tb rb xb (N tb) (N rb) (N xb) d e.
Proof. constructor; intros; reflexivity. Qed.

Lemma mandatory_test v mu : is_nothing v && negb mu = false <-> (mu = false -> v <> VNothing).
Proof. destruct v, mu; cbn; split; try congruence. intros H. now destruct (H eq_refl). Qed.

Lemma requires_test {Q} (t : bool) (T : Prop) (rss : list (list Q)) (ok : bool) :
  (rss <> [] -> (t = true <-> T)) ->
  (t && nonempty rss && negb ok = false <-> (T -> rss <> [] -> ok = true)).
Proof.
  intros H. destruct rss as [|rs rss]; [cbn; rewrite andb_false_r; split; [intros _ _ NE; now destruct NE|reflexivity]|].
  destruct (H ltac:(discriminate)) as [H1 H2]. destruct t, ok; cbn; split; try congruence; auto.
  intros G. symmetry. apply G; [now apply H1|discriminate].
Qed.

Lemma two_errors_nil {X} (a b : bool) (x y : X) :
  ((if a then [x] else []) ++ (if b then [y] else []))%list = [] <-> a = false /\ b = false.
Proof. destruct a, b; cbn; (split; [intros H|intros [Ha Hb]]); (discriminate || auto). Qed.

Lemma in_xor_names x n : In n (xor_names x) <-> In (Some n) x /\ n <> "".
Proof.
  unfold xor_names. rewrite in_flat_map. split.
  - intros [o [Ho Hn]]. destruct o as [m|]; [|destruct Hn].
    destruct (m =? "") eqn:E; [destruct Hn|]. destruct Hn as [<-|[]].
    split; [exact Ho|]. now apply String.eqb_neq.
  - intros [Ho Hn]. exists (Some n). split; [exact Ho|].
    apply String.eqb_neq in Hn. rewrite Hn. now left.
Qed.

Lemma NoDup_xor_names x : NoDup x -> NoDup (xor_names x).
Proof.
  induction 1 as [|o x Ho ND IH]; cbn; [constructor|].
  destruct o as [m|]; [|exact IH]. destruct (m =? ""); [exact IH|]. cbn.
  constructor; [|exact IH]. intros H. apply in_xor_names in H as [H _]. contradiction.
Qed.

Lemma has_none_spec x : has_none x = true <-> In None x.
Proof.
  unfold has_none. rewrite existsb_exists. split.
  - intros [o [Ho E]]. destruct o; [discriminate|exact Ho].
  - intros H. now exists None.
Qed.

Section Code.
  Variables (T R X : notion) (d : taskdef) (e : env).
  Hypothesis W : Wf d.
  Hypothesis D : decides set_trigger set_required set_exclusive T R X d e.

  Lemma req_satisfied_spec f rs r : In f (fields d) -> In rs (frequires f) -> In r rs ->
    (req_satisfied d e r = true <-> requirement_met R d e r).
  Proof.
    intros Hf Hrs Hr. destruct (wf_reqs d W f rs r Hf Hrs Hr) as [g [Hg E]].
    pose proof (dec_required D f rs r g Hf Hrs Hr Hg E) as DR.
    unfold req_satisfied, requirement_met. rewrite <- E at 1. rewrite (type_of_field d g W Hg). split.
    - intros H. exists g. destruct (set_required (ftype g) (e (rname r))); [|discriminate].
      split; [exact Hg|]. split; [exact E|]. split; [now apply DR|now apply allowed_okb_spec].
    - intros [g' [Hg' [E' [S A]]]].
      assert (g' = g) by (apply (same_name_same_field d); auto; congruence). subst g'.
      rewrite (proj2 DR S). now apply allowed_okb_spec.
  Qed.

  Lemma field_errors_nil f : In f (fields d) ->
    (field_errors d e f = [] <->
     (fmay_unset f = false -> e (fname f) <> VNothing) /\
     (T (ftype f) (e (fname f)) -> frequires f <> [] ->
      exists rs, In rs (frequires f) /\ forall r, In r rs -> requirement_met R d e r)).
  Proof.
    intros Hf. unfold field_errors.
    rewrite <- (some_alternative (req_satisfied d e) _ (frequires f) (fun rs r => req_satisfied_spec f rs r Hf)).
    rewrite <- mandatory_test, <- (requires_test _ _ _ _ (dec_trigger D f Hf)). apply two_errors_nil.
  Qed.

  Lemma member_set_code x n : In x (xors d) ->
    (member_set X d e x n <-> In n (filter (fun n => truthy (e n)) (xor_names x))).
  Proof.
    intros Hx. unfold member_set. rewrite filter_In, in_xor_names. split.
    - intros [Hn [g [Hg [<- S]]]]. split; [split; [exact Hn|now apply (wf_nonempty d W)]|].
      now apply (dec_member D g Hg).
    - intros [[Hn _] S]. split; [exact Hn|].
      destruct (wf_xor_fields d W x n Hx Hn) as [g [Hg <-]]. exists g.
      split; [exact Hg|]. split; [reflexivity|]. now apply (dec_member D g Hg).
  Qed.

  Lemma xor_errors_nil x : In x (xors d) ->
    (xor_errors e x = [] <->
     (forall n m, member_set X d e x n -> member_set X d e x m -> n = m) /\
     (~ In None x -> exists n, member_set X d e x n)).
  Proof.
    intros Hx.
    rewrite <- (one_of_spec _ _ (has_none x) _
                  (NoDup_filter _ (NoDup_xor_names x (wf_xor_nodup d W x Hx)))
                  (fun n => member_set_code x n Hx) (has_none_spec x)).
    unfold xor_errors. (* both sides only ask whether no, one or several members are set *)
    destruct (filter _ (xor_names x)) as [|a [|b l]], (has_none x); cbn; split; (reflexivity || discriminate).
  Qed.

  Theorem rules_ok_roles : rules_ok d e = true <-> Spec_roles T R X d e.
  Proof.
    assert (E : rules_ok d e = true <-> rule_violations d e = [])
      by (unfold rules_ok; destruct (rule_violations d e); split; congruence).
    rewrite E. unfold rule_violations, Spec_roles, mandatory_ok, requires_ok, xor_ok. split.
    - intros H. apply app_eq_nil in H as [HF HX].
      rewrite flat_map_nil in HF. rewrite flat_map_nil in HX. repeat split.
      + intros f Hf. now apply (field_errors_nil f Hf), HF.
      + intros f Hf. now apply (field_errors_nil f Hf), HF.
      + now apply (xor_errors_nil x H), HX.
      + now apply (xor_errors_nil x H), HX.
    - intros [M [RQ XO]].
      rewrite (proj2 (flat_map_nil (field_errors d e) (fields d))), (proj2 (flat_map_nil (xor_errors e) (xors d)));
        [reflexivity| |].
      + intros x Hx. apply (xor_errors_nil x Hx), XO, Hx.
      + intros f Hf. apply (field_errors_nil f Hf). split; [exact (M f Hf)|exact (RQ f Hf)].
  Qed.
End Code.

Lemma mandatory_okb_spec d e : mandatory_okb d e = true <-> mandatory_ok d e.
Proof.
  apply forallb_iff. intros f _.
  destruct (fmay_unset f), (e (fname f)); cbn; split; try congruence. intros H. now destruct (H eq_refl).
Qed.

Section Exec.
  Variables (tb rb xb : notionb) (T R X : notion) (d : taskdef) (e : env).
  Hypothesis W : Wf d.
  Hypothesis D : decides tb rb xb T R X d e.

  Lemma requirement_metb_spec f rs r : In f (fields d) -> In rs (frequires f) -> In r rs ->
    (requirement_metb rb d e r = true <-> requirement_met R d e r).
  Proof.
    intros Hf Hrs Hr. unfold requirement_metb, requirement_met. rewrite existsb_exists.
    split; intros [g [Hg H]]; exists g; (split; [exact Hg|]).
    - apply andb_prop in H as [H A]. apply andb_prop in H as [E S].
      apply String.eqb_eq in E. apply allowed_okb_spec in A.
      apply (dec_required D f rs r g Hf Hrs Hr Hg E) in S. auto.
    - destruct H as [E [S A]]. apply (dec_required D f rs r g Hf Hrs Hr Hg E) in S.
      apply String.eqb_eq in E. apply allowed_okb_spec in A. now rewrite E, S, A.
  Qed.

  Lemma requires_okb_spec : requires_okb tb rb d e = true <-> requires_ok T R d e.
  Proof.
    apply forallb_iff. intros f Hf.
    rewrite <- (some_alternative _ _ _ (fun rs r => requirement_metb_spec f rs r Hf)).
    pose proof (dec_trigger D f Hf) as DT.
    destruct (frequires f) as [|rs rss]; [split; [congruence|reflexivity]|].
    destruct (DT ltac:(discriminate)) as [D1 D2].
    destruct (tb _ _); cbn [negb orb]; split; auto.
    - intros H. apply H; [now apply D1|discriminate].
    - intros _ HT. now apply D2 in HT.
  Qed.

  Let q (x : list (option string)) (g : fdef) : bool :=
    existsb (option_eqb String.eqb (Some (fname g))) x && xb (ftype g) (e (fname g)).

  Lemma member_set_exec x n :
    member_set X d e x n <-> In n (map fname (filter (q x) (fields d))).
  Proof.
    unfold member_set, q. rewrite in_map_iff. split.
    - intros [Hn [g [Hg [<- S]]]]. exists g. split; [reflexivity|]. apply filter_In. split; [exact Hg|].
      apply andb_true_intro. split; [now apply (existsb_eqb_In _ oeqb_spec)|now apply (dec_member D g Hg)].
    - intros [g [<- Hq]]. apply filter_In in Hq as [Hg Hq]. apply andb_prop in Hq as [Hn S].
      apply (existsb_eqb_In _ oeqb_spec) in Hn. split; [exact Hn|]. exists g.
      split; [exact Hg|]. split; [reflexivity|]. now apply (dec_member D g Hg).
  Qed.

  Lemma xor_okb_spec : xor_okb xb d e = true <-> xor_ok X d e.
  Proof.
    apply forallb_iff. intros x _. cbv zeta. unfold count_set. rewrite <- (map_length fname).
    apply one_of_spec.
    - apply NoDup_map_filter, W.
    - intros n. apply member_set_exec.
    - apply (existsb_eqb_In _ oeqb_spec).
  Qed.

  Theorem spec_rolesb_spec : spec_rolesb tb rb xb d e = true <-> Spec_roles T R X d e.
  Proof.
    unfold spec_rolesb, Spec_roles.
    rewrite !andb_true_iff, mandatory_okb_spec, requires_okb_spec, xor_okb_spec. tauto.
  Qed.
End Exec.

Lemma is_setb_spec v : is_setb v = true <-> IsSet v.
Proof.
  destruct v as [| |b|s|z|b]; cbn; try (split; [discriminate|tauto]); try tauto.
  - destruct s; split; congruence.
  - destruct z; split; congruence.
Qed.

Lemma truthy_spec v : truthy v = true <-> IsSet v.
Proof.
  rewrite <- is_setb_spec. destruct v as [| |b|s|z|b]; cbn; try reflexivity.
  - now destruct s.
  - now destruct z.
Qed.

Lemma uncontested_spec d e : Wf d -> uncontested d e = true ->
  decides set_trigger set_required set_exclusive set_notion set_notion set_notion d e.
Proof.
  intros W U. unfold uncontested, uncontested_trigger, uncontested_required in U.
  apply andb_true_iff in U as [U1 U2].
  rewrite forallb_forall in U1, U2. unfold set_notion. constructor.
  - intros f Hf NE. specialize (U1 f Hf). destruct (frequires f); [congruence|].
    apply eqb_prop in U1. rewrite U1. apply truthy_spec.
  - intros f rs r g Hf Hrs Hr Hg E. specialize (U2 f Hf). rewrite forallb_forall in U2.
    specialize (U2 rs Hrs). rewrite forallb_forall in U2. specialize (U2 r Hr).
    apply eqb_prop in U2. rewrite <- E in U2 at 1. rewrite (type_of_field d g W Hg) in U2.
    rewrite U2. apply truthy_spec.
  - intros g _. apply truthy_spec.
Qed.

(* a: str = "" with requires=["b"], b: str | None = None *)
Definition wit_def : taskdef :=
  {| fields := [ {| fname := "a"; ftype := TOther; fmay_unset := false;
                    frequires := [[ {| rname := "b"; rallowed := None |} ]] |};
                 {| fname := "b"; ftype := TOther; fmay_unset := false; frequires := [] |} ];
     xors := [] |}.

(* a: str = "" alone in an exclusive group that must have a member set *)
Definition d_lone : taskdef :=
  {| fields := [ {| fname := "a"; ftype := TOther; fmay_unset := false; frequires := [] |} ]; xors := [[Some "a"]] |}.

(* one assignment for both tasks *)
Definition e_ab : env := env_of [("a", VStr ""); ("b", VNone)].

(* nothing given to [wit_def]: the formula holds as long as "" does not count as set, and the code reports
   "'a' requires ['b']" *)
Lemma wit_def_formula (S : notion) : ~ S TOther (VStr "") -> Spec_gen S wit_def e_ab.
Proof.
  intros Se. split; [|split].
  - intros f [<-|[<-|[]]] _; cbn; discriminate.
  - intros f [<-|[<-|[]]] T NE; cbn in *; [contradiction|congruence].
  - intros x [].
Qed.

Lemma wit_def_rejected : rule_violations wit_def e_ab = [ERequires "a"].
Proof. reflexivity. Qed.

(* nothing given to [d_lone]: the formula holds if "" counts as set, and the code reports that one of the
   group should be set *)
Lemma d_lone_formula (S : notion) : S TOther (VStr "") -> Spec_gen S d_lone e_ab.
Proof.
  intros Se. split; [|split].
  - intros f [<-|[]] _; cbn; discriminate.
  - intros f [<-|[]] _ NE. now destruct NE.
  - intros x [<-|[]]. split.
    + intros n m [[[= <-]|[]] _] [[[= <-]|[]] _]. reflexivity.
    + intros _. exists "a". split; [now left|]. eexists. split; [now left|]. split; [reflexivity|exact Se].
Qed.

Lemma d_lone_rejected : rule_violations d_lone e_ab = [EXorNone ["a"]].
Proof. reflexivity. Qed.

(* the exclusive-group check needs "" to be unset, the requires check needs it to be set *)
Theorem no_uniform_notion (S : notion) :
  ~ (forall d e, wf_def d = true -> (rules_ok d e = true <-> Spec_gen S d e)).
Proof.
  intros H.
  assert (Se : ~ S TOther (VStr "")).
  { intros Se. destruct (H d_lone e_ab eq_refl) as [_ H2]. specialize (H2 (d_lone_formula S Se)).
    unfold rules_ok in H2. rewrite d_lone_rejected in H2. discriminate. }
  destruct (H wit_def e_ab eq_refl) as [_ H2]. specialize (H2 (wit_def_formula S Se)).
  unfold rules_ok in H2. rewrite wit_def_rejected in H2. discriminate.
Qed.

Section BeforeExecution.
  Variable run : taskdef -> env -> nat.

  Lemma rejected_before_run d e : rules_ok d e = false ->
    submitter_call run d e = Rejected (rule_violations d e).
  Proof.
    unfold rules_ok, submitter_call, check_rules. destruct (rule_violations d e); [discriminate|reflexivity].
  Qed.

  Lemma ran_only_if_ok d e n : submitter_call run d e = Ran n -> rules_ok d e = true /\ n = run d e.
  Proof.
    unfold rules_ok, submitter_call, job_init, check_rules.
    destruct (rule_violations d e); [|discriminate]. intros E. inversion E. auto.
  Qed.
End BeforeExecution.
