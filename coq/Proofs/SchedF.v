(* Proofs/SchedF.v — run_async: the loop invariant holds at every state, for every oracle; what it gives about
   the event log of any run (C15, C16) and that no exception escapes a poll (C14). *)
From Pydra Require Import Base.Prelude Base.SchedBase Model.Sched Spec.Sched Proofs.SchedA Proofs.SchedC Proofs.SchedD Proofs.SchedJ Proofs.SchedE.
Local Open Scope nat_scope.

Section Inv.
Variable V : Type.
Variable body : nat -> nat -> list (list (option V)) -> V.
Variable fails : job -> bool.
Variable vr : variant.
Hypothesis F14 : fix14 vr = true.
Variable g : graph.
Hypothesis WF : wf_graph g.
Variable kmax : option nat.

Notation world := (world V).
Notation sstate := (sstate V).
Notation lstate := (lstate V).
Notation GInv := (GInv V fails g).
Notation WInv := (WInv V fails).
Notation VInv := (VInv V body g).
Notation TInv := (TInv V fails vr g kmax).
Notation task_ok := (task_ok V fails g).
Notation runs := (@runs V).
Notation wle := (wle V).

Lemma GInv_mono (w w' : world) ss : wle w w' -> GInv w ss -> GInv w' ss.
Proof.
  intros H [R N P]. constructor; auto. intros n. eapply NInv_mono; eauto.
Qed.

Lemma TInv_vis (w : world) vis fut pend errs tr :
  TInv w fut pend errs tr -> TInv (mkW (results w) vis) fut pend errs tr.
Proof. intros T. destruct T. constructor; assumption. Qed.

Lemma complete_spec ss fut vis : forall cs (w : world) pend errs tr res' pend' errs' tr',
  GInv w ss -> WInv w -> VInv w -> TInv w fut pend errs tr ->
  (forall j, In j pend -> runs ss j) ->
  complete body fails cs ss (results w) pend errs tr = (res', pend', errs', tr') ->
  wle w (mkW res' vis) /\ WInv (mkW res' vis) /\ VInv (mkW res' vis)
  /\ TInv (mkW res' vis) fut pend' errs' tr' /\ (forall j, In j pend' -> In j pend)
  /\ (forall j, In j pend -> In j pend' \/ is_none (mkW res' vis) j = false)
  /\ count_finish tr <= count_finish tr' /\ (cs <> [] -> pend <> [] -> S (count_finish tr) <= count_finish tr').
Proof.
  induction cs as [|c cs IH]; intros w pend errs tr res' pend' errs' tr' G W Vi T R E; cbn [complete] in E;
    [|destruct pend as [|j0 p0]].
  1, 2: injection E as <- <- <- <-;
    (split; [apply wle_vis|split; [exact W|split; [exact Vi|split; [apply TInv_vis, T|split; [auto|split; [auto|split; [lia|congruence]]]]]]]).
  remember (j0 :: p0) as pend eqn:Ep.
  assert (Hl : c mod List.length pend < List.length pend).
  { apply Nat.mod_upper_bound. rewrite Ep. cbn. lia. }
  set (i := c mod List.length pend) in *.
  set (j := nth i pend j0) in *.
  assert (Hj : In j pend) by (apply nth_In; exact Hl).
  pose proof (finish_spec V body fails vr g WF kmax ss w vis fut pend (remove_nth i pend) errs tr j
                G W Vi T (R j Hj) Hj (fun q Hq => remove_nth_In q pend i Hq) (remove_nth_length pend i Hl)) as FS.
  cbv zeta in FS. destruct FS as [L1 [W1 [V1 T1]]].
  destruct (IH _ _ _ _ _ _ _ _ (GInv_mono _ _ _ L1 G) W1 V1 T1 (fun q Hq => R q (remove_nth_In q pend i Hq)) E)
    as [L2 [W2 [V2 [T2 [S2 [A2 [C2 _]]]]]]]. rewrite count_finish_cons_f in C2.
  split; [eapply wle_trans; eauto|split; [exact W2|split; [exact V2|split; [exact T2|split; [|split; [|lia]]]]]].
  + intros q Hq. eapply remove_nth_In. apply S2. exact Hq.
  + intros q Hq. destruct (job_eqb q j) eqn:Q.
    * apply job_eqb_eq in Q. subst q. right. apply (is_none_false_mono V _ _ j L2), is_none_new.
    * apply job_eqb_neq in Q. apply A2. apply (remove_nth_other pend i j0 q Hl Q Hq).
Qed.

Record LInv (ls : lstate) : Prop := {
  li_g : GInv (ls_w ls) (ls_ss ls);
  li_w : WInv (ls_w ls);
  li_v : VInv (ls_w ls);
  li_tasks : forall j, In j (ls_tasks ls) -> task_ok (ls_w ls) j /\ runs (ls_ss ls) j;
  li_t : TInv (ls_w ls) (ls_futured ls) (ls_pending ls) (ls_errors ls) (ls_trace ls);
  li_pend : forall j, In j (ls_pending ls) -> runs (ls_ss ls) j
}.

Lemma finish_bound (ls : lstate) : LInv ls -> count_finish (ls_trace ls) <= List.length (all_jobs g).
Proof.
  intros I. pose proof (li_t _ I) as T.
  pose proof (ti_count T) as C.
  assert (L : count_launch (ls_trace ls) = List.length (ls_futured ls)).
  { rewrite <- (ti_fut T). symmetry. apply count_launch_rev. }
  assert (B : List.length (ls_futured ls) <= List.length (all_jobs g)).
  { apply NoDup_incl_length; [apply (ti_nodup T)|].
    intros j Hj. apply (ti_fut_ok T j Hj). }
  lia.
Qed.

Lemma LInv_safety (ls : lstate) : LInv ls -> starts_after_upstream g (rev (ls_trace ls)).
Proof. intros I. apply safe_rev_spec, (ti_safe (li_t _ I)). Qed.

Lemma LInv_at_most_once (ls : lstate) : LInv ls -> at_most_once (rev (ls_trace ls)).
Proof.
  intros I. pose proof (li_t _ I) as T. unfold at_most_once.
  rewrite (ti_fut T). apply (ti_nodup T).
Qed.

Definition with_poll (ls : lstate) (ss : sstate) (tasks : list job) : lstate :=
  mkLS ss (ls_w ls) tasks (ls_futured ls) (ls_pending ls) (ls_errors ls) (ls_trace ls) (ls_iters ls).

(* k0, not kmax: the sequential loop polls with its own max_concurrent while its invariant is LInv at Some 1 *)
Lemma LInv_poll k0 (ls : lstate) ss' tasks :
  LInv ls -> poll vr g k0 (ls_w ls) (ls_ss ls) = (ss', tasks) -> LInv (with_poll ls ss' tasks).
Proof.
  intros [G W Vi _ Tt P] EP. destruct (poll_spec V fails vr F14 g WF k0 _ _ _ _ G W EP) as [A [B C]].
  constructor; cbn; auto.
  - intros j Hj. destruct (B j Hj) as [X [Y _]]. auto.
Qed.

(* the `if not tasks and not task_futures:` block *)
Definition stall_part (ls : lstate) : sstate * list job * bool :=
  if is_nil (ls_tasks ls) && is_nil (ls_pending ls)
  then stall_loop vr g kmax 11 (ls_w ls) (ls_ss ls) (ls_tasks ls)
  else (ls_ss ls, ls_tasks ls, false).

Lemma loop_cond_false (ls : lstate) :
  loop_cond vr g ls = false <->
  ls_tasks ls = [] /\ ls_pending ls = [] /\ any_not_done vr g (ls_w ls) (ls_ss ls) = false.
Proof.
  unfold loop_cond. destruct (ls_tasks ls), (ls_pending ls), (any_not_done vr g (ls_w ls) (ls_ss ls)); cbn;
    (split; [try discriminate; auto|intros [A [B C]]; try discriminate; reflexivity]).
Qed.

Lemma stall_part_stalled (ls : lstate) ss1 tasks1 :
  stall_part ls = (ss1, tasks1, true) ->
  ls_tasks ls = [] /\ ls_pending ls = [] /\ stall_loop vr g kmax 11 (ls_w ls) (ls_ss ls) (ls_tasks ls) = (ss1, tasks1, true).
Proof.
  unfold stall_part. destruct (is_nil (ls_tasks ls) && is_nil (ls_pending ls)) eqn:NE; [|discriminate].
  apply andb_true_iff in NE. destruct NE as [T0 P0]. apply is_nil_true in T0, P0. auto.
Qed.

(* the stall block is a while loop that only polls, in a frozen world: what every poll keeps holds when it ends, and
   unless it gave up (stalled) its test is false then *)
Lemma stall_loop_ind (w : world) (P : sstate -> list job -> Prop) :
  (forall ss t ss' t', P ss t -> poll vr g kmax w ss = (ss', t') -> P ss' t') ->
  forall n ss t ss1 tasks1 stalled, P ss t -> stall_loop vr g kmax n w ss t = (ss1, tasks1, stalled) ->
  P ss1 tasks1 /\ (stalled = false -> raised ss1 = false -> tasks1 <> [] \/ any_not_done vr g w ss1 = false).
Proof.
  intros Step. induction n as [|n IH]; intros ss t ss1 tasks1 stalled Pi; cbn [stall_loop];
    [intros E; injection E as <- <- <-; split; [exact Pi|discriminate]|].
  destruct (is_nil t && any_not_done vr g w ss && negb (raised ss)) eqn:C.
  - destruct (poll vr g kmax w ss) as [ss' t'] eqn:EP. pose proof (Step _ _ _ _ Pi EP) as P1.
    destruct n as [|n']; [intros E; injection E as <- <- <-; split; [exact P1|discriminate]|apply IH, P1].
  - intros E. injection E as <- <- <-. split; [exact Pi|]. intros _ R. rewrite R, andb_true_r in C.
    apply andb_false_iff in C. destruct C as [C|C]; [left; apply is_nil_false; exact C|auto].
Qed.

(* the same for the whole block, which is entered only with no task and nothing pending *)
Lemma stall_part_ind (ls : lstate) (P : sstate -> list job -> Prop) :
  (forall ss t ss' t', P ss t -> poll vr g kmax (ls_w ls) ss = (ss', t') -> P ss' t') ->
  P (ls_ss ls) (ls_tasks ls) ->
  forall ss1 tasks1 stalled, stall_part ls = (ss1, tasks1, stalled) ->
  P ss1 tasks1
  /\ (stalled = false -> raised ss1 = false ->
      tasks1 <> [] \/ ls_pending ls <> [] \/ any_not_done vr g (ls_w ls) ss1 = false)
  /\ (tasks1 = [] -> ls_tasks ls = []).
Proof.
  intros Step P0 ss1 tasks1 stalled. unfold stall_part.
  destruct (is_nil (ls_tasks ls) && is_nil (ls_pending ls)) eqn:NE.
  - intros ES. destruct (stall_loop_ind _ P Step _ _ _ _ _ _ P0 ES) as [P1 X]. split; [exact P1|split].
    + intros S R. destruct (X S R); auto.
    + intros _. apply andb_true_iff in NE. apply is_nil_true, NE.
  - intros E. injection E as <- <- _. split; [exact P0|split; [|auto]]. intros _ _.
    apply andb_false_iff in NE. destruct NE as [X|X]; apply is_nil_false in X; auto.
Qed.

Lemma LInv_stall_part (ls : lstate) ss1 tasks1 stalled :
  LInv ls -> stall_part ls = (ss1, tasks1, stalled) -> LInv (with_poll ls ss1 tasks1).
Proof.
  intros I ES. apply (stall_part_ind ls (fun ss t => LInv (with_poll ls ss t))) with (3 := ES); [|destruct ls; exact I].
  intros ss t ss' t' Ii EP. exact (LInv_poll kmax _ ss' t' Ii EP).
Qed.

Lemma LInv_launch (ls : lstate) fut pend tr launched its :
  LInv ls -> launch vr kmax (ls_tasks ls) (ls_futured ls) (ls_pending ls) (ls_trace ls) [] = (fut, pend, tr, launched) ->
  LInv (mkLS (ls_ss ls) (ls_w ls) (ls_tasks ls) fut pend (ls_errors ls) tr its)
  /\ exists new, fut = ls_futured ls ++ new /\ pend = ls_pending ls ++ new /\ (forall j, In j new -> In j (ls_tasks ls))
                 /\ count_finish tr = count_finish (ls_trace ls)
                 /\ (forall j, In j (ls_tasks ls) -> In j fut \/ below_limit vr kmax pend = false).
Proof.
  intros [G W Vi T Tt P] EL.
  destruct (launch_spec V fails vr g kmax (ls_w ls) (ls_errors ls) _ _ _ _ _ _ _ _ _ Tt (fun j Hj => proj1 (T j Hj)) EL)
    as [T2 [new [Ef [Ep [Hn Hr]]]]]. split; [|exists new; auto].
  constructor; cbn; auto. intros j Hj. rewrite Ep in Hj. apply in_app_or in Hj.
  destruct Hj as [X|X]; [apply P; exact X|apply T, Hn; exact X].
Qed.

Definition completions (o : oracle_step) (ss : sstate) (w : world) (pend errs : list job) (tr : list event)
  : world * list job * list job * list event :=
  match pend with
  | [] => (w, pend, errs, tr)
  | _ => apply_step body fails o ss w pend errs tr
  end.

Lemma vis_sub (pend : list job) bits j : In j (map fst (filter snd (combine pend bits))) -> In j pend.
Proof.
  intros H. apply in_map_iff in H. destruct H as [[q b] [E H]]. cbn in E. subst q.
  apply filter_In in H. destruct H as [H _]. apply in_combine_l in H. exact H.
Qed.

Lemma LInv_completions o (ls : lstate) w2 pend2 errs2 tr2 its :
  LInv ls ->
  completions o (ls_ss ls) (ls_w ls) (ls_pending ls) (ls_errors ls) (ls_trace ls) = (w2, pend2, errs2, tr2) ->
  LInv (mkLS (ls_ss ls) w2 (ls_tasks ls) (ls_futured ls) pend2 errs2 tr2 its)
  /\ wle (ls_w ls) w2
  /\ (ls_pending ls <> [] ->
      (forall j, In j (visible w2) -> In j pend2)
      /\ (forall j, In j (ls_pending ls) -> In j pend2 \/ is_none w2 j = false)
      /\ S (count_finish (ls_trace ls)) <= count_finish tr2).
Proof.
  intros [G W Vi T Tt P]. unfold completions. destruct (ls_pending ls) as [|j0 p0] eqn:Ep.
  - intros E. inversion E; subst. split; [|split; [apply wle_refl|congruence]].
    constructor; cbn; auto.
  - rewrite <- Ep in *. unfold apply_step.
    set (cs := match comps o with [] => [0] | l => l end).
    assert (Hcs : cs <> []) by (unfold cs; destruct (comps o); discriminate).
    destruct (complete body fails cs (ls_ss ls) (results (ls_w ls)) (ls_pending ls) (ls_errors ls) (ls_trace ls))
      as [[[res' pend'] errs'] tr'] eqn:EC.
    intros E. inversion E; subst.
    destruct (complete_spec (ls_ss ls) (ls_futured ls) (map fst (filter snd (combine pend2 (visbits o)))) cs (ls_w ls)
                _ _ _ _ _ _ _ G W Vi Tt P EC) as [L2 [W2 [V2 [T3 [S2 [A2 [_ C2]]]]]]].
    split; [|split; [exact L2|intros Hp; split; [apply vis_sub|split; [exact A2|exact (C2 Hcs Hp)]]]].
    constructor; cbn; auto.
    + eapply GInv_mono; eauto.
    + exact (tasks_mono V fails g _ _ _ _ L2 T).
Qed.

Inductive async_case (o : oracle_step) (ls : lstate) : step_result V -> Prop :=
| AC_raised : raised (ls_ss ls) = true -> async_case o ls (Stop Raised ls)
| AC_finished : raised (ls_ss ls) = false -> loop_cond vr g ls = false -> async_case o ls (Stop Finished ls)
| AC_poll_raised ss1 tasks1 stalled :
    raised (ls_ss ls) = false -> loop_cond vr g ls = true -> stall_part ls = (ss1, tasks1, stalled) ->
    raised ss1 = true -> async_case o ls (Stop Raised (with_poll ls ss1 tasks1))
| AC_stalled ss1 tasks1 :
    raised (ls_ss ls) = false -> loop_cond vr g ls = true -> stall_part ls = (ss1, tasks1, true) ->
    raised ss1 = false -> async_case o ls (Stop Stalled (with_poll ls ss1 tasks1))
| AC_continue ss1 tasks1 fut pend tr launched w2 pend2 errs2 tr2 ss3 tasks3 :
    raised (ls_ss ls) = false -> loop_cond vr g ls = true -> stall_part ls = (ss1, tasks1, false) ->
    raised ss1 = false ->
    launch vr kmax tasks1 (ls_futured ls) (ls_pending ls) (ls_trace ls) [] = (fut, pend, tr, launched) ->
    completions o ss1 (ls_w ls) pend (ls_errors ls) tr = (w2, pend2, errs2, tr2) ->
    poll vr g kmax w2 ss1 = (ss3, tasks3) ->
    async_case o ls (Continue (mkLS ss3 w2 tasks3 fut pend2 errs2 tr2 ((tasks1, launched) :: ls_iters ls))).

Lemma async_step_case o (ls : lstate) : async_case o ls (async_step body fails vr g kmax o ls).
Proof.
  unfold async_step. destruct (raised (ls_ss ls)) eqn:R; [apply AC_raised; exact R|].
  destruct (loop_cond vr g ls) eqn:C; cbn [negb]; [|apply AC_finished; assumption].
  fold (stall_part ls). destruct (stall_part ls) as [[ss1 tasks1] stalled] eqn:S.
  destruct (raised ss1) eqn:R1; [exact (AC_poll_raised o ls ss1 tasks1 stalled R C S R1)|].
  destruct stalled; [exact (AC_stalled o ls ss1 tasks1 R C S R1)|].
  destruct (launch vr kmax tasks1 (ls_futured ls) (ls_pending ls) (ls_trace ls) []) as [[[fut pend] tr] launched] eqn:L.
  fold (completions o ss1 (ls_w ls) pend (ls_errors ls) tr).
  destruct (completions o ss1 (ls_w ls) pend (ls_errors ls) tr) as [[[w2 pend2] errs2] tr2] eqn:Cp.
  destruct (poll vr g kmax w2 ss1) as [ss3 tasks3] eqn:P.
  exact (AC_continue o ls ss1 tasks1 fut pend tr launched w2 pend2 errs2 tr2 ss3 tasks3 R C S R1 L Cp P).
Qed.

Lemma async_step_spec o (ls : lstate) :
  LInv ls ->
  match async_step body fails vr g kmax o ls with
  | Continue ls' => LInv ls'
  | Stop st ls' => LInv ls' /\ st <> Raised
  end.
Proof.
  intros I.
  destruct (async_step_case o ls) as [R|R C|ss1 tasks1 stalled R C S R1|ss1 tasks1 R C S R1
                                      |ss1 tasks1 fut pend tr launched w2 pend2 errs2 tr2 ss3 tasks3 R C S R1 L Cp P];
    try pose proof (LInv_stall_part ls _ _ _ I S) as I1.
  - rewrite (gi_raised (li_g _ I)) in R. discriminate R.
  - split; [exact I|discriminate].
  - pose proof (gi_raised (li_g _ I1)) as X. cbn in X. congruence.
  - split; [exact I1|discriminate].
  - destruct (LInv_launch _ _ _ _ _ ((tasks1, launched) :: ls_iters ls) I1 L) as [I2 _].
    destruct (LInv_completions o _ _ _ _ _ ((tasks1, launched) :: ls_iters ls) I2 Cp) as [I3 _].
    exact (LInv_poll kmax _ _ _ I3 P).
Qed.

Lemma run_loop_S fuel orc (ls : lstate) :
  run_loop body fails vr g kmax (S fuel) orc ls =
  match async_step body fails vr g kmax (hd default_step orc) ls with
  | Stop st ls' => mkOut st ls'
  | Continue ls' => run_loop body fails vr g kmax fuel (tl orc) ls'
  end.
Proof. destruct orc; reflexivity. Qed.

Lemma run_loop_ind (Inv : lstate -> Prop) (Q : status -> lstate -> Prop) :
  (forall o ls, Inv ls -> match async_step body fails vr g kmax o ls with
                          | Continue ls' => Inv ls'
                          | Stop st ls' => Q st ls'
                          end) ->
  (forall ls, Inv ls -> Q OutOfFuel ls) ->
  forall fuel orc ls, Inv ls ->
  Q (o_status (run_loop body fails vr g kmax fuel orc ls)) (o_final (run_loop body fails vr g kmax fuel orc ls)).
Proof.
  intros Step Out. induction fuel as [|f IH]; intros orc ls I; [apply Out; exact I|].
  rewrite run_loop_S. specialize (Step (hd default_step orc) ls I).
  destruct (async_step body fails vr g kmax (hd default_step orc) ls) as [ls'|st ls']; [apply IH|]; exact Step.
Qed.

Lemma GInv_init : GInv (w_init V) (ss_init V).
Proof.
  constructor; cbn.
  - reflexivity.
  - intros n. apply (NInv_ns0 V).
  - intros nd _ H. discriminate.
Qed.

Lemma WInv_init : WInv (w_init V).
Proof. intros j. split; intros H; discriminate H. Qed.

Lemma LInv_init k0 : LInv (ls_init V vr g k0).
Proof.
  unfold ls_init. destruct (poll vr g k0 (w_init V) (ss_init V)) as [ss tasks] eqn:EP.
  apply (LInv_poll k0 (mkLS (ss_init V) (w_init V) [] [] [] [] [] []) ss tasks); [|exact EP].
  constructor; cbn; [exact GInv_init|exact WInv_init|intros n i v H; discriminate H|intros j []|apply TInv_init|intros j []].
Qed.

Lemma run_loop_inv fuel orc (ls : lstate) :
  LInv ls ->
  LInv (o_final (run_loop body fails vr g kmax fuel orc ls))
  /\ o_status (run_loop body fails vr g kmax fuel orc ls) <> Raised.
Proof. apply (run_loop_ind LInv (fun st ls' => LInv ls' /\ st <> Raised) async_step_spec). split; [assumption|discriminate]. Qed.

Theorem run_async_inv orc fuel : LInv (o_final (run_async V body fails vr g kmax orc fuel)).
Proof. apply run_loop_inv, LInv_init. Qed.

Notation run := (run_async V body fails vr g kmax).

Theorem async_safety orc fuel : starts_after_upstream g (event_log (run orc fuel)).
Proof. apply LInv_safety, run_async_inv. Qed.

Theorem async_at_most_once orc fuel : at_most_once (event_log (run orc fuel)).
Proof. apply LInv_at_most_once, run_async_inv. Qed.

Theorem async_concurrency k orc fuel :
  fix16 vr = true -> kmax = Some k -> concurrency_bounded k (event_log (run orc fuel)).
Proof. intros F K. apply conc_rev_spec, (ti_conc (li_t _ (run_async_inv orc fuel)) k F K). Qed.

(* never an exception out of a poll once F14 is repaired *)
Theorem async_never_raises orc fuel : o_status (run orc fuel) <> Raised.
Proof. apply run_loop_inv, LInv_init. Qed.

End Inv.

Arguments li_g {V body fails vr g kmax ls}.
Arguments li_w {V body fails vr g kmax ls}.
Arguments li_v {V body fails vr g kmax ls}.
Arguments li_tasks {V body fails vr g kmax ls}.
Arguments li_t {V body fails vr g kmax ls}.
