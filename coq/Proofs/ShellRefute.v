(* Proofs/ShellRefute.v — the concrete witnesses on which the faithful model (= the unchanged code, see the
   correspondence runs) departs from C22 / C23 at full strength, with the refutation of the two general statements;
   what the model does on three C23 witnesses (a blank, eaten quotes, a rewritten bracket) is evaluated here, on the
   other witnesses in Props/C22.v and Props/C23.v.  Each witness is replayed against pydra by the drivers (corpus). *)
From Pydra Require Import Base.Prelude Base.Shlex Model.Shell Spec.Shell.
Local Open Scope list_scope.
Definition L := la_of.
Definition flag (s : string) : sargstr := SA [[Lit (L s)]] false.
Definition str_field (n a : string) (p : option Z) : sfield := mkS (L n) TStr (flag a) p (L " ").
Definition sv (n v : string) : la * value := (L n, VAtom (AStr (L v))).
Definition echo : exe := EStr (L "echo").

(* F22: explicit position 5 with two unpositioned fields: pydra hands 1 and 2 to b and c, so they come first *)
Definition gap_fields := [str_field "a" "-a" (Some 5%Z); str_field "b" "-b" None; str_field "c" "-c" None].
Definition gap_vals := [sv "a" "A"; sv "b" "B"; sv "c" "C"].
Lemma gap_model : task_argv Functional echo (map to_field gap_fields) gap_vals (AppList [])
                  = Good (map L ["echo"; "-b"; "B"; "-c"; "C"; "-a"; "A"]%string).
Proof. vm_compute. reflexivity. Qed.
Lemma gap_spec : spec_argv echo gap_fields gap_vals [] = map L ["echo"; "-a"; "A"; "-b"; "B"; "-c"; "C"]%string.
Proof. vm_compute. reflexivity. Qed.
Theorem refuted_gap : ~ C22_statement.
Proof.
  intros H. specialize (H Functional echo gap_fields gap_vals []).
  rewrite gap_model, gap_spec in H. specialize (H ltac:(discriminate) eq_refl). vm_compute in H. discriminate H.
Qed.

(* F22b: class form: unpositioned fields are numbered in dir() order (sorted by name), not definition order *)
Definition cls_fields := [str_field "zeta" "-z" None; str_field "alpha" "-a" None; str_field "mid" "-m" None].
Definition cls_vals := [sv "zeta" "Z"; sv "alpha" "A"; sv "mid" "M"].

(* F22c: position 2 and position -1 in a two-field definition are rejected as "overlapping" (-1 is counted as 3 - 1) *)
Definition wrap_fields := [str_field "o" "-o" (Some 2%Z); str_field "m" "-m" (Some (-1)%Z)].

(* F22d: a set field whose value is falsy in Python (0, 0.0, "") contributes nothing *)
Definition zero_fields := [mkS (L "n") TInt (flag "-n") None (L " ")].

(* F22e: '...' with a separator other than a blank glues the separator to each element but the last *)
Definition dots_fields := [mkS (L "r") TList (SA [[Lit (L "-r")]] true) None (L ",")].
Definition dots_vals := [(L "r", VList [AStr (L "1"); AStr (L "2")])].

(* F23: a value with a blank becomes two arguments *)
Definition s_field := str_field "s" "-s" None.
Theorem refuted_space : ~ C23_statement.
Proof.
  intros H. specialize (H s_field [sv "s" "a b"] (L "-s") eq_refl I ltac:(discriminate)).
  vm_compute in H. discriminate H.
Qed.
Example space_splits :
  command_pos_args (to_field s_field) [sv "s" "a b"] = Good (Some (None, map L ["-s"; "a"; "b"]%string)).
Proof. vm_compute. reflexivity. Qed.
(* quotes and backslashes are eaten silently; bracket clean-up rewrites a templated value *)
Example quotes_eaten :
  command_pos_args (to_field s_field) [sv "s" "say ""hi"" \n"] = Good (Some (None, map L ["-s"; "say"; "hi"; "n"]%string)).
Proof. vm_compute. reflexivity. Qed.
Definition t_field := mkS (L "t") TStr (SA [[Lit (L "--t="); Self]] false) None (L " ").
Example bracket_rewritten :
  command_pos_args (to_field t_field) [sv "t" "a[,b"] = Good (Some (None, [L "--t=a[b"])).
Proof. vm_compute. reflexivity. Qed.
