(* C34 — File inputs are staged according to their copy mode (Job.inputs).  See Props/C33.v for
   copy_one / copy_contract / ff_copy. *)
From Pydra Require Import Base.Prelude Model.Mount Model.CopyFiles Spec.CopyFiles Proofs.CopyFiles.

(* for every mount table, job directory (whatever it already holds), file system and list of fields
   (type gate, copy mode, value): if the files exist and each requested mode can be realised on the mounts,
   staging succeeds and meets the spec [staged] (shape and non-file values, class, a way permitted by
   the mode and the mounts with its observable behaviour — copy independent, link shows the original —,
   one FileSet.copy per distinct file-set of a field, nothing existing altered) *)
Definition C34_full_statement : Prop :=
  forall (tab : table) (dest : string) (fs0 : fsT) (fields : list field),
    fields_ready tab dest fs0 fields ->
    exists outs fs1 av, job_inputs ff_copy tab dest fields fs0 = Ok (outs, fs1, av)
                        /\ staged tab dest fs0 fs1 fields (counts outs).

Theorem C34_full : C34_full_statement.
Proof.
  intros tab dest fs0 fields S. destruct (job_inputs_total tab dest fs0 fields S) as [[[outs fs1] av] R].
  exists outs, fs1, av. split; [exact R|]. eapply job_fields_staged; eauto using ff_copy_contract, fields_ready_exist.
Qed.
Print Assumptions C34_full.

Theorem C34_staged :
  forall copy_one, copy_contract copy_one ->
  forall tab dest fs0 fields outs fs1 av,
    (forall fd f, In fd fields -> is_staged fd = true -> In f (leaves (fd_value fd)) -> ino_of fs0 (snd f) <> None) ->
    job_inputs copy_one tab dest fields fs0 = Ok (outs, fs1, av) ->
    staged tab dest fs0 fs1 fields (counts outs).
Proof. intros copy_one HC tab dest fs0 fields. apply job_fields_staged, HC. Qed.
Print Assumptions C34_staged.

Theorem C34_shape :
  forall copy_one, copy_contract copy_one ->
  forall tab dest fs0 fields outs fs1 av,
    (forall fd f, In fd fields -> is_staged fd = true -> In f (leaves (fd_value fd)) -> ino_of fs0 (snd f) <> None) ->
    job_inputs copy_one tab dest fields fs0 = Ok (outs, fs1, av) ->
    Forall2 (fun fd o => same_shape (fd_value fd) (fst o) = true) fields (counts outs).
Proof. intros. eapply g_shape, job_fields_staged; eauto. Qed.
Print Assumptions C34_shape.

Theorem C34_once :
  forall copy_one, copy_contract copy_one ->
  forall tab dest fs0 fields outs fs1 av,
    (forall fd f, In fd fields -> is_staged fd = true -> In f (leaves (fd_value fd)) -> ino_of fs0 (snd f) <> None) ->
    job_inputs copy_one tab dest fields fs0 = Ok (outs, fs1, av) ->
    forall fd o, In (fd, o) (combine fields (counts outs)) -> is_staged fd = true ->
      (forall s1 d1 s2 d2, In (s1, d1) (pairs_of (fd_value fd) (fst o)) ->
                           In (s2, d2) (pairs_of (fd_value fd) (fst o)) -> s1 = s2 -> d1 = d2)
      /\ distinct_count (leaves (fd_value fd)) (snd o).
Proof. intros until 3. eapply g_once, job_fields_staged; eauto. Qed.
Print Assumptions C34_once.

Theorem C34_mode :
  forall copy_one, copy_contract copy_one ->
  forall tab dest fs0 fields outs fs1 av,
    (forall fd f, In fd fields -> is_staged fd = true -> In f (leaves (fd_value fd)) -> ino_of fs0 (snd f) <> None) ->
    job_inputs copy_one tab dest fields fs0 = Ok (outs, fs1, av) ->
    forall fd o, In (fd, o) (combine fields (counts outs)) -> is_staged fd = true ->
    forall s d, In (s, d) (pairs_of (fd_value fd) (fst o)) ->
      fst d = fst s /\
      exists w, allowed w (fd_mode fd) = true /\ mount_ok tab dest w s /\ behaves w dest fs0 fs1 s d.
Proof. intros until 3. eapply g_mode, job_fields_staged; eauto. Qed.
Print Assumptions C34_mode.

Theorem C34_total :
  forall tab dest fs0 fields, fields_ready tab dest fs0 fields ->
  exists r, job_inputs ff_copy tab dest fields fs0 = Ok r.
Proof. exact job_inputs_total. Qed.
Print Assumptions C34_total.

(* the engine later writes `_result.pklz` etc. into the job directory: no staged file has a reserved name, the
   name is still free after staging, and writing it touches nothing else *)
Theorem C34_save_safe :
  forall copy_one, copy_contract copy_one ->
  forall tab dest fs0 fields outs fs1 av n c,
    (forall fd f, In fd fields -> is_staged fd = true -> In f (leaves (fd_value fd)) -> ino_of fs0 (snd f) <> None) ->
    job_inputs copy_one tab dest fields fs0 = Ok (outs, fs1, av) ->
    In n reserved_names -> ino_of fs0 (dest, n) = None ->
    ino_of fs1 (dest, n) = None
    /\ (forall q, q <> (dest, n) -> read (dump fs1 (dest, n) c) q = read fs1 q)
    /\ forall fd o, In (fd, o) (combine fields outs) -> is_staged fd = true ->
         forall s d, In (s, d) (pairs_of (fd_value fd) (fst o)) -> snd d <> (dest, n) /\ snd s <> (dest, n).
Proof. intros until 3. intros I N. eapply job_fields_then_dump; eauto using reserved_in_seed. Qed.
Print Assumptions C34_save_safe.
