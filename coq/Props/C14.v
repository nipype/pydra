(* C14 — a failing job never stops independent jobs (asynchronous loop). *)
From Pydra Require Import Base.Prelude Base.SchedBase Model.Sched Spec.Sched Proofs.SchedF Proofs.SchedH Proofs.SchedTermA.

(* The property for the model of a given code variant: whatever the oracle (completion order,
   jobs seen running), no exception escapes the scheduling loop, and a run that ends by itself has
   executed exactly the jobs that are not downstream of a failing job and reports exactly the
   jobs that failed. *)
Definition C14_statement (vr : variant) : Prop :=
  forall (V : Type) (body : nat -> nat -> list (list (option V)) -> V) (fails : job -> bool)
         (g : graph) (kmax : option nat) (orc : list oracle_step) (fuel : nat),
    wf_graph g ->
    let o := run_async V body fails vr g kmax orc fuel in
    o_status o <> Raised /\ (o_status o = Finished -> c14_outcome g fails (launches o) (error_names o)).

Definition C14_full_statement : Prop := C14_statement repaired.

Theorem C14_full : C14_full_statement.
Proof.
  intros V body fails g kmax orc fuel WF. split.
  - apply async_never_raises; auto.
  - apply async_c14; auto.
Qed.
Print Assumptions C14_full.

(* jobs that depend on a failed job are never executed — at any moment of any run, not only at the end *)
Theorem C14_never_downstream :
  forall (V : Type) (body : nat -> nat -> list (list (option V)) -> V) (fails : job -> bool)
         (vr : variant) (g : graph) (kmax : option nat) (orc : list oracle_step) (fuel : nat),
    fix14 vr = true -> wf_graph g ->
    forall j, In j (launches (run_async V body fails vr g kmax orc fuel)) -> should_run g fails j.
Proof. intros. eapply async_launched_should_run; eauto. Qed.
Print Assumptions C14_never_downstream.

(* Finding F14 (repaired by a fix: commit): on the code as pinned the statement is false.
   A, B independent; D after B; E after D.  B completes while A is seen running, then A fails:
   update_status raises out of the loop and E — independent of A — is never launched. *)
Definition f14_graph : graph := [mkNode 0 [] 1; mkNode 1 [] 1; mkNode 2 [1] 1; mkNode 3 [2] 1].
Definition f14_oracle : list oracle_step := [mkStep [1] [true]; mkStep [0] []].
Definition f14_fails : job -> bool := fun j => job_eqb j (0, 0).

Theorem C14_refuted_running_then_fail : ~ C14_statement pinned.
Proof.
  intros H.
  destruct (H unit (fun _ _ _ => tt) f14_fails f14_graph None f14_oracle 20 eq_refl) as [A _].
  apply A. vm_compute. reflexivity.
Qed.
Print Assumptions C14_refuted_running_then_fail.

Example C14_pinned_witness_detail :
  let o := run_async unit (fun _ _ _ => tt) f14_fails pinned f14_graph None f14_oracle 20 in
  o_status o = Raised /\ launches o = [(0, 0); (1, 0); (2, 0)] /\ should_run_b f14_graph f14_fails (3, 0) = true.
Proof. vm_compute. repeat split. Qed.

(* the same oracle on the repaired code: every independent job runs, the error names the failed job *)
Example C14_repaired_same_oracle :
  let o := run_async unit (fun _ _ _ => tt) f14_fails repaired f14_graph None f14_oracle 20 in
  o_status o = Finished /\ launches o = [(0, 0); (1, 0); (2, 0); (3, 0)] /\ error_names o = [(0, 0)].
Proof. vm_compute. repeat split. Qed.

(* Total version (termination with failing jobs: Proofs/SchedTermA.v, async_terminates_full).
   For every oracle, every failing set, max_concurrent >= 1 or none, fuel >= |jobs| + 2, the run ENDS:
   - Finished: exactly the jobs not downstream of a failure were launched, the error names exactly the
     failed jobs (c14_outcome);
   - Stalled (the ten-poll stall detector fired: only possible while more than ten nodes still have to
     be marked unrunnable / have zero jobs, one per poll): every launched job was allowed to run
     (none is downstream of a failure), every job named in the error is a failed job that was launched;
     NOT claimed in this case: that every job not downstream of a failure has been launched.
   It never ends by an exception out of a poll and never runs out of fuel. *)
Definition C14_total_statement (vr : variant) : Prop :=
  forall (V : Type) (body : nat -> nat -> list (list (option V)) -> V) (fails : job -> bool)
         (g : graph) (kmax : option nat) (orc : list oracle_step) (fuel : nat),
    wf_graph g -> (forall k, kmax = Some k -> 1 <= k) -> List.length (all_jobs g) + 2 <= fuel ->
    let o := run_async V body fails vr g kmax orc fuel in
    (o_status o = Finished /\ c14_outcome g fails (launches o) (error_names o))
    \/ (o_status o = Stalled
        /\ (forall j, In j (launches o) -> should_run g fails j)
        /\ (forall j, In j (error_names o) -> should_fail g fails j /\ In j (launches o))).

Theorem C14_full_total : C14_total_statement repaired.
Proof.
  intros V body fails g kmax orc fuel WF KP B o.
  destruct (async_terminates_full V body fails repaired eq_refl g WF kmax KP orc fuel B) as [S|S].
  - left. split; [exact S|]. apply async_c14; auto.
  - right. split; [exact S|split].
    + intros j Hj. apply (async_launched_should_run V body fails repaired eq_refl g WF kmax orc fuel j Hj).
    + intros j Hj. apply (async_errors_should_fail V body fails repaired eq_refl g WF kmax orc fuel j Hj).
Qed.
Print Assumptions C14_full_total.

(* both disjuncts occur: the F14 graph ends Finished; a failing source followed by a chain of twelve nodes
   trips the stall detector (the source ran and is the one error; nothing downstream was launched) *)
Definition stall_chain : graph := mkNode 0 [] 1 :: map (fun i => mkNode (S i) [i] 1) (seq 0 12).
Example C14_total_nonvacuous :
  (wf_graph f14_graph /\ List.length (all_jobs f14_graph) + 2 <= 20
   /\ o_status (run_async unit (fun _ _ _ => tt) f14_fails repaired f14_graph None f14_oracle 20) = Finished)
  /\ (wf_graph stall_chain /\ List.length (all_jobs stall_chain) + 2 <= 15
      /\ let o := run_async unit (fun _ _ _ => tt) f14_fails repaired stall_chain None [] 15 in
         o_status o = Stalled /\ launches o = [(0, 0)] /\ error_names o = [(0, 0)]).
Proof. vm_compute. repeat split; repeat constructor. Qed.
