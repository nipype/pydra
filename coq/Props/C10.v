(* C10 — Concurrent submitters of one job share a single execution. *)
From Pydra Require Import Base.Prelude.
From Pydra Require Import Model.CacheProto Spec.CacheProto Proofs.CacheProto Proofs.CacheProtoC10
  Proofs.CacheProtoSpec.

(* The property on the model: every interleaving (trace) of any number of processes submitting the task any
   number of times -- body succeeds, nobody is killed, nobody asks for a rerun, with or without a result at the
   start -- leaves observations that meet the C10 spec. *)
Definition C10_full_statement : Prop :=
  forall pickle unpickle, codec_ok pickle unpickle ->
  forall bv pre tr s pids,
    clean_trace tr = true -> run pickle unpickle bv (init bv pre) tr = Some s ->
    c10_spec bv (observe_g s pids) (map (observe_p s) pids).

Theorem C10_once : C10_full_statement.
Proof. intros pickle unpickle C bv pre tr s pids. now apply c10_model_meets_spec. Qed.
Print Assumptions C10_once.

(* at most one live process between acquire and release: every trace, crashes and exceptions included *)
Theorem C10_mutex :
  forall pickle unpickle bv pre tr s p q,
    run pickle unpickle bv (init bv pre) tr = Some s ->
    alive s p -> alive s q ->
    holds (pc (procs s p)) = true -> holds (pc (procs s q)) = true -> p = q.
Proof. exact mutex. Qed.
Print Assumptions C10_mutex.

(* every submitter that got an answer got the body's value -- also when other submitters were killed *)
Theorem C10_same_outputs :
  forall pickle unpickle, codec_ok pickle unpickle ->
  forall bv pre tr s p o,
    det_trace tr = true -> run pickle unpickle bv (init bv pre) tr = Some s ->
    ret (procs s p) = Some o -> o = good bv.
Proof. intros pickle unpickle (H1 & H2 & H3) bv pre tr s p o. now apply same_outputs. Qed.
Print Assumptions C10_same_outputs.

(* without kills a partially written result exists only while its writer holds the lock: the check under the
   lock never sees one; at the caller's final read either the whole value is there and nobody is writing, or
   another process holds the lock and is writing *)
Theorem C10_no_partial_read :
  forall pickle unpickle, codec_ok pickle unpickle ->
  forall bv pre tr s p,
    clean_trace tr = true -> run pickle unpickle bv (init bv pre) tr = Some s ->
    (pc (procs s p) = Locked -> is_writing (resf (gl s)) = false) /\
    (pc (procs s p) = RelHit \/ pc (procs s p) = Post2 ->
       load_result pickle unpickle (gl s) = Some (ok bv) /\ is_writing (resf (gl s)) = false \/
       exists h, h <> p /\ lock (gl s) = Some h /\ writing (pc (procs s h)) = true).
Proof. intros pickle unpickle (H1 & H2 & H3) bv pre tr s p. now apply no_partial_read. Qed.
Print Assumptions C10_no_partial_read.

(* whatever anybody reads back from the result file at any moment, kills included, is the body's value *)
Theorem C10_read_sound :
  forall pickle unpickle, codec_ok pickle unpickle ->
  forall bv pre tr s r,
    det_trace tr = true -> run pickle unpickle bv (init bv pre) tr = Some s ->
    load_result pickle unpickle (gl s) = Some r -> r = ok bv.
Proof. intros pickle unpickle (H1 & H2 & H3) bv pre tr s r. now apply read_sound. Qed.
Print Assumptions C10_read_sound.

(* the codec hypotheses are satisfiable *)
Example C10_codec_example : codec_ok toy_pickle toy_unpickle.
Proof. exact toy_codec_ok. Qed.
