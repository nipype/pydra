(* C07 — identical computations map to the same cache identity in every session. *)
From Coq Require Import Sorting.Permutation.
From Pydra Require Import Base.Prelude Model.Hash Spec.Hash Proofs.HashCtx Proofs.HashOrder Proofs.HashRefuted
     Proofs.HashTask Proofs.HashExamples Proofs.HashOrderDeep.
(* What another session can change about equal inputs: the iteration order of every set / frozenset (hash
   randomisation), the insertion order of every dict, and every object identity (pickling round trip, separate
   construction).  That is [session_variant]: same field names, values related by [reorder].  The checksum has no
   cache-root / worker argument at all (Model.Hash.checksum : H -> task type -> fields -> result). *)
Definition C07_full_statement : Prop :=
  forall H ty f1 f2, session_variant f1 f2 -> checksum H ty f1 = checksum H ty f2.

Theorem C07_refuted_frozenset_of_frozensets : ~ C07_full_statement.
Proof. intros S. destruct checksum_seed_dependent as [V N]. exact (N (S toyH' _ _ _ V)). Qed.
Print Assumptions C07_refuted_frozenset_of_frozensets.

(* the value-level form: the two iteration orders of frozenset({frozenset({1,2}), frozenset({3,4})}) *)
Theorem C07_refuted_value : exists a b, reorder a b /\ veq a b /\ digest toyH a <> digest toyH b.
Proof.
  exists po_s1, po_s2. split; [apply ro_fset; apply perm_swap|exact partial_order_iteration_dependent].
Qed.
Print Assumptions C07_refuted_value.

(* the strongest positive statement: whenever `<` is a strict total order on the elements / keys of every set
   and dict inside the inputs (and the inputs have no reference cycles), the checksum is the same in every
   session *)
Theorem C07_seed_independent :
  forall H env1 env2 ty f1 f2,
    session_variant f1 f2 ->
    (forall kv, In kv f1 -> sortable (snd kv) /\ hashable_acyclic H env1 (snd kv)) ->
    (forall kv, In kv f2 -> hashable_acyclic H env2 (snd kv)) ->
    checksum H ty f1 = checksum H ty f2.
Proof. exact checksum_session_independent. Qed.
Print Assumptions C07_seed_independent.

Theorem C07_value_seed_independent :
  forall H f v1 v2, reorder v1 v2 -> sortable v1 -> dig H f v1 tt = dig H f v2 tt.
Proof. exact dig_reorder. Qed.
Print Assumptions C07_value_seed_independent.

(* the sort itself: CPython's small-list algorithm returns the same list for every input order when `<` is a
   strict total order on the pairwise distinct elements; on a partial order it need not (the refutation above) *)
Theorem C07_sorted_order_free :
  forall l1 l2, keys_ok l1 -> Permutation l1 l2 -> sorted_res vlt l1 = sorted_res vlt l2.
Proof. exact sorted_set_perm. Qed.
Print Assumptions C07_sorted_order_free.

(* the checksum depends on the field values only through the digests they have alone *)
Theorem C07_checksum_of_digests :
  forall H env fields, (forall kv, In kv fields -> hashable_acyclic H env (snd kv)) ->
    compute_hash H fields = hash_of_items H (map (fun kv : string * pyval => (fst kv, hex (dg H (snd kv)))) fields).
Proof. exact compute_hash_alone. Qed.
Print Assumptions C07_checksum_of_digests.

Theorem C07_example : forall H,
    session_variant [("x"%string, ex_s1)] [("x"%string, ex_s2)] /\
    (forall kv, In kv [("x"%string, ex_s1)] -> sortable (snd kv) /\ hashable_acyclic H ex_env1 (snd kv)) /\
    (forall kv, In kv [("x"%string, ex_s2)] -> hashable_acyclic H ex_env2 (snd kv)).
Proof. exact ex_session_hyps. Qed.
Print Assumptions C07_example.

(* the same with inputs whose sets are re-ordered at every nesting level at once ([session_variant_deep]: field
   values related by [operm], which carries, per set node, "elements pairwise distinct, totally ordered by `<`, and
   `<` answers alike in both sessions"); nested frozensets that form a chain are inside, incomparable ones (F07) not *)
Theorem C07_seed_independent_deep :
  forall H env1 env2 ty f1 f2,
    session_variant_deep f1 f2 ->
    (forall kv, In kv f1 -> hashable_acyclic H env1 (snd kv)) ->
    (forall kv, In kv f2 -> hashable_acyclic H env2 (snd kv)) ->
    checksum H ty f1 = checksum H ty f2.
Proof. exact checksum_session_independent_deep. Qed.
Print Assumptions C07_seed_independent_deep.

Theorem C07_deep_example : operm nx_v1 nx_v2 /\ session_variant_deep [("x"%string, nx_v1)] [("x"%string, nx_v2)].
Proof. split; [exact nested_operm|]. constructor; [split; [reflexivity|exact nested_operm]|constructor]. Qed.
Print Assumptions C07_deep_example.
