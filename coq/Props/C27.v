(* C27 — Container environments run the native command with remapped, mounted paths. *)
From Pydra Require Import Base.Prelude Model.Container Spec.Container Proofs.Container.

(* The property at full strength, for every task, template, runtime, image, xargs, cache root/dir and
   every root that is empty or a normalised absolute path optionally followed by slashes.
   Since the four fix commits it holds of the model of the current tree. *)
Definition C27_full_statement : Prop :=
  forall (c : config) (fs : list field) (tmpl : list token),
    root_ok (c_root c) = true -> fields_ok fs = true -> NoDup (map f_name fs) ->
    container_spec c fs tmpl (container_argv c fs tmpl).

Theorem C27_full : C27_full_statement.
Proof. exact full. Qed.
Print Assumptions C27_full.

(* every path of every FileSet field has its directory bound at <root><dir>, read-write when the field needs it *)
Theorem C27_mounts_cover : forall root fs cr f p,
  root_ok root = true -> fields_ok fs = true -> In f fs -> In p (paths_of f) ->
  exists m, b_lookup (dir_of p) (fst (get_bindings true root fs cr)) = Some (remap root (dir_of p), m) /\
            (f_rw f = true -> m = true).
Proof.
  intros root fs cr f p Hr Hok Hf Hp. rewrite get_bindings_eq by assumption. cbn [fst]. rewrite final_lookup_spec.
  assert (U : uses_dir (dir_of p) f = true).
  { apply existsb_exists. exists p. split; [exact Hp|apply String.eqb_refl]. }
  unfold required, needs_rw. replace (existsb (uses_dir (dir_of p)) fs) with true by (symmetry; apply existsb_exists; eauto).
  rewrite orb_true_r. eexists. split; [reflexivity|].
  intros Hrw. apply orb_true_iff. right. apply existsb_exists. exists f. now rewrite Hrw, U.
Qed.
Print Assumptions C27_mounts_cover.

(* the cache root is always bound read-write at <root><cache_root> (no hypothesis at all) *)
Theorem C27_cache_root_rw : forall root fs cr,
  b_lookup cr (fst (get_bindings true root fs cr)) = Some (remap root cr, true).
Proof.
  intros. unfold get_bindings. destruct (scan_fields true root fs []) as [b ups]. cbn [fst].
  now rewrite b_lookup_set, String.eqb_refl.
Qed.
Print Assumptions C27_cache_root_rw.

(* the command: the native vector with every host path of a FileSet field replaced by <root>p *)
Theorem C27_paths_remapped : forall root fs tmpl cr,
  root_ok root = true -> fields_ok fs = true -> NoDup (map f_name fs) ->
  instantiate (updated fs (snd (get_bindings true root fs cr))) tmpl = remapped_argv root fs tmpl.
Proof.
  intros. rewrite get_bindings_eq by assumption. now apply instantiate_updated.
Qed.
Print Assumptions C27_paths_remapped.

(* the tree before the fix commits: a later read-only field overwrote the read-write mode … *)
Theorem C27_pinned_refuted_mode_overwrite : ~ pinned_statement.
Proof.
  apply (pinned_missing_mount cfg0 fs_mode tmpl0 "/c/j");
    [reflexivity|reflexivity|exact nodup_fs_mode|reflexivity|vm_compute; reflexivity].
Qed.
Print Assumptions C27_pinned_refuted_mode_overwrite.

(* … and a directory containing a space was split into several arguments *)
Theorem C27_pinned_refuted_space : ~ pinned_statement.
Proof.
  apply (pinned_missing_mount cfg0 fs_space tmpl0 "/data/my study");
    [reflexivity|reflexivity|apply NoDup_cons; [intros []|apply NoDup_nil]|reflexivity|vm_compute; reflexivity].
Qed.
Print Assumptions C27_pinned_refuted_space.
