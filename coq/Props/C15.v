(* C15 — jobs start only after the jobs they consume have succeeded; every job exactly once.
   Both execution loops of pydra.engine.submitter.Submitter, for every oracle (= every completion
   order, several completions per wake-up, every pattern of jobs "seen running"), every
   max_concurrent, every set of failing jobs, every graph listed in topological order. *)
From Pydra Require Import Base.Prelude Base.SchedBase Model.Sched Spec.Sched Proofs.SchedF Proofs.SchedH Proofs.SchedI Proofs.SchedTermA Proofs.SchedO.

Section C15.
Variable V : Type.
Variable body : nat -> nat -> list (list (option V)) -> V.
Variable fails : job -> bool.
Variable vr : variant.
Variable g : graph.
Variable kmax : option nat.
Hypothesis F14 : fix14 vr = true.      (* the model of the code after the F14 repair; see C14.v *)
Hypothesis WF : wf_graph g.

Theorem C15_safety :
  forall orc fuel, starts_after_upstream g (event_log (run_async V body fails vr g kmax orc fuel)).
Proof. intros. apply async_safety; assumption. Qed.

Theorem C15_at_most_once :
  forall orc fuel, at_most_once (event_log (run_async V body fails vr g kmax orc fuel)).
Proof. intros. apply async_at_most_once; assumption. Qed.

Theorem C15_all_run :
  (forall j, fails j = false) ->
  forall orc fuel, o_status (run_async V body fails vr g kmax orc fuel) = Finished ->
  every_job_once g (event_log (run_async V body fails vr g kmax orc fuel)).
Proof. intros. apply async_all_run; assumption. Qed.

Theorem C15_sync_safety :
  forall fuel, starts_after_upstream g (event_log (run_sync V body fails vr g kmax fuel)).
Proof. intros. apply sync_safety; assumption. Qed.

Theorem C15_sync_at_most_once :
  forall fuel, at_most_once (event_log (run_sync V body fails vr g kmax fuel)).
Proof. intros. apply sync_at_most_once; assumption. Qed.

Theorem C15_sync_all_run :
  (forall j, fails j = false) ->
  forall fuel, o_status (run_sync V body fails vr g kmax fuel) = Finished ->
  every_job_once g (event_log (run_sync V body fails vr g kmax fuel)).
Proof. intros. apply sync_all_run; assumption. Qed.

(* Termination included: when no job fails (every node has at least one job, max_concurrent >= 1), for
   EVERY oracle the asynchronous loop ends by itself within |jobs| + 1 iterations, and then every job
   has been launched exactly once and has finished successfully; same for the sequential loop. *)
Hypothesis NF : forall j, fails j = false.
Hypothesis NJ : forall nd, In nd g -> 1 <= njobs nd.
Hypothesis KP : forall k, kmax = Some k -> 1 <= k.

Theorem C15_every_job_exactly_once :
  forall orc fuel, List.length (all_jobs g) + 1 <= fuel ->
  o_status (run_async V body fails vr g kmax orc fuel) = Finished
  /\ every_job_once g (event_log (run_async V body fails vr g kmax orc fuel)).
Proof.
  intros orc fuel B.
  assert (S : o_status (run_async V body fails vr g kmax orc fuel) = Finished) by (apply async_terminates; assumption).
  split; [exact S|apply async_all_run; assumption].
Qed.

Theorem C15_sync_every_job_exactly_once :
  forall fuel, List.length (all_jobs g) + 1 <= fuel ->
  o_status (run_sync V body fails vr g kmax fuel) = Finished
  /\ every_job_once g (event_log (run_sync V body fails vr g kmax fuel)).
Proof.
  intros fuel B.
  assert (S : o_status (run_sync V body fails vr g kmax fuel) = Finished) by (apply sync_terminates; assumption).
  split; [exact S|apply sync_all_run; assumption].
Qed.
End C15.

Print Assumptions C15_safety.
Print Assumptions C15_at_most_once.
Print Assumptions C15_all_run.
Print Assumptions C15_sync_safety.
Print Assumptions C15_sync_at_most_once.
Print Assumptions C15_sync_all_run.
Print Assumptions C15_every_job_exactly_once.
Print Assumptions C15_sync_every_job_exactly_once.

(* Full strength and what is excluded.  The property quantifies over every submission, including a
   second submission with rerun=True over a cache that already holds results.  run_async_warm starts
   the same loop over an arbitrary cache content w0. *)
Definition C15_full_statement : Prop :=
  forall (V : Type) (body : nat -> nat -> list (list (option V)) -> V) (fails : job -> bool)
         (g : graph) (kmax : option nat) (w0 : world V) (orc : list oracle_step) (fuel : nat),
    wf_graph g ->
    starts_after_upstream g (event_log (run_async_warm V body fails repaired g kmax w0 orc fuel)).

(* excluded input class (mirrored by the driver's classifier for finding F15): the cache is warm *)
Definition warm_cache {V : Type} (w0 : world V) : bool :=
  negb (is_nil (results w0)) || negb (is_nil (visible w0)).

(* Finding F15 (known, not repaired): n0, n1 independent, n2 consumes n0; the cache holds a result for
   every job; n1 completes while n0 is still pending: n0's stale result is taken for its completion
   and n2 is launched before n0 finishes. *)
Definition f15_graph : graph := [mkNode 0 [] 1; mkNode 1 [] 1; mkNode 2 [0] 1].
Definition f15_cache : world unit := mkW [((0, 0), Some tt); ((1, 0), Some tt); ((2, 0), Some tt)] [].

Definition f15_run : outcome unit :=
  run_async_warm unit (fun _ _ _ => tt) (fun _ => false) repaired f15_graph None f15_cache [mkStep [1] []] 20.

Theorem C15_refuted_warm_rerun : ~ C15_full_statement.
Proof.
  intros H.
  assert (E : event_log f15_run =
              [ELaunch (0, 0); ELaunch (1, 0); EFinish (1, 0) true; ELaunch (2, 0); EFinish (0, 0) true; EFinish (2, 0) true])
    by (vm_compute; reflexivity).
  assert (B : starts_after_upstream f15_graph (event_log f15_run)).
  { unfold f15_run. apply H. reflexivity. }
  rewrite E in B.
  specialize (B [ELaunch (0, 0); ELaunch (1, 0); EFinish (1, 0) true] (2, 0) [EFinish (0, 0) true; EFinish (2, 0) true]
                eq_refl (0, 0) (or_introl eq_refl)).
  cbn in B. destruct B as [B|[B|[B|[]]]]; discriminate.
Qed.
Print Assumptions C15_refuted_warm_rerun.

Theorem C15_partial :
  forall (V : Type) (body : nat -> nat -> list (list (option V)) -> V) (fails : job -> bool)
         (g : graph) (kmax : option nat) (w0 : world V) (orc : list oracle_step) (fuel : nat),
    wf_graph g -> warm_cache w0 = false ->
    starts_after_upstream g (event_log (run_async_warm V body fails repaired g kmax w0 orc fuel))
    /\ at_most_once (event_log (run_async_warm V body fails repaired g kmax w0 orc fuel)).
Proof.
  intros V body fails g kmax w0 orc fuel WF C.
  assert (E : w0 = w_init V).
  { unfold warm_cache in C. apply orb_false_iff in C. destruct C as [A B].
    destruct w0 as [r v]. cbn in A, B. destruct r; [|discriminate]. destruct v; [|discriminate]. reflexivity. }
  subst w0. split.
  - apply (C15_safety V body fails repaired g kmax eq_refl WF).
  - apply (C15_at_most_once V body fails repaired g kmax eq_refl WF).
Qed.
Print Assumptions C15_partial.

(* Nodes with ZERO jobs (a split over an empty list).  The termination theorems above assume >= 1 job per
   node; for a zero-job node the model says: the poll that starts it returns nothing for it and hides its
   consumers (they break on a node recorded as not started), the sequential loop goes round once more because
   some node is not done, the asynchronous loop polls again inside its stall block (one extra poll per
   consecutive zero-job node, at most ten) — and the consumers are then started.  Safety, at-most-once and the
   Finished-state theorems (C15_all_run, C15_sync_all_run) hold for such graphs as stated (no njobs hypothesis). *)
Example C15_zero_job_node :
  let g := [mkNode 0 [] 1; mkNode 1 [0] 0; mkNode 2 [1] 1; mkNode 3 [2] 1] in
  let rs := run_sync unit (fun _ _ _ => tt) (fun _ => false) repaired g None 20 in
  let ra := run_async unit (fun _ _ _ => tt) (fun _ => false) repaired g None [] 20 in
  o_status rs = Finished /\ launches rs = [(0, 0); (2, 0); (3, 0)]
  /\ o_status ra = Finished /\ launches ra = [(0, 0); (2, 0); (3, 0)].
Proof. vm_compute. repeat split. Qed.

(* the hypotheses are met by the repaired code on a diamond with split nodes, and such a run does
   end by itself (status Finished) with all 7 jobs launched *)
Example C15_hyps_nonvacuous :
  let g := [mkNode 0 [] 2; mkNode 1 [0] 1; mkNode 2 [0] 3; mkNode 3 [1; 2] 1] in
  fix14 repaired = true /\ wf_graph g /\
  o_status (run_async unit (fun _ _ _ => tt) (fun _ => false) repaired g (Some 2)
              [mkStep [1] [true]; mkStep [0; 5] [false; true]] 40) = Finished /\
  List.length (launches (run_async unit (fun _ _ _ => tt) (fun _ => false) repaired g (Some 2)
              [mkStep [1] [true]; mkStep [0; 5] [false; true]] 40)) = 7.
Proof. vm_compute. repeat split. Qed.

(* Nodes with ZERO jobs anywhere, general statements (no hypothesis on the number of jobs of a node).

   Sequential loop: every zero-job node costs one pass that runs nothing, so the bound becomes
   2 * (|jobs| + |nodes|) + 3 passes (potential 2*finished + 2*started empty nodes + [a task is waiting]); then
   the loop has ended by itself and every job ran exactly once.  (C15_sync_every_job_exactly_once, for
   graphs without empty nodes, keeps its tighter bound |jobs| + 1.) *)
Theorem C15_sync_every_job_exactly_once_any :
  forall (V : Type) (body : nat -> nat -> list (list (option V)) -> V) (fails : job -> bool)
         (vr : variant) (g : graph) (kmax : option nat),
    fix14 vr = true -> wf_graph g -> (forall j, fails j = false) -> (forall k, kmax = Some k -> 1 <= k) ->
    forall fuel, 2 * (List.length (all_jobs g) + List.length g) + 3 <= fuel ->
    o_status (run_sync V body fails vr g kmax fuel) = Finished
    /\ every_job_once g (event_log (run_sync V body fails vr g kmax fuel)).
Proof.
  intros V body fails vr g kmax F WF NF KP fuel B.
  assert (S : o_status (run_sync V body fails vr g kmax fuel) = Finished) by (apply sync_terminates_any; assumption).
  split; [exact S|apply sync_all_run; assumption].
Qed.
Print Assumptions C15_sync_every_job_exactly_once_any.

Example C15_sync_any_nonvacuous :
  let g := [mkNode 0 [] 0; mkNode 1 [0] 0; mkNode 2 [1] 2; mkNode 3 [] 1; mkNode 4 [2; 3] 0; mkNode 5 [4] 1] in
  wf_graph g /\ 2 * (List.length (all_jobs g) + List.length g) + 3 <= 23
  /\ o_status (run_sync unit (fun _ _ _ => tt) (fun _ => false) repaired g (Some 1) 23) = Finished
  /\ launches (run_sync unit (fun _ _ _ => tt) (fun _ => false) repaired g (Some 1) 23) = [(2, 0); (2, 1); (3, 0); (5, 0)].
Proof. vm_compute. repeat split; repeat constructor. Qed.

(* Asynchronous loop: WITHOUT a hypothesis on empty nodes the corresponding statement is FALSE.  Each
   zero-job node met while nothing is pending costs one poll of the stall block, and the stall detector
   gives up after ten: eleven consecutive empty nodes end the run Stalled although no job fails, and their
   consumer is never launched.  (On the real code the same workflow, 12 empty nodes under an asynchronous
   worker, fails inside the stall detector's message builder: TypeError 'NoneType' object is not iterable;
   the debug worker runs it.)  What does hold without the hypothesis: the run ends Finished or Stalled
   (C14_full_total / SchedTermA.async_terminates_full), and C15_safety / C15_at_most_once / C15_all_run. *)
Definition C15_async_any_statement : Prop :=
  forall (V : Type) (body : nat -> nat -> list (list (option V)) -> V) (g : graph) (kmax : option nat)
         (orc : list oracle_step) (fuel : nat),
    wf_graph g -> (forall k, kmax = Some k -> 1 <= k) ->
    2 * (List.length (all_jobs g) + List.length g) + 3 <= fuel ->
    o_status (run_async V body (fun _ => false) repaired g kmax orc fuel) = Finished.

Definition zero_chain : graph :=
  map (fun i => mkNode i (match i with 0 => [] | S p => [p] end) 0) (seq 0 11) ++ [mkNode 11 [10] 1].

Theorem C15_async_zero_chain_refuted : ~ C15_async_any_statement.
Proof.
  intros H.
  pose proof (H unit (fun _ _ _ => tt) zero_chain None [] 40 eq_refl) as B.
  assert (S : o_status (run_async unit (fun _ _ _ => tt) (fun _ => false) repaired zero_chain None [] 40) = Stalled)
    by (vm_compute; reflexivity).
  rewrite S in B. assert (X : Stalled = Finished); [|discriminate X].
  apply B; [intros k E; discriminate E|vm_compute; repeat constructor].
Qed.
Print Assumptions C15_async_zero_chain_refuted.

Example C15_async_zero_chain_detail :
  let o := run_async unit (fun _ _ _ => tt) (fun _ => false) repaired zero_chain None [] 40 in
  o_status o = Stalled /\ launches o = [] /\ mem_job (11, 0) (all_jobs zero_chain) = true.
Proof. vm_compute. repeat split. Qed.

(* Positive counterpart of C15_async_zero_chain_refuted.  The stall block polls at most eleven times and
   gives up when ten polls in a row (nothing launched, nothing pending) returned no job; without failing
   jobs such a poll always starts a node with ZERO jobs that was not started before (Proofs/SchedK.v,
   poll_makes_progress).  Side condition the proof needs, computable on the graph: fewer than ten empty nodes
   (empty_nodes g <= stall_limit - 2 with stall_limit = 11, the argument of stall_loop) — it bounds every run
   of consecutive empty polls, whatever chains the empty nodes form.  Then, for EVERY oracle, |jobs| + 2
   iterations suffice, the run ends Finished, and every job is launched exactly once and finishes. *)
Definition empty_nodes (g : graph) : nat := List.length (filter (fun nd => njobs nd =? 0) g).
Definition stall_limit : nat := 11.

Theorem C15_async_every_job_exactly_once_bounded_empty :
  forall (V : Type) (body : nat -> nat -> list (list (option V)) -> V) (fails : job -> bool)
         (vr : variant) (g : graph) (kmax : option nat),
    fix14 vr = true -> wf_graph g -> (forall j, fails j = false) -> (forall k, kmax = Some k -> 1 <= k) ->
    empty_nodes g + 2 <= stall_limit ->
    forall orc fuel, List.length (all_jobs g) + 2 <= fuel ->
    o_status (run_async V body fails vr g kmax orc fuel) = Finished
    /\ every_job_once g (event_log (run_async V body fails vr g kmax orc fuel)).
Proof.
  intros V body fails vr g kmax F WF NF KP EZ orc fuel B.
  assert (S : o_status (run_async V body fails vr g kmax orc fuel) = Finished).
  { apply (async_terminates_bounded_empty V body fails vr F g WF kmax NF KP); [exact EZ|exact B]. }
  split; [exact S|apply async_all_run; assumption].
Qed.
Print Assumptions C15_async_every_job_exactly_once_bounded_empty.

(* non-vacuity: three empty nodes (two of them consecutive), k = 1, an oracle with multi-completions;
   and the side condition is sharp in kind: zero_chain has 11 empty nodes and is the refutation above *)
Example C15_bounded_empty_nonvacuous :
  let g := [mkNode 0 [] 0; mkNode 1 [0] 0; mkNode 2 [1] 2; mkNode 3 [] 1; mkNode 4 [2; 3] 0; mkNode 5 [4] 1] in
  let o := run_async unit (fun _ _ _ => tt) (fun _ => false) repaired g (Some 1) [mkStep [1; 0] [true]] 6 in
  wf_graph g /\ empty_nodes g = 3 /\ List.length (all_jobs g) + 2 <= 6
  /\ o_status o = Finished /\ List.length (launches o) = 4 /\ empty_nodes zero_chain = 11.
Proof. vm_compute. repeat split; repeat constructor. Qed.
