(* C24 — The displayed command line is a faithful rendering of the executed argv. *)
From Pydra Require Import Base.Prelude Base.Shlex Model.Shell Spec.Shell Proofs.Shlex Proofs.ShellCmdline.

Definition C24_full_statement : Prop := C24_statement.

(* the unchanged code violates it: ["echo"; "it's"] is displayed as  echo it's  (finding F24) *)
Theorem C24_refuted : ~ C24_full_statement.
Proof. exact cmdline_refuted. Qed.
Print Assumptions C24_refuted.

(* strongest positive statement about the unchanged rendering: for every task whose executed vector starts with a
   bare word and whose other arguments are bare non-empty words or contain a blank but no single quote *)
Theorem C24_partial : forall fm e fields vals app argv cl,
  task_argv fm e fields vals app = Good argv ->
  task_cmdline fm e fields vals app = Good cl ->
  c24_in_domain argv = true ->
  split_la cl = Ok argv.
Proof.
  intros fm e fields vals app argv cl Ha Hc Hd. rewrite (task_cmdline_is_render _ _ _ _ _ _ Ha) in Hc. injection Hc as <-.
  now apply cmdline_resplits.
Qed.
Print Assumptions C24_partial.

Example C24_partial_nontrivial :
  c24_in_domain (map la_of ["echo"; "-s"; "a$b*;"; "two words"; "tab	and ""dq"" \ inside a blank arg"]%string) = true.
Proof. vm_compute. reflexivity. Qed.

(* the repair candidate: CPython's shlex.join / shlex.quote round-trips every argument vector *)
Theorem C24_roundtrip_quoted : forall args : list la, split_la (join args) = Ok args.
Proof. exact split_join_roundtrip. Qed.
Print Assumptions C24_roundtrip_quoted.

Theorem C24_roundtrip_quoted_strings : forall l : list string, split (join_s l) = SOk l.
Proof. exact split_join_roundtrip_s. Qed.
Print Assumptions C24_roundtrip_quoted_strings.
