(* C37 — Graph operations keep a valid topological order (pydra/engine/graph.py, DiGraph). *)
From Pydra Require Import Base.Prelude Model.Graph Spec.Graph
  Proofs.GraphSort Proofs.GraphInv Proofs.GraphEdges Proofs.GraphTopo Proofs.GraphLive Proofs.GraphWf Proofs.GraphWf2.
Local Open Scope nat_scope.

(* Every history of DiGraph operations — constructor, then any list of add_nodes / add_edges /
   remove_nodes / remove_nodes_connections / remove_previous_connections /
   remove_successors_nodes / sorting / sorted_nodes / copy calls, none of which raised, and in
   which add_nodes was only given nodes that are not marked for removal and that no recorded edge
   points to — leaves a graph whose recorded order, if any, lists every remaining node exactly
   once and puts the source of every edge between remaining nodes before its target.
   No acyclicity hypothesis is needed: on a cyclic graph sorting raises (repair F18), and a
   history containing a raising call is not a history that returned. *)
Definition C37_full_statement : Prop :=
  forall (ns : list node) (es : list edge) (ops : list op) (g0 g : graph),
    init ns es = Ok g0 -> run_dom g0 ops = true -> run g0 ops = Ok g ->
    forall s, g_sorted g = Some s -> topo_valid (g_nodes g) (g_edges g) s.

Theorem C37_reachable : C37_full_statement.
Proof.
  intros ns es ops g0 g Hi Hd Hr s E. eapply sorted_valid_edges; [|exact E].
  eapply run_inv2; [|exact Hd|exact Hr]. eapply init_inv2; eauto.
Qed.
Print Assumptions C37_reachable.

(* Without any condition on the calls: the recorded order is valid for the connections recorded
   in the predecessors dictionary (what the submitter reads). *)
Theorem C37_reachable_preds :
  forall (ns : list node) (es : list edge) (ops : list op) (g0 g : graph),
    init ns es = Ok g0 -> run g0 ops = Ok g ->
    forall s, g_sorted g = Some s -> topo_valid (g_nodes g) (pred_edges (g_preds g)) s.
Proof.
  intros ns es ops g0 g Hi Hr s E. eapply sorted_valid_preds; [|exact E].
  eapply run_inv; [|exact Hr]. eapply init_inv; eauto.
Qed.
Print Assumptions C37_reachable_preds.

(* One step: the invariant (order valid, predecessors[b] lists a as often as (a,b) is an edge,
   nodes have dictionary entries, no node is both present and marked for removal) is kept by every
   operation that returns. *)
Theorem C37_inv_step :
  forall g o g', inv2 g -> dom_ok g o = true -> step g o = Ok g' ->
                 inv2 g' /\ sorted_ok g' /\ sorted_ok_preds g'.
Proof. exact step_keeps_valid_order. Qed.
Print Assumptions C37_inv_step.

(* sorting alone, from any state whatsoever *)
Theorem C37_sorting_sound :
  forall g presorted g', sorting g presorted = Ok g' ->
    exists l, g' = set_sorted g (Some l) /\
      Permutation.Permutation l (if nonempty presorted then presorted else g_nodes g) /\
      forall a b, In a (if nonempty presorted then presorted else g_nodes g) ->
                  In b (if nonempty presorted then presorted else g_nodes g) ->
                  inW (g_preds g) b a -> before a b l.
Proof. exact sorting_sound. Qed.
Print Assumptions C37_sorting_sound.

(* The hypotheses are met by non-trivial histories: the diamond of test_graph.py, one removal
   through the head-of-list fast path, one through the re-sorting path, a re-added node. *)
Example C37_example :
  let ops := [AddNodes [4]; AddEdges [(3, 4)]; GetSorted; RemoveNodes [0] true; RemoveNodesConnections [0];
              AddNodes [0]; AddEdges [(4, 0)]; RemoveNodes [2] true; RemoveNodesConnections [2]] in
  exists g0 g, init [0; 1; 2; 3] [(0, 1); (0, 2); (1, 3); (2, 3)] = Ok g0 /\
               run_dom g0 ops = true /\ run g0 ops = Ok g /\
               g_sorted g = Some [1; 3; 4; 0] /\ g_nodes g = [1; 3; 4; 0].
Proof.
  (* the constructor is evaluated first, so that the history is run on a closed term *)
  eexists. eexists. split; [vm_compute; reflexivity|]. split; [vm_compute; reflexivity|].
  split; [vm_compute; reflexivity|]. split; reflexivity.
Qed.

(* A well-formed remove_nodes call succeeds.  [wf_state]: the order invariant, consistent
   dictionaries ([consistent]: predecessors / successors list exactly the edges, every recorded
   node has its entries, no connection to an unknown node) and acyclic connections among all
   recorded nodes.  The precondition is the computable one of the executable reference reading
   (Spec.Graph.pre_opb): distinct nodes of the graph, and with check_ready no remaining
   predecessor.  Then the model returns (no exception value), the result is again well-formed,
   and C37_reachable's conclusion holds for it: a history of well-formed remove_nodes calls
   never raises and always leaves a valid order. *)
Theorem C37_wellformed_remove_nodes_succeeds :
  forall g l check_ready,
    wf_state g -> inv2 g -> pre_opb g (RemoveNodes l check_ready) = true ->
    exists g', step g (RemoveNodes l check_ready) = Ok g' /\ wf_state g' /\ inv2 g' /\
               sorted_ok g' /\ sorted_ok_preds g'.
Proof.
  intros g l c W I2 P. destruct (remove_nodes_succeeds g l c W (pre_removal_of_spec _ _ _ _ P)) as [g' [H W']].
  exists g'. split; [exact H|]. split; [exact W'|]. exact (step_keeps_valid_order g (RemoveNodes l c) g' I2 eq_refl H).
Qed.
Print Assumptions C37_wellformed_remove_nodes_succeeds.

(* combined, for whole histories of such calls on a constructed acyclic graph *)
Fixpoint removals_ok (g : graph) (calls : list (list node * bool)) : bool :=
  match calls with
  | [] => true
  | (l, c) :: r => pre_opb g (RemoveNodes l c) &&
                   match step g (RemoveNodes l c) with Ok g' => removals_ok g' r | Err _ => true end
  end.

Theorem C37_wellformed_removals_never_raise :
  forall ns es g0 calls,
    init ns es = Ok g0 -> acyclic ns es -> removals_ok g0 calls = true ->
    exists g, run g0 (map (fun lc => RemoveNodes (fst lc) (snd lc)) calls) = Ok g /\ sorted_ok g /\ sorted_ok_preds g.
Proof.
  intros ns es g0 calls Hi Ha H. apply (wellformed_removal_history ns es g0 _ Hi Ha).
  apply (remove_nodes_history_ok removals_ok); [intros g l c r; reflexivity|exact H].
Qed.
Print Assumptions C37_wellformed_removals_never_raise.

(* the hypotheses are met: the diamond of test_graph.py, removed front to back, unsorted *)
Example C37_wellformed_example :
  exists g0, init [0; 1; 2; 3] [(0, 1); (0, 2); (1, 3); (2, 3)] = Ok g0 /\
             acyclic [0; 1; 2; 3] [(0, 1); (0, 2); (1, 3); (2, 3)] /\
             removals_ok g0 [([0], true); ([2; 1], false); ([3], false)] = true.
Proof.
  eexists. split; [vm_compute; reflexivity|]. split; [|vm_compute; reflexivity].
  apply (order_acyclicb _ _ [0; 1; 2; 3]). reflexivity.
Qed.

(* Well-formed remove_nodes_connections and remove_previous_connections calls succeed.
   [wf2] = [wf_state] plus: the keys of `successors` are unique, and a node marked for removal still
   has its `predecessors` entry.  Preconditions: Spec.Graph.pre_opb (distinct nodes that are marked
   for removal; no remaining predecessor for remove_nodes_connections, no remaining successor for
   remove_previous_connections).  Each theorem covers exactly the operation it names;
   remove_successors_nodes is NOT covered. *)
Theorem C37_wellformed_remove_nodes_connections_succeeds :
  forall g l, wf2 g -> inv2 g -> pre_opb g (RemoveNodesConnections l) = true ->
    exists g', step g (RemoveNodesConnections l) = Ok g' /\ wf2 g' /\ inv2 g' /\ sorted_ok g' /\ sorted_ok_preds g'.
Proof. intros g l W I P. exact (wellformed_removal_step g (RemoveNodesConnections l) W eq_refl P). Qed.
Print Assumptions C37_wellformed_remove_nodes_connections_succeeds.

Theorem C37_wellformed_remove_previous_connections_succeeds :
  forall g l, wf2 g -> inv2 g -> pre_opb g (RemovePreviousConnections l) = true ->
    exists g', step g (RemovePreviousConnections l) = Ok g' /\ wf2 g' /\ inv2 g' /\ sorted_ok g' /\ sorted_ok_preds g'.
Proof. intros g l W I P. exact (wellformed_removal_step g (RemovePreviousConnections l) W eq_refl P). Qed.
Print Assumptions C37_wellformed_remove_previous_connections_succeeds.

Theorem C37_wellformed_remove_nodes_keeps_wf2 :
  forall g l c, wf2 g -> inv2 g -> pre_opb g (RemoveNodes l c) = true ->
    exists g', step g (RemoveNodes l c) = Ok g' /\ wf2 g' /\ inv2 g' /\ sorted_ok g' /\ sorted_ok_preds g'.
Proof. intros g l c W I P. exact (wellformed_removal_step g (RemoveNodes l c) W eq_refl P). Qed.
Print Assumptions C37_wellformed_remove_nodes_keeps_wf2.

(* C37_wellformed_removals_never_raise extended to histories mixing the three operations:
   constructor with acyclic edges, then any list of remove_nodes / remove_nodes_connections /
   remove_previous_connections calls each meeting its precondition in the state it is made in
   ([history_ok], computable) — never raises, ends with a valid order. *)
Theorem C37_wellformed_removal_history_never_raises :
  forall ns es g0 ops,
    init ns es = Ok g0 -> acyclic ns es -> history_ok g0 ops = true ->
    exists g, run g0 ops = Ok g /\ sorted_ok g /\ sorted_ok_preds g.
Proof. exact wellformed_removal_history. Qed.
Print Assumptions C37_wellformed_removal_history_never_raises.

(* met by the protocol of test_graph.py on the diamond: remove + disconnect, layer by layer *)
Example C37_wellformed_history_example :
  exists g0, init [0; 1; 2; 3] [(0, 1); (0, 2); (1, 3); (2, 3)] = Ok g0 /\
    history_ok g0 [RemoveNodes [0] true; RemoveNodesConnections [0];
                   RemoveNodes [1; 2] true; RemoveNodesConnections [2; 1];
                   RemoveNodes [3] false; RemovePreviousConnections [3]] = true /\
    run g0 [RemoveNodes [0] true; RemoveNodesConnections [0];
            RemoveNodes [1; 2] true; RemoveNodesConnections [2; 1];
            RemoveNodes [3] false; RemovePreviousConnections [3]]
      = Ok (mkG [] [] [] [] None []).
Proof. eexists. split; [vm_compute; reflexivity|]. split; vm_compute; reflexivity. Qed.

(* remove_successors_nodes: the analogue of the three theorems above is FALSE: on the chain
   0->1->2, after remove_nodes(2, check_ready=False) and remove_nodes(0) (a state that is wf2 and
   inv2, and on which Spec.Graph.pre_opb accepts remove_successors_nodes(0)), the call returns, its
   result still has a valid order (C37's own statement holds: C37_reachable covers it), but it is
   no longer well-formed: edge (1,2) and predecessors[2]=[1] stay recorded although node 1 has
   been popped (a follower's successor that is already marked for removal is not itself treated
   as a follower).  Replayed against pydra/engine/graph.py: identical state (design/C37.md).  An
   internal inconsistency after an unusual call order, not a violation of C37. *)
From Pydra Require Import Proofs.GraphWf3.

Theorem C37_wellformed_remove_successors_nodes_refuted :
  exists g g', wf2 g /\ inv2 g /\ pre_opb g (RemoveSuccessorsNodes 0) = true /\
               step g (RemoveSuccessorsNodes 0) = Ok g' /\
               ~ wf2 g' /\ ~ consistent g' /\ sorted_ok g' /\ sorted_ok_preds g'.
Proof.
  exists w_pre, w_post. pose proof w_pre_wf as W. pose proof (wf_state_inv2 _ (proj1 W)) as I.
  destruct (step_keeps_valid_order w_pre (RemoveSuccessorsNodes 0) w_post I eq_refl w_step) as [_ [A B]].
  repeat match goal with |- _ /\ _ => split end; try assumption.
  - vm_compute; reflexivity.
  - exact w_step.
  - intros [[_ [C _]] _]. exact (w_post_not_consistent C).
  - exact w_post_not_consistent.
Qed.
Print Assumptions C37_wellformed_remove_successors_nodes_refuted.

(* the pre-state of the witness is reached from the constructor by two well-formed remove_nodes calls *)
Example C37_refuted_witness_reachable :
  exists g0, init [0; 1; 2] [(0, 1); (1, 2)] = Ok g0 /\
             run g0 [RemoveNodes [2] false; RemoveNodes [0] true] = Ok w_pre.
Proof. eexists. split; vm_compute; reflexivity. Qed.

(* What IS proved for remove_successors_nodes: on a node without successors (the last node of a
   failed branch) it coincides with remove_nodes_connections, hence succeeds and keeps wf2.
   The general positive statement needs a hypothesis excluding the witness above (no follower has
   a successor already marked for removal) and the depth bound of the traversal; not proved. *)
Theorem C37_wellformed_remove_successors_nodes_leaf_partial :
  forall g n, wf2 g -> inv2 g -> pre_opb g (RemoveSuccessorsNodes n) = true ->
    dget (g_succs g) n = Some [] ->
    exists g', step g (RemoveSuccessorsNodes n) = Ok g' /\ wf2 g' /\ inv2 g' /\ sorted_ok g' /\ sorted_ok_preds g'.
Proof.
  intros g n W I P L. destruct (wellformed_removal_step g (RemoveNodesConnections [n]) W eq_refl (pre_leaf g n P))
    as [g' [S R]]. exists g'. split; [|exact R]. cbn [step] in *. rewrite remove_successors_leaf; assumption.
Qed.
Print Assumptions C37_wellformed_remove_successors_nodes_leaf_partial.

Example C37_leaf_example :
  let ops := [RemoveNodes [0] true; RemoveNodesConnections [0]; RemoveNodes [1; 2] true;
              RemoveNodesConnections [2; 1]; RemoveNodes [3] true] in
  let g0 := mkG [0; 1; 2; 3] [(0, 1); (0, 2); (1, 3); (2, 3)] [(0, []); (1, [0]); (2, [0]); (3, [1; 2])]
                [(0, [1; 2]); (1, [3]); (2, [3]); (3, [])] None [] in
  let g := mkG [] [] [(3, [])] [(3, [])] None [3] in
  init [0; 1; 2; 3] [(0, 1); (0, 2); (1, 3); (2, 3)] = Ok g0 /\ history_ok g0 ops = true /\
  run g0 ops = Ok g /\ pre_opb g (RemoveSuccessorsNodes 3) = true /\ dget (g_succs g) 3 = Some [] /\
  step g (RemoveSuccessorsNodes 3) = Ok (mkG [] [] [] [] None []).
Proof. vm_compute. repeat split. Qed.

(* The model's fuel for _checking_successors_nodes (depth = |keys| + 1) is not a hidden
   assumption: whatever the traversal returns with some depth it returns with every larger
   depth, so the bound only fixes where Python's endless recursion is reported as ERecursion. *)
From Pydra Require Import Proofs.GraphFuel.

Theorem C37_successor_traversal_fuel_irrelevant :
  forall d d' sd n l, d <= d' -> succ_all d sd n = Ok l -> succ_all d' sd n = Ok l.
Proof. exact succ_all_fuel_irrelevant. Qed.
Print Assumptions C37_successor_traversal_fuel_irrelevant.

(* A step towards the positive statement for remove_successors_nodes: the followers it removes
   are exactly the nodes of the graph met by the traversal, each once — so every
   remove_nodes(nd, check_ready=False) it issues names a node of the graph not named before. *)
Theorem C37_followers_spec :
  forall ns all, NoDup (collect_followers ns all []) /\
                 (forall x, In x (collect_followers ns all []) <-> In x all /\ In x ns).
Proof.
  intros ns all. destruct (collect_followers_spec ns all [] (NoDup_nil _)) as [N S].
  split; [exact N|]. intros x. rewrite S. cbn [In]. tauto.
Qed.
Print Assumptions C37_followers_spec.

(* the hypothesis is met: the chain 0->1->2 explored from 0 with depth 3 (and hence with depth 4 = |keys|+1) *)
Example C37_fuel_example :
  succ_all 3 [(0, [1]); (1, [2]); (2, [])] 0 = Ok [1; 2] /\
  succ_all 4 [(0, [1]); (1, [2]); (2, [])] 0 = Ok [1; 2] /\
  succ_all 2 [(0, [1]); (1, [2]); (2, [])] 0 = Err ERecursion.
Proof. repeat split; vm_compute; reflexivity. Qed.
