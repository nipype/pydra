(* C09 — File hashes always reflect current file content (pydra/utils/hash.py, persistent hash cache). *)
From Pydra Require Import Base.Prelude Model.FileHash Spec.FileHash Proofs.FileHash.

(* The property at full strength, for the code as it is now (key = inode, mtime, ctime, size of every
   file whose content enters the hash: the file a File resolves to, every regular file at any depth
   below a Directory): for every nesting of directories (parent), for every kernel clock that stamps
   later operations with larger values, every history of writes / utimes / renames / copies / links / unlinks / symlinks / mkdirs interleaved
   with hash requests of any number of processes (each with or without a long-lived PersistentCache
   object, directly or through Task._hash) and cache clean-ups returns, at every hash request, the
   content hash of what the file or directory holds at that moment. *)
Definition C09_full_statement : Prop :=
  forall (parent : name -> option name) (now : nat -> nat), (forall i j, i < j -> now i < now j) ->
    hashes_reflect_content now parent (model_outputs now parent (K_fixed parent)).

Theorem C09_full : C09_full_statement.
Proof. intros parent now H h. exact (fixed_key_outputs now parent H h). Qed.
Print Assumptions C09_full.

(* For ANY file system, ANY key projection K and ANY content hash: if along every history of
   file-system operations a key never comes back with a different content (key_sound), then every
   hash request returns the hash of the current content, and every entry of the shared store and of
   every process' in-memory table equals the content hash of every target carrying its key now. *)
Theorem C09_inv_under_key :
  forall (FS Target Key Digest Fop : Type) (key_eqb : Key -> Key -> bool)
         (texists : Target -> FS -> bool) (K : Target -> FS -> Key) (chash : Target -> FS -> Digest)
         (fstep : FS -> Fop -> FS) (fs0 : FS),
    (forall a b, key_eqb a b = true -> a = b) ->
    key_sound FS Target Key Digest Fop texists K chash fstep fs0 ->
    forall h : list (@gop Target Fop),
      outputs FS Target Key Digest Fop key_eqb texists K chash fstep fs0 h
        = spec_outputs FS Target Digest Fop texists chash fstep fs0 h
      /\ Forall (fun x => entries_current FS Target Key Digest texists K chash (fst x))
                (run_states FS Target Key Digest Fop key_eqb texists K chash fstep (fs0, cempty Key Digest) h).
Proof.
  intros FS Target Key Digest Fop key_eqb texists K chash fstep fs0 He Hs h. split.
  - now apply outputs_correct.
  - now apply store_always_current.
Qed.
Print Assumptions C09_inv_under_key.

(* The key of the current code meets that condition on the Unix model — this is where the
   assumption about st_ctime is used. *)
Theorem C09_ctime_key_sound :
  forall (parent : name -> option name) (now : nat -> nat), (forall i j, i < j -> now i < now j) ->
    key_sound fsys target key digest fop target_exists (K_fixed parent) (content_hash parent)
              (fstep now parent) fs_empty.
Proof. intros parent now H. exact (K_fixed_sound now parent H). Qed.
Print Assumptions C09_ctime_key_sound.

Theorem C09_store_current :
  forall (parent : name -> option name) (now : nat -> nat), (forall i j, i < j -> now i < now j) ->
    forall h : hist,
      Forall (fun x => entries_current fsys target key digest target_exists (K_fixed parent) (content_hash parent) (fst x))
             (model_states now parent (K_fixed parent) h).
Proof.
  intros parent now H h. apply store_always_current; [intros a b; apply key_eqb_spec|exact (K_fixed_sound now parent H)].
Qed.
Print Assumptions C09_store_current.

(* The key before commit 39d1fa1f, (type, paths, lstat mtime_ns), does not have the property. *)
Definition C09_mtime_key_statement : Prop :=
  forall (parent : name -> option name) (now : nat -> nat), (forall i j, i < j -> now i < now j) ->
    hashes_reflect_content now parent (model_outputs now parent K_pinned).

Theorem C09_refuted_mtime_key : ~ C09_mtime_key_statement.
Proof. intros H. exact (pinned_stale_utime (H parent0 now0 now0_strict h_utime)). Qed.
Print Assumptions C09_refuted_mtime_key.

Theorem C09_refuted_mtime_key_histories :
  model_outputs now0 parent0 K_pinned h_rename <> spec_out now0 parent0 h_rename /\
  model_outputs now0 parent0 K_pinned h_copy <> spec_out now0 parent0 h_copy /\
  model_outputs now0 parent0 K_pinned h_dir <> spec_out now0 parent0 h_dir /\
  model_outputs now0 parent0 K_pinned h_symlink <> spec_out now0 parent0 h_symlink /\
  model_outputs now0 parent0 K_pinned h_two_procs <> spec_out now0 parent0 h_two_procs.
Proof. repeat split; vm_compute; discriminate. Qed.
Print Assumptions C09_refuted_mtime_key_histories.

(* A key that stats only a directory's own entries ("a nested directory is covered by its own
   stat") does not have the property either: a file two levels down rewritten in place moves no
   directory stamp. *)
Definition C09_shallow_key_statement : Prop :=
  forall (parent : name -> option name) (now : nat -> nat), (forall i j, i < j -> now i < now j) ->
    hashes_reflect_content now parent (model_outputs now parent (K_shallow parent)).
Theorem C09_refuted_shallow_key : ~ C09_shallow_key_statement.
Proof. intros H. exact (shallow_stale_nested (H parent0 now0 now0_strict h_nested)). Qed.
Print Assumptions C09_refuted_shallow_key.

(* The cache is a cache: a second request with nothing changed in between is answered from the
   store / table and adds nothing (so "never cache" is not what the theorems describe). *)
Theorem C09_cache_effective :
  forall (s : fsys) (cs : cstate key digest) p m t,
    target_exists t s = true ->
    c_store (snd (do_hash fsys target key digest key_eqb target_exists (K_fixed parent0) (content_hash parent0) s
                    (snd (do_hash fsys target key digest key_eqb target_exists (K_fixed parent0) (content_hash parent0) s cs p m t)) p m t))
    = c_store (snd (do_hash fsys target key digest key_eqb target_exists (K_fixed parent0) (content_hash parent0) s cs p m t))
    /\ final_store_size (K_fixed parent0) h_reuse = 2
    /\ List.length (model_outputs now0 parent0 (K_fixed parent0) h_reuse) = 5.
Proof.
  intros s cs p m t E. split; [|split].
  - apply second_hash_is_a_hit; [|exact E]. intros a. apply (proj2 (key_eqb_spec a a)). reflexivity.
  - exact (proj1 (proj2 fixed_reuse_example)).
  - exact (proj1 (proj2 (proj2 fixed_reuse_example))).
Qed.
Print Assumptions C09_cache_effective.

(* Non-vacuity of the hypotheses: a strictly increasing clock exists, and on it the model with the
   current key answers the witness histories of the old key correctly (instances of C09_full). *)
Example C09_clock_example : forall i j, i < j -> now0 i < now0 j.
Proof. exact now0_strict. Qed.
Example C09_full_on_the_old_witnesses :
  model_outputs now0 parent0 (K_fixed parent0) h_utime = spec_out now0 parent0 h_utime /\
  model_outputs now0 parent0 (K_fixed parent0) h_rename = spec_out now0 parent0 h_rename /\
  model_outputs now0 parent0 (K_fixed parent0) h_copy = spec_out now0 parent0 h_copy /\
  model_outputs now0 parent0 (K_fixed parent0) h_dir = spec_out now0 parent0 h_dir /\
  model_outputs now0 parent0 (K_fixed parent0) h_symlink = spec_out now0 parent0 h_symlink /\
  model_outputs now0 parent0 (K_fixed parent0) h_two_procs = spec_out now0 parent0 h_two_procs /\
  model_outputs now0 parent0 (K_fixed parent0) h_nested = spec_out now0 parent0 h_nested.
Proof. repeat apply conj; apply (fixed_key_outputs now0 parent0 now0_strict). Qed.
