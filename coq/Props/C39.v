(* C39 — Lmod environments add module settings to the caller's environment. *)
From Pydra Require Import Base.Prelude Model.Lmod Spec.Lmod Proofs.Lmod.

(* The property at full strength: for every caller environment and every well-formed module-load
   program (any single-line values, quoted and escaped as Python/Lmod do), the command runs with the
   native argument vector in the caller environment overridden by the program's assignments. *)
Definition C39_full_statement : Prop :=
  forall (caller : env) (stmts : list stmt) (argv : list string) (home : string),
    lookup "MODULESHOME"%string caller = Some home -> NoDup (map fst caller) ->
    forallb wf_stmt stmts = true -> str_of (render stmts) <> mlstatus_false ->
    exists child, execute caller (str_of (render stmts)) argv = Ran child argv /\
                  spec_child_env caller stmts child.

(* refuted: a value containing a quote character or a backslash is cut / kept escaped by the scanner *)
Theorem C39_refuted_quote_in_value : ~ C39_full_statement.
Proof.
  intros H.
  destruct (H witness_caller witness_stmts ["cmd"%string] "/opt/lmod"%string eq_refl witness_nodup eq_refl)
    as [child [Hx [_ Hs]]]; [vm_compute; discriminate|].
  vm_compute in Hx. inversion Hx; subst child. specialize (Hs "MSG"%string). vm_compute in Hs. discriminate.
Qed.
Print Assumptions C39_refuted_quote_in_value.

(* strongest positive theorem: excluded class = some assigned value contains a quote character or a backslash (plain_stmt false) *)
Theorem C39_partial :
  forall (caller : env) (stmts : list stmt) (argv : list string) (home : string),
    lookup "MODULESHOME"%string caller = Some home -> NoDup (map fst caller) ->
    forallb wf_stmt stmts = true -> forallb plain_stmt stmts = true ->
    str_of (render stmts) <> mlstatus_false ->
    exists child, execute caller (str_of (render stmts)) argv = Ran child argv /\
                  spec_child_env caller stmts child.
Proof. exact partial. Qed.
Print Assumptions C39_partial.

(* for EVERY text lmod prints: child = caller overridden by the scanned pairs, each variable once *)
Theorem C39_child_env_any_output :
  forall caller out argv child,
    NoDup (map fst caller) -> execute caller out argv = Ran child argv ->
    NoDup (map fst child) /\
    forall k, lookup k child = match last_of (findall out) k with Some v => Some v | None => lookup k caller end.
Proof.
  intros caller out argv child Hnd H. apply execute_ran in H. destruct H as [-> _].
  split; [now apply nodup_set_all| intros k; apply lookup_set_all].
Qed.
Print Assumptions C39_child_env_any_output.

(* variables the modules do not touch are passed through unchanged (any output text) *)
Theorem C39_untouched_pass_through :
  forall caller out argv child k,
    execute caller out argv = Ran child argv ->
    last_of (findall out) k = None -> lookup k child = lookup k caller.
Proof.
  intros caller out argv child k H Hk. apply execute_ran in H. destruct H as [-> _]. now rewrite lookup_set_all, Hk.
Qed.
Print Assumptions C39_untouched_pass_through.

Theorem C39_partial_untouched :
  forall caller stmts argv home child,
    lookup "MODULESHOME"%string caller = Some home ->
    forallb wf_stmt stmts = true -> forallb plain_stmt stmts = true ->
    execute caller (str_of (render stmts)) argv = Ran child argv ->
    forall k, ~ In k (assigned stmts) -> lookup k child = lookup k caller.
Proof.
  intros caller stmts argv home child Hh Hwf Hp Hx k Hk. apply (C39_untouched_pass_through _ _ _ _ _ Hx).
  rewrite findall_render, <- final_last_of by assumption. now apply final_unassigned.
Qed.
Print Assumptions C39_partial_untouched.

Theorem C39_argv_native :
  forall caller out argv child argv', execute caller out argv = Ran child argv' -> argv' = argv.
Proof. intros caller out argv child argv' H. now apply execute_ran in H. Qed.
Print Assumptions C39_argv_native.

Theorem C39_errors :
  forall caller argv,
    (lookup "MODULESHOME"%string caller = None -> forall out, execute caller out argv = ErrNoLmod) /\
    (forall home, lookup "MODULESHOME"%string caller = Some home -> execute caller mlstatus_false argv = ErrModule).
Proof. exact errors. Qed.
Print Assumptions C39_errors.

(* the tree before the fix commit (env = module variables only) violated even the plain class *)
Theorem C39_pinned_refuted_env_dropped : ~ pinned_statement.
Proof.
  intros H.
  destruct (H witness_caller [Assign sty0 "FOO" "bar"]%string ["cmd"%string] "/opt/lmod"%string eq_refl witness_nodup eq_refl eq_refl)
    as [child [Hx [_ Hs]]]; [vm_compute; discriminate|].
  vm_compute in Hx. inversion Hx; subst child. specialize (Hs "HOME"%string). vm_compute in Hs. discriminate.
Qed.
Print Assumptions C39_pinned_refuted_env_dropped.

(* observation (outside the statement, see design/C39.md): an Lmod unset reaches the command as the empty string *)
Theorem C39_unset_reads_as_empty :
  execute [("MODULESHOME", "/m"); ("X", "old"); ("HOME", "/h")]%string unset_text ["cmd"%string]
  = Ran [("MODULESHOME", "/m"); ("X", ""); ("HOME", "/h")]%string ["cmd"%string] /\
  findall unset_text = [("X", "")]%string.
Proof. exact unset_reads_as_empty. Qed.
Print Assumptions C39_unset_reads_as_empty.
