(* C32 — Task definitions survive dictionary round trips. *)
From Pydra Require Import Base.Prelude Model.DictRT Spec.DictRT Proofs.DictRT.
Local Open Scope string_scope.

(* The property at full strength: for every attribute schema (names, defaults, converters — read from the live
   field classes by the driver), every table of type shapes and every class that define() could have built,
   re-creating the class from its dictionary form succeeds and gives the same definition. *)
Definition C32_full_statement : Prop :=
  forall (sch : fclass -> schema) (type_shape : string -> shape) (fresh_position : list frec -> frec -> aval)
         (c : taskcls),
    schema_okb sch = true -> wf_clsb sch c = true ->
    exists c', structure sch type_shape fresh_position (unstructure sch c) = Some c' /\ same_definition c' c.

(* Refuted (after the two repairs in /repo): an outarg without path_template is rebuilt as a plain output and
   rejected (F32b). *)
Theorem C32_refuted : ~ C32_full_statement.
Proof.
  intros H. destruct (H ex_sch ex_shape (fun _ _ => AS SNone) wit_templateless eq_refl eq_refl) as [c' [E _]].
  rewrite templateless_outarg_not_restored in E. discriminate.
Qed.
Print Assumptions C32_refuted.

(* A tuple default on an Any-typed field comes back as a list (F32c): the rebuilt class fails the executable
   comparison. *)
Theorem C32_refuted_collection_default :
  exists c', structure ex_sch ex_shape (fun _ _ => AS SNone) (unstructure ex_sch wit_any_tuple) = Some c' /\
             same_definitionb c' wit_any_tuple = false.
Proof. eexists. split; vm_compute; reflexivity. Qed.
Print Assumptions C32_refuted_collection_default.

(* The round trip, for every schema and every well-formed class outside the two excluded (computable) classes:
   fields, types, defaults, metadata (help, argstr, position, sep, allowed_values, requires, path_template ...)
   equal attribute by attribute in Python's ==, outputs likewise, xor equal as a set of sets. *)
Theorem C32_roundtrip :
  forall (sch : fclass -> schema) (type_shape : string -> shape) (fresh_position : list frec -> frec -> aval)
         (c : taskcls),
    schema_okb sch = true -> wf_clsb sch c = true -> restorableb sch type_shape c = true ->
    exists c', structure sch type_shape fresh_position (unstructure sch c) = Some c' /\ same_definition c' c.
Proof. exact structure_unstructure. Qed.
Print Assumptions C32_roundtrip.

(* Key lemma, one field: restoring the defaults that were dropped gives the field back. *)
Theorem C32_restore_defaults_drop_defaults :
  forall (sch : fclass -> schema) (type_shape : string -> shape) (r : frec),
    NoDup (map aname (sch (fcls r))) -> complete sch r -> reconvertibleb sch type_shape r = true ->
    exists r', restore sch type_shape (fcls r) (fname r) (unstructure_field sch r) = Some r' /\
               field_equiv r' r /\ fcls r' = fcls r /\ fname r' = fname r.
Proof.
  intros sch type_shape r ND C RC. destruct (restore_restored sch type_shape r ND C RC) as [E F].
  exact (ex_intro _ _ (conj E (conj F (conj (proj1 F) (proj1 (proj2 F)))))).
Qed.
Print Assumptions C32_restore_defaults_drop_defaults.

(* The executable comparison the driver evaluates on observed classes implies the relation. *)
Theorem C32_spec_exec : forall c c', same_definitionb c c' = true -> same_definition c c'.
Proof. exact same_definitionb_sound. Qed.
Print Assumptions C32_spec_exec.

(* non-vacuity: a shell class with a requirement (with allowed values), an allowed-values set, a tuple default
   under a tuple type, dropped defaults, an outarg with a template and an xor group meets every hypothesis *)
Definition ex_cls : taskcls :=
  let a := {| fcls := CArg; fname := "a";
              fvals := [("type", AS (SObj "str | None")); ("default", AS SNone); ("help", AS (SStr "the a"));
                        ("requires", AReqs [[("b", None); ("t", Some [SInt 1; SInt 2])]; [("b", None)]]);
                        ("allowed_values", ASet []); ("argstr", AS (SStr "-a")); ("position", AS (SInt 2))] |} in
  let b := {| fcls := CArg; fname := "b";
              fvals := [("type", AS (SObj "bool")); ("default", AS (SBool false)); ("help", AS (SStr ""));
                        ("requires", AReqs []); ("allowed_values", ASet []); ("argstr", AS (SStr "-b"));
                        ("position", AS (SInt 1))] |} in
  let t := {| fcls := CArg; fname := "t";
              fvals := [("type", AS (SObj "tuple[int, int]")); ("default", ATuple [SInt 1; SInt 2]); ("help", AS (SStr ""));
                        ("requires", AReqs []); ("allowed_values", ASet [SStr "u"; SStr "v"]); ("argstr", AS (SStr ""));
                        ("position", AS (SInt 3))] |} in
  let o := {| fcls := COutarg; fname := "o";
              fvals := [("type", AS (SObj "File")); ("default", AS SNoDefault); ("help", AS (SStr ""));
                        ("requires", AReqs []); ("argstr", AS (SStr "-o")); ("position", AS (SInt 4));
                        ("path_template", AS (SStr "{a}_out")); ("keep_extension", AS (SBool true))] |} in
  let p := {| fcls := COut; fname := "p";
              fvals := [("type", AS (SObj "int")); ("default", AS SNoDefault); ("help", AS (SStr ""));
                        ("requires", AReqs []); ("callable", AS (SObj "f"))] |} in
  {| tkind := "shell"; tname := "cmd"; texec := SStr "cmd"; cinputs := [a; b; t; o]; coutputs := [o; p];
     cxor := [[Some "a"; Some "t"; None]] |}.
Example C32_roundtrip_applies :
  schema_okb ex_sch = true /\ wf_clsb ex_sch ex_cls = true /\ restorableb ex_sch ex_shape ex_cls = true /\
  List.length (dinputs (unstructure ex_sch ex_cls)) = 3 /\
  lookup "a" (dinputs (unstructure ex_sch ex_cls)) =
    Some [("type", US (SObj "str | None")); ("default", US SNone); ("help", US (SStr "the a"));
          ("requires", UReqs [[("b", None); ("t", Some [SInt 1; SInt 2])]; [("b", None)]]);
          ("argstr", US (SStr "-a")); ("position", US (SInt 2))].
Proof. vm_compute. repeat split. Qed.
