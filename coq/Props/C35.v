(* C35 — Job lifecycle leaves the process and the cache directory consistent. *)
From Pydra Require Import Base.Prelude.
From Pydra Require Import Model.CacheProto Proofs.CacheProto Proofs.CacheProtoC35 Proofs.CacheProtoC10
  Proofs.CacheProtoSpec Proofs.CacheProtoC35n.

(* The property at full strength: after any submission by a process that is the only one using the cache root,
   however it ended (returned, raised, exception at any stage), the process is back in its directory, none of
   its info files is left, and a complete result file is there (fcode = 2). *)
Definition C35_full_statement : Prop :=
  forall pickle unpickle bv pre tr s p,
    run pickle unpickle bv (init bv pre) tr = Some s ->
    (forall r, r <> p -> pc (procs s r) = Idle) ->
    alive s p -> pc (procs s p) = Done ->
    cwd (procs s p) = Home /\ infos (procs s p) = 0 /\ fcode (resf (gl s)) = 2.

(* F35: an exception raised by hooks.pre_run_task (equally: at any label between job.lock_acquired and
   job.audit_started, by hooks.post_run_task or at any label of the finally block) leaves the process inside the
   job directory, the info file behind and no result *)
Theorem C35_refuted_pre_try : ~ C35_full_statement.
Proof.
  intros H. destruct pre_hook_witness as (s & R & E1 & E2 & E3 & E4 & E5).
  destruct (H toy_pickle toy_unpickle 7 false _ s 0 R) as (C & _); [|exact E5|exact E1|congruence].
  intros r Ne. rewrite (others_untouched _ _ _ 0 _ _ _ R); [reflexivity| |exact Ne].
  intros e Hin. unfold pre_hook_raises_trace in Hin. apply in_map_iff in Hin. now destruct Hin as (a & <- & _).
Qed.
Print Assumptions C35_refuted_pre_try.

(* As long as every exception of process p was raised inside the try block or its handler (task
   body, output collection, record_error -- at any label there; dirty = false is the computable class the
   harness mirrors), for every interleaving with any number of other processes:
   outside the with block p's cwd is restored and no info file of p is left; at the end of the with block
   (job.cwd_restored, lock still held) the directory holds the complete job record and the complete result p
   built, marked errored exactly when the finally block ran because of an exception. *)
Theorem C35_finally_region :
  forall pickle unpickle bv pre tr s p,
    run pickle unpickle bv (init bv pre) tr = Some s ->
    let q := procs s p in
    dirty q = false ->
    (holds (pc q) = false -> cwd q = Home /\ infos q = 0) /\
    (alive s p -> pc q = Fin5 ->
       cwd q = Home /\ infos q = 0 /\
       dir (gl s) = true /\ jobf (gl s) = Complete tt /\ resf (gl s) = Complete (mkRes (raised q) (r_out q))).
Proof. exact finally_region. Qed.
Print Assumptions C35_finally_region.

(* once outside the with block a process leaves the directory alone (so in a single-submitter history what
   C35_finally_region shows at job.cwd_restored is what is found afterwards) *)
Theorem C35_outside_leaves_directory :
  forall pickle unpickle bv p q g a q' g',
    lstep pickle unpickle bv p q g a = Some (q', g') -> holds (pc q) = false ->
    dir g' = dir g /\ jobf g' = jobf g /\ resf g' = resf g /\ errf g' = errf g.
Proof. exact @outside_same_files. Qed.
Print Assumptions C35_outside_leaves_directory.

(* pre_run_task and post_run_task: exactly once per entry into the task execution ... *)
Theorem C35_hooks_once :
  forall pickle unpickle bv pre tr s p,
    run pickle unpickle bv (init bv pre) tr = Some s ->
    let q := procs s p in
    dirty q = false -> holds (pc q) = false ->
    pre_calls q = execs q /\ post_calls q = execs q.
Proof. exact hooks_once. Qed.
Print Assumptions C35_hooks_once.

(* ... and never on the path of a cache hit *)
Theorem C35_hit_calls_no_hook :
  forall pickle unpickle bv p q g a q' g',
    lstep pickle unpickle bv p q g a = Some (q', g') ->
    hit_path (pc q) = true \/ (pc q = Locked /\ a = AChecked) ->
    pre_calls q' = pre_calls q /\ post_calls q' = post_calls q /\ execs q' = execs q /\
    (hit_path (pc q') = true \/ pc q' = Locked \/ pc q' = Miss \/ pc q' = Done \/ pc q' = ExcHold \/ pc q' = RelExc).
Proof. exact hit_calls_no_hook. Qed.
Print Assumptions C35_hit_calls_no_hook.

(* the same defect through hooks.post_run_task: the body ran, nothing was saved *)
Theorem C35_refuted_post_hook :
  exists s, run toy_pickle toy_unpickle 7 (init 7 false) post_hook_raises_trace = Some s /\
            pc (procs s 0) = Done /\ cwd (procs s 0) = InDir /\ infos (procs s 0) = 1 /\ resf (gl s) = Absent /\
            runs (gl s) = 1.
Proof. exact post_hook_witness. Qed.
Print Assumptions C35_refuted_post_hook.

(* C35 for concurrent histories ("after any job run", any number of submitters of the checksum).
   Every interleaving of any number of processes and submissions, nobody killed, and no process `dirty`, i.e.
   every exception so far was raised inside the try block or its handler (body, output collection, record_error).
   What the F35 class excludes is exactly `dirty`: an exception between job.lock_acquired and the try (pre_run_task,
   start_audit, _populate_filesystem), by post_run_task, or at a statement of the finally block - such a run leaves
   the with block through ExcHold with a half-populated directory, and the statement is false (C35_refuted_pre_try, C35_refuted_post_hook).
   Then, whenever nobody is inside the critical section (the marker is absent) and some execution has reached
   job.cwd_restored (or a result was there at the start): the job directory exists, holds the complete job record and
   a complete result, every process is outside the with block, back in its original cwd, with no info file left. *)
Theorem C35_directory_consistent_n :
  forall pickle unpickle bv pre tr s,
    run pickle unpickle bv (init bv pre) tr = Some s -> nocrash_trace tr = true ->
    (forall p, dirty (procs s p) = false) ->
    lock (gl s) = None ->
    pre = true \/ went_through tr = true ->
    dir (gl s) = true /\ jobf (gl s) = Complete tt /\ (exists r, resf (gl s) = Complete r) /\
    forall p, holds (pc (procs s p)) = false /\ cwd (procs s p) = Home /\ infos (procs s p) = 0.
Proof. exact directory_consistent_n. Qed.
Print Assumptions C35_directory_consistent_n.

(* Which result: the one the last execution published.  A process leaves the with block through job.cwd_restored
   with resf = Complete (errored = exception pending, outputs) (C35_finally_region, second part), the release changes
   the marker only, and while the marker is absent no step of anybody changes the directory: *)
Theorem C35_unlocked_directory_stable :
  forall pickle unpickle bv pre tr s e s',
    run pickle unpickle bv (init bv pre) tr = Some s -> nocrash_trace tr = true -> lock (gl s) = None ->
    step pickle unpickle bv s e = Some s' -> nocrash (snd e) = true ->
    dir (gl s') = dir (gl s) /\ jobf (gl s') = jobf (gl s) /\ resf (gl s') = resf (gl s) /\ errf (gl s') = errf (gl s).
Proof. intros pickle unpickle bv pre tr s e s' R _ LN H _. exact (unlocked_directory_stable _ _ _ _ _ _ _ _ R LN H). Qed.
Print Assumptions C35_unlocked_directory_stable.

(* the hypotheses are met by a genuinely concurrent history: submitter 0 executes, submitter 1 arrives while 0 holds
   the lock, waits and is served from the cache; both get the value *)
Example C35_directory_consistent_n_example :
  exists s, run toy_pickle toy_unpickle 7 (init 7 false) two_submitters_trace = Some s /\
            nocrash_trace two_submitters_trace = true /\
            (forall p, dirty (procs s p) = false) /\
            lock (gl s) = None /\ went_through two_submitters_trace = true /\
            ret (procs s 0) = Some (Returned (mkRes false (Some 7))) /\ ret (procs s 1) = Some (Returned (mkRes false (Some 7))).
Proof. exact two_submitters_meet_hypotheses. Qed.
