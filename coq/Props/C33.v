(* C33 — Workflow output files are collected without clashes or loss.
   copy_one stands for fileformats' FileSet.copy; copy_contract (Proofs/CopyFiles.v) is what is assumed of
   it; ff_copy (Model/CopyFiles.v) is the model of fileformats' algorithm for single-path file-sets, proved
   to meet the contract and compared with the real FileSet.copy on every run. *)
From Pydra Require Import Base.Prelude Model.Mount Model.CopyFiles Spec.CopyFiles Proofs.CopyFiles.

(* for every mount table, target directory, initial file system (whatever the directory already holds) and
   list of output values whose files exist: collection succeeds and the result meets the spec [collected]
   (shape, class, inside the directory, content, sources intact, hard link or independent copy as the
   mounts allow, distinct sources -> distinct destinations) *)
Definition C33_full_statement : Prop :=
  forall (tab : table) (dest : string) (fs0 : fsT) (fields : list value),
    sources_exist fs0 fields ->
    exists outs fs1 av, copyfile_workflow ff_copy tab dest fields fs0 = Ok (outs, fs1, av)
                        /\ collected tab dest fs0 fs1 fields (map fst outs).

Theorem C33_full : C33_full_statement.
Proof.
  intros tab dest fs0 fields S. destruct (copyfile_workflow_total tab dest fs0 fields S) as [[[outs fs1] av] R].
  exists outs, fs1, av. split; [exact R|]. eapply copyfile_fields_collected; [exact ff_copy_contract|exact S|exact R].
Qed.
Print Assumptions C33_full.

(* the same for any implementation of FileSet.copy that meets the contract, whenever it succeeds *)
Theorem C33_collected :
  forall copy_one, copy_contract copy_one ->
  forall tab dest fs0 fields outs fs1 av,
    sources_exist fs0 fields ->
    copyfile_workflow copy_one tab dest fields fs0 = Ok (outs, fs1, av) ->
    collected tab dest fs0 fs1 fields (map fst outs).
Proof. intros copy_one HC tab dest fs0 fields. apply copyfile_fields_collected, HC. Qed.
Print Assumptions C33_collected.

Theorem C33_shape :
  forall copy_one, copy_contract copy_one ->
  forall tab dest fs0 fields outs fs1 av,
    sources_exist fs0 fields ->
    copyfile_workflow copy_one tab dest fields fs0 = Ok (outs, fs1, av) ->
    Forall2 (fun v v' => same_shape v v' = true) fields (map fst outs).
Proof. intros. eapply c_shape, copyfile_fields_collected; eauto. Qed.
Print Assumptions C33_shape.

Theorem C33_injective :
  forall copy_one, copy_contract copy_one ->
  forall tab dest fs0 fields outs fs1 av,
    sources_exist fs0 fields ->
    copyfile_workflow copy_one tab dest fields fs0 = Ok (outs, fs1, av) ->
    forall s1 d1 s2 d2,
      In (s1, d1) (all_pairs fields (map fst outs)) -> In (s2, d2) (all_pairs fields (map fst outs)) ->
      snd d1 = snd d2 -> snd s1 = snd s2.
Proof. intros until 3. eapply c_inj, copyfile_fields_collected; eauto. Qed.
Print Assumptions C33_injective.

Theorem C33_content :
  forall copy_one, copy_contract copy_one ->
  forall tab dest fs0 fields outs fs1 av,
    sources_exist fs0 fields ->
    copyfile_workflow copy_one tab dest fields fs0 = Ok (outs, fs1, av) ->
    forall s d, In (s, d) (all_pairs fields (map fst outs)) ->
      fst (snd d) = dest /\ read fs0 (snd s) <> None
      /\ read fs1 (snd d) = read fs0 (snd s) /\ read fs1 (snd s) = read fs0 (snd s).
Proof.
  intros copy_one HC tab dest fs0 fields outs fs1 av S E s d I.
  eapply c_leaf in I; [|eapply copyfile_fields_collected; eassumption]. tauto.
Qed.
Print Assumptions C33_content.

(* the model of fileformats' algorithm meets the contract; with it collection never fails *)
Theorem C33_ff_contract : copy_contract ff_copy.
Proof. exact ff_copy_contract. Qed.
Print Assumptions C33_ff_contract.

Theorem C33_total :
  forall tab dest fs0 fields, sources_exist fs0 fields ->
  exists r, copyfile_workflow ff_copy tab dest fields fs0 = Ok r.
Proof. exact copyfile_workflow_total. Qed.
Print Assumptions C33_total.

(* result.save then writes `_result.pklz` (and the engine keeps `_job.pklz`, `_error.pklz`, `_return_values.pklz`)
   in the same directory: those names are in the initial clash set, so no collected file has one of them and
   the later write — a new file — leaves every collected file and every source with its content *)
Theorem C33_save_safe :
  forall copy_one, copy_contract copy_one ->
  forall tab dest fs0 fields outs fs1 av n c,
    sources_exist fs0 fields ->
    copyfile_workflow copy_one tab dest fields fs0 = Ok (outs, fs1, av) ->
    In n reserved_names -> ino_of fs0 (dest, n) = None ->
    forall s d, In (s, d) (all_pairs fields (map fst outs)) ->
      snd d <> (dest, n)
      /\ read (dump fs1 (dest, n) c) (snd d) = read fs0 (snd s)
      /\ read (dump fs1 (dest, n) c) (snd s) = read fs0 (snd s).
Proof. intros until 3. intros I N. eapply copyfile_fields_then_dump; eauto using reserved_in_seed. Qed.
Print Assumptions C33_save_safe.
