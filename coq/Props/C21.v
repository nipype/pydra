(* C21 — Accepted lazy connections are honoured at run time.
   [check_type live t s] models TypeParser(t).check_type(s) with superclass_auto_cast off;
   [coerce live W false t v] models TypeParser(t)(v). *)
From Pydra Require Import Base.Prelude Model.Typing Spec.Typing Proofs.Typing Proofs.TypingNss Proofs.TypingStatic.
From Pydra Require Import Generated.TypingTables Proofs.TypingLive Proofs.TypingStaticLive.

(* the property at full strength: every statically accepted connection s -> t (s not the unchecked Any), every
   value of type s fitting t's fixed tuple lengths, in a world where the named paths suit the formats *)
Definition C21_full_statement : Prop :=
  forall (W : world) (t s : ty) (v : val),
    world_total W -> scalar_based t = true -> scalar_based s = true -> s <> TBase KAny ->
    check_type live t s = Ok tt -> conforms live s v -> arity_ok t v = true ->
    not_rejected (coerce live W false t v).

(* false: list[list[int]] -> set[list[int]] is accepted, [[1]] is rejected (finding F21b) *)
Theorem C21_refuted_unhashable : ~ C21_full_statement.
Proof.
  intros H.
  specialize (H W_all (TSet false (TList (TBase CInt))) (TList (TList (TBase CInt))) (VList None [VList None [VInt None 1]])
                (fun f p => eq_refl) eq_refl eq_refl ltac:(discriminate) ltac:(vm_compute; reflexivity)).
  assert (conforms live (TList (TList (TBase CInt))) (VList None [VList None [VInt None 1]])) as Hc
    by (apply conformsb_spec; vm_compute; reflexivity).
  specialize (H Hc eq_refl ETypeError ltac:(vm_compute; reflexivity)). discriminate.
Qed.
Print Assumptions C21_refuted_unhashable.

(* it holds where the set-item and dict-key types of t are hashable types ([c21_target_ok]) *)
Theorem C21_partial :
  forall (W : world) (t s : ty) (v : val),
    world_total W -> c21_target_ok t = true -> scalar_based s = true -> s <> TBase KAny ->
    check_type live t s = Ok tt -> conforms live s v -> arity_ok t v = true ->
    not_rejected (coerce live W false t v).
Proof. intros W t s v HW. apply (static_dynamic live W live_wf live_c21 HW). Qed.
Print Assumptions C21_partial.
