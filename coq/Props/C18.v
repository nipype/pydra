(* C18 — Every submission terminates (pydra/engine/graph.py sorting, pydra/engine/submitter.py
   expand_workflow / expand_workflow_async).  On the pinned tree DiGraph.sorting loops for ever on
   a cyclic graph (finding F18); the theorems below are about the code repaired by a fix: commit,
   in which a pass that sorts nothing raises. *)
From Pydra Require Import Base.Prelude Model.Graph Spec.Graph
  Proofs.GraphSort Proofs.GraphInv Proofs.GraphLive Proofs.GraphSched Proofs.GraphC18.
Local Open Scope nat_scope.

(* (1) sorting, from ANY object state and for any presorted argument, stops within |notsorted|
   passes: it returns an order that is valid for the recorded predecessors, or raises. *)
Theorem C18_cycle_is_error :
  forall g presorted,
    (exists g' l, sorting g presorted = Ok g' /\ g' = set_sorted g (Some l) /\
        Permutation.Permutation l (if nonempty presorted then presorted else g_nodes g) /\
        forall a b, In a (if nonempty presorted then presorted else g_nodes g) ->
                    In b (if nonempty presorted then presorted else g_nodes g) ->
                    inW (g_preds g) b a -> before a b l) \/
    (exists e, sorting g presorted = Err e /\ e <> EFuel).
Proof.
  intros g pres. destruct (sorting g pres) as [g'|e] eqn:H.
  - left. destruct (sorting_sound _ _ _ H) as [l [E [Hp Hb]]]. exists g', l. auto.
  - right. exists e. split; [reflexivity|]. intros ->. exact (sorting_nofuel _ _ H).
Qed.
Print Assumptions C18_cycle_is_error.

(* (2) the exception is for cycles only: a consistent graph object whose edges between remaining
   nodes are acyclic is sorted ... *)
Theorem C18_sort_terminates_acyclic :
  forall g presorted,
    consistent g -> (presorted = [] \/ Permutation.Permutation presorted (g_nodes g)) ->
    acyclic (g_nodes g) (g_edges g) -> exists g', sorting g presorted = Ok g'.
Proof. exact consistent_sorting_ok. Qed.
Print Assumptions C18_sort_terminates_acyclic.

(* ... in particular every graph built like Workflow._create_graph builds it *)
Theorem C18_built_acyclic_sorts :
  forall ns es ops g0 g,
    init ns es = Ok g0 -> run_build g0 ops = true -> run g0 ops = Ok g ->
    acyclic (g_nodes g) (g_edges g) ->
    (exists g', sorting g [] = Ok g') /\ (exists g', step g GetSorted = Ok g').
Proof. exact built_acyclic_sorts. Qed.
Print Assumptions C18_built_acyclic_sorts.

(* and an order that sorting returned is evidence that there is no cycle *)
Theorem C18_order_implies_acyclic : forall ns es l, topo_valid ns es l -> acyclic ns es.
Proof. intros ns es l [_ [_ Hpos]]. exact (order_acyclic _ _ _ Hpos). Qed.
Print Assumptions C18_order_implies_acyclic.

(* (3) the loops.  Asynchronous: for ANY predecessor dictionary and any node list without repetitions
   (a valid order or not),
   every completion order / failure pattern (oracle) and every max_concurrent >= 1, the loop stops
   within 2|nodes|+2 iterations — a state that cannot progress ends in the stall detector's error. *)
Theorem C18_async_loop_terminates :
  forall pd order k oracle, NoDup order -> 1 <= k ->
    run_async (2 * List.length order + 2) pd order k oracle <> OutOfFuel.
Proof. intros pd order k oracle _. apply run_async_ends. Qed.
Print Assumptions C18_async_loop_terminates.

(* Synchronous (no stall detector in the code): terminates because the scanned list is a valid
   topological order — which C37 guarantees for what sorting returned. *)
Theorem C18_sync_loop_terminates :
  forall pd order fails, NoDup order -> order_valid pd order ->
    run_sync (2 * List.length order + 1) pd order fails <> OutOfFuel.
Proof. intros pd order fails _. apply run_sync_ends. Qed.
Print Assumptions C18_sync_loop_terminates.

(* (4) from the construction of the graph to the end of both loops *)
Definition C18_full_statement : Prop :=
  forall ns es ops g0 g,
    init ns es = Ok g0 -> run_build g0 ops = true -> run g0 ops = Ok g ->
    (* cyclic or not, sorting the execution graph ends: with an order or with an exception *)
    ((exists g', step g GetSorted = Ok g') \/ (exists e, step g GetSorted = Err e /\ e <> EFuel)) /\
    (* acyclic: it ends with a valid order, on which both loops end as well *)
    (acyclic (g_nodes g) (g_edges g) ->
     exists g' s, step g GetSorted = Ok g' /\ g_sorted g' = Some s /\
       topo_valid (g_nodes g) (g_edges g) s /\
       (forall fails, run_sync (2 * List.length s + 1) (g_preds g') s fails <> OutOfFuel) /\
       (forall k oracle, 1 <= k -> run_async (2 * List.length s + 2) (g_preds g') s k oracle <> OutOfFuel)).

Theorem C18_full : C18_full_statement.
Proof.
  intros ns es ops g0 g Hi Hb Hr. split.
  - cbn. unfold sorted_nodes. destruct (g_sorted g) as [s|]; cbn; [left; eauto|].
    destruct (C18_cycle_is_error g []) as [[g' [l [H _]]]|[e [H He]]]; rewrite H; cbn; [left; eauto|right; eauto].
  - apply (submission_terminates ns es ops g0 g Hi Hb Hr).
Qed.
Print Assumptions C18_full.

(* the recorded finding, on the repaired model: a two-node cycle built through node input assignment *)
Example C18_cycle_raises :
  exists g, run_build_from_empty [AddNodes [0]; AddNodes [1]; AddEdges [(0, 1)]; AddEdges [(1, 0)]] = Some g /\
            step g GetSorted = Err ECycle.
Proof. eexists. split; vm_compute; reflexivity. Qed.

(* the hypotheses of C18_full are met by a diamond; both loops then finish every node *)
Example C18_diamond_runs :
  match run_build_from_empty [AddNodes [0]; AddNodes [1]; AddNodes [2]; AddNodes [3];
                              AddEdges [(0, 1)]; AddEdges [(0, 2)]; AddEdges [(1, 3)]; AddEdges [(2, 3)]] with
  | Some g =>
      acyclicb (g_nodes g) (g_edges g) = true /\
      match step g GetSorted with
      | Ok g' =>
          g_sorted g' = Some [0; 1; 2; 3] /\
          run_sync 9 (g_preds g') [0; 1; 2; 3] (fun _ => false)
            = Finished [0; 1; 2; 3] [(0, Succ); (1, Succ); (2, Succ); (3, Succ)] /\
          run_async 10 (g_preds g') [0; 1; 2; 3] 2 (fun i => (i, false))
            = Finished [0; 2; 1; 3] [(0, Succ); (1, Succ); (2, Succ); (3, Succ)]
      | Err _ => False
      end
  | None => False
  end.
Proof. vm_compute. repeat split. Qed.

(* (5) The same on the FULL scheduler model (Model/Sched.v: several jobs per node,
   failing jobs, max_concurrent, `futured`, jobs seen running, the stall detector), code after the
   repairs F14/F16.  Names below are those of Model/Sched.v, not of Model/Graph.v. *)
From Pydra Require Import Base.SchedBase Model.Sched Spec.Sched Proofs.SchedTermA Proofs.SchedTermS.

(* expand_workflow_async: for every graph in topological order, every value type and job body,
   EVERY set of failing jobs, max_concurrent >= 1 or unlimited, and EVERY oracle — the only
   fairness built into the model is asyncio.wait(FIRST_COMPLETED)'s: when futures are pending, a
   wake-up reports at least one of them completed (which ones, how many, in which order, and which
   jobs are seen running is arbitrary) — |jobs| + 2 loop iterations suffice, and the loop ends by
   itself (Finished, the failures being collected in `errors`) or with the stall detector's
   RuntimeError (Stalled).  The bound does not depend on |nodes| or on the stall limit: the up to
   11 polls of the stall detector happen inside one iteration. *)
Theorem C18_async_loop_terminates_full :
  forall (V : Type) (body : nat -> nat -> list (list (option V)) -> V) (fails : SchedBase.job -> bool)
         (vr : variant) (g : SchedBase.graph) (kmax : option nat) (orc : list oracle_step) (fuel : nat),
    fix14 vr = true -> wf_graph g -> (forall k, kmax = Some k -> 1 <= k) ->
    List.length (all_jobs g) + 2 <= fuel ->
    o_status (Sched.run_async V body fails vr g kmax orc fuel) = Sched.Finished \/
    o_status (Sched.run_async V body fails vr g kmax orc fuel) = Sched.Stalled.
Proof. intros V body fails vr g kmax orc fuel F W K. exact (async_terminates_full V body fails vr F g W kmax K orc fuel). Qed.
Print Assumptions C18_async_loop_terminates_full.

(* expand_workflow (debug worker): when every node has at least one job, |jobs| + 1 iterations
   suffice; the loop ends by itself or with the first failing job's exception. *)
Theorem C18_sync_loop_terminates_full :
  forall (V : Type) (body : nat -> nat -> list (list (option V)) -> V) (fails : SchedBase.job -> bool)
         (vr : variant) (g : SchedBase.graph) (kmax : option nat) (fuel : nat),
    fix14 vr = true -> wf_graph g -> (forall nd, In nd g -> 1 <= njobs nd) -> (forall k, kmax = Some k -> 1 <= k) ->
    List.length (all_jobs g) + 1 <= fuel ->
    o_status (Sched.run_sync V body fails vr g kmax fuel) = Sched.Finished \/
    o_status (Sched.run_sync V body fails vr g kmax fuel) = Sched.Raised.
Proof. intros V body fails vr g kmax fuel F W N K. exact (sync_terminates_full V body fails vr F g W kmax N K fuel). Qed.
Print Assumptions C18_sync_loop_terminates_full.

(* the hypotheses are met with a failing job: node 0 is split in two and its second job fails;
   node 1 (and node 3 behind it) become unrunnable, the independent node 2 still runs *)
Example C18_full_model_failing_job :
  let g := [mkNode 0 [] 2; mkNode 1 [0] 1; mkNode 2 [] 1; mkNode 3 [1; 2] 1] in
  let r := Sched.run_async unit (fun _ _ _ => tt) (fails_of [(0, 1)]) repaired g (Some 2) [] (List.length (all_jobs g) + 2) in
  let s := Sched.run_sync unit (fun _ _ _ => tt) (fails_of [(0, 1)]) repaired g (Some 2) (List.length (all_jobs g) + 1) in
  fix14 repaired = true /\ wf_graph g /\
  o_status r = Sched.Finished /\ error_names r = [(0, 1)] /\ launches r = [(0, 0); (0, 1); (2, 0)] /\
  o_status s = Sched.Raised /\ error_names s = [(0, 1)].
Proof. vm_compute. repeat split. Qed.

(* ... and the Stalled ending is real: behind a failing job a chain of 13 nodes is marked
   unrunnable one node per poll (the `not_started` break), which the 11 polls do not finish *)
Example C18_full_model_stall_detector :
  let g := mkNode 0 [] 1 :: map (fun i => mkNode (S i) [i] 1) (seq 0 13) in
  wf_graph g /\
  o_status (Sched.run_async unit (fun _ _ _ => tt) (fails_of [(0, 0)]) repaired g None [] (List.length (all_jobs g) + 2)) = Sched.Stalled.
Proof. vm_compute. repeat split. Qed.
