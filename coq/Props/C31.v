(* C31 — Requirement and mutual-exclusion rules are enforced exactly. *)
From Pydra Require Import Base.Prelude Model.Rules Spec.Rules Proofs.Rules.
Local Open Scope string_scope.

(* The property at full strength: for every well-formed definition (any number of fields,
   requirement sets and exclusive groups) and every assignment, the rule checker accepts exactly
   when the statement's formula holds, "set" meaning "truthy". *)
Definition C31_full_statement : Prop :=
  forall (d : taskdef) (e : env), wf_def d = true -> (rules_ok d e = true <-> Spec_ok d e).

(* Refuted by the unchanged code: a: str = "" with requires=["b"], nothing given, is rejected. *)
Theorem C31_refuted : ~ C31_full_statement.
Proof.
  intros H. destruct (H wit_def e_ab eq_refl) as [_ H2].
  assert (Sp : Spec_ok wit_def e_ab) by (apply wit_def_formula; intros F; now apply F).
  specialize (H2 Sp). unfold rules_ok in H2. rewrite wit_def_rejected in H2. discriminate.
Qed.
Print Assumptions C31_refuted.

(* The refutation does not depend on the reading of "set": whatever "set" is taken to mean (even
   depending on the field's type), some well-formed task and assignment separates code and formula. *)
Theorem C31_no_uniform_notion_of_set :
  forall S : notion,
    ~ (forall d e, wf_def d = true -> (rules_ok d e = true <-> Spec_gen S d e)).
Proof. exact no_uniform_notion. Qed.
Print Assumptions C31_no_uniform_notion_of_set.

(* What the checker does enforce, for ALL well-formed definitions and ALL assignments: the formula
   with one test per role (requiring field: not None/False/optional-fileset-True; required field:
   not None, not False when the type is exactly bool; exclusive-group member: truthy). *)
Theorem C31_iff_roles :
  forall (d : taskdef) (e : env), wf_def d = true ->
    (rules_ok d e = true <->
     Spec_roles (N set_trigger) (N set_required) (N set_exclusive) d e).
Proof. intros d e W. apply rules_ok_roles; [now apply wf_def_Wf|apply decides_N]. Qed.
Print Assumptions C31_iff_roles.

(* The property's formula itself, on every assignment of the computable class [uncontested d e = true]. *)
Theorem C31_partial :
  forall (d : taskdef) (e : env), wf_def d = true -> uncontested d e = true ->
    (rules_ok d e = true <-> Spec_ok d e).
Proof.
  intros d e W U. apply wf_def_Wf in W. apply rules_ok_roles; [exact W|now apply uncontested_spec].
Qed.
Print Assumptions C31_partial.

(* The executable formula evaluated on the correspondence cases is the formula. *)
Theorem C31_spec_exec :
  forall (d : taskdef) (e : env), wf_def d = true -> (spec_okb d e = true <-> Spec_ok d e).
Proof.
  intros d e W. apply spec_rolesb_spec; [now apply wf_def_Wf|]. constructor; intros; apply is_setb_spec.
Qed.
Print Assumptions C31_spec_exec.

(* Violations are reported before any execution: Submitter.__call__ / Job.__init__ evaluate the rules
   first; whatever the rest of the run does ([run], arbitrary), a rejected task starts nothing and a
   task that ran satisfied the rules. *)
Theorem C31_before_execution :
  forall (run : taskdef -> env -> nat) (d : taskdef) (e : env),
    (rules_ok d e = false -> submitter_call run d e = Rejected (rule_violations d e)) /\
    (forall n, submitter_call run d e = Ran n ->
       rules_ok d e = true /\
       (wf_def d = true -> Spec_roles (N set_trigger) (N set_required) (N set_exclusive) d e) /\
       (wf_def d = true -> uncontested d e = true -> Spec_ok d e)).
Proof.
  intros run d e. split; [apply rejected_before_run|]. intros n R. apply ran_only_if_ok in R as [R _].
  split; [exact R|]. split.
  - intros W. apply (C31_iff_roles d e W), R.
  - intros W U. apply (C31_partial d e W U), R.
Qed.
Print Assumptions C31_before_execution.

(* non-vacuity: a definition with a two-alternative requirement (one with allowed values) and an
   exclusive group, an uncontested assignment that is accepted and one that is rejected *)
Definition ex_def : taskdef :=
  {| fields := [ {| fname := "a"; ftype := TOther; fmay_unset := false;
                    frequires := [ [ {| rname := "b"; rallowed := None |};
                                     {| rname := "c"; rallowed := Some [VStr "u"; VStr "v"] |} ];
                                   [ {| rname := "f"; rallowed := None |} ] ] |};
                 {| fname := "b"; ftype := TBool; fmay_unset := false; frequires := [] |};
                 {| fname := "c"; ftype := TOther; fmay_unset := false; frequires := [] |};
                 {| fname := "f"; ftype := TBool; fmay_unset := false; frequires := [] |} ];
     xors := [[Some "c"; Some "f"; None]] |}.
Example C31_partial_applies_accept :
  let e := env_of [("a", VStr "x"); ("b", VBool true); ("c", VStr "u"); ("f", VBool false)] in
  wf_def ex_def = true /\ uncontested ex_def e = true /\ rules_ok ex_def e = true.
Proof. vm_compute. auto. Qed.
Example C31_partial_applies_reject :
  let e := env_of [("a", VStr "x"); ("b", VBool true); ("c", VStr "w"); ("f", VBool false)] in
  wf_def ex_def = true /\ uncontested ex_def e = true /\ rule_violations ex_def e = [ERequires "a"].
Proof. vm_compute. auto. Qed.
Example C31_partial_applies_xor :
  let e := env_of [("a", VNone); ("b", VBool false); ("c", VStr "u"); ("f", VBool true)] in
  wf_def ex_def = true /\ uncontested ex_def e = true /\ rule_violations ex_def e = [EXorMany ["c"; "f"]].
Proof. vm_compute. auto. Qed.
