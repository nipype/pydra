(* C20 — Accepted field values conform to the declared type.
   [live] = the coercion tables and issubclass matrix translated from the live source on every run. *)
From Pydra Require Import Base.Prelude Model.Typing Spec.Typing Proofs.Typing Proofs.TypingIdem Proofs.TypingNss.
From Pydra Require Import Generated.TypingTables Proofs.TypingLive.

(* every accepted value conforms to the declared type, element types included: all types, all values,
   both superclass_auto_cast settings, any file system *)
Theorem C20_conforms :
  forall (W : world) (sac : bool) (t : ty) (v v' : val), coerce live W sac t v = Ok v' -> conforms live t v'.
Proof. intros W sac. apply coerce_conforms, live_wf. Qed.
Print Assumptions C20_conforms.

(* the task-field converter (make_converter, run by attrs at construction and on every assignment) *)
Theorem C20_at_assignment :
  forall (W : world) (t : ty) (v v' : val), assign live W t v = Ok v' -> conforms live t v'.
Proof. intros W. apply assign_conforms, live_wf. Qed.
Print Assumptions C20_at_assignment.

(* over every history of assignments the field holds a conforming value; a rejected assignment raises at the
   assignment and leaves the field as it was *)
Theorem C20_field_history :
  forall (W : world) (t : ty) (vs : list val) (v0 : val),
    conforms live t v0 -> conforms live t (fold_left (set_field live W t) vs v0).
Proof. intros W. apply field_history, live_wf. Qed.
Print Assumptions C20_field_history.

Theorem C20_rejected_assignment_keeps_value :
  forall (W : world) (t : ty) (old v : val) (e : err), assign live W t v = Err e -> set_field live W t old v = old.
Proof. intros W. exact (set_field_rejected live W). Qed.
Print Assumptions C20_rejected_assignment_keeps_value.

(* coercing an accepted value again leaves it unchanged — at full strength this is false *)
Definition C20_idempotent_full_statement : Prop :=
  forall (W : world) (sac : bool) (t : ty) (v v' : val),
    coerce live W sac t v = Ok v' -> coerce live W sac t v' = Ok v'.
Theorem C20_idempotent_refuted : ~ C20_idempotent_full_statement.
Proof.
  intros H.
  specialize (H W_all false (TUnion [TSet false (TBase CInt); TMulti (TBase CInt)]) (VSet None true [VInt None 1])
                (VList None [VInt None 1]) ltac:(vm_compute; reflexivity)).
  vm_compute in H. discriminate.
Qed.
Print Assumptions C20_idempotent_refuted.

(* ... but it holds for every type whose only unions are Optional[...] (a two-armed union with None) *)
Theorem C20_idempotent_union_free :
  forall (W : world) (sac : bool) (t : ty), union_free t = true ->
    forall v v', coerce live W sac t v = Ok v' -> coerce live W sac t v' = Ok v'.
Proof. intros W sac. apply coerce_idempotent_union_free, live_wf. Qed.
Print Assumptions C20_idempotent_union_free.

(* strings are never split into collections nor collections joined into strings: the stored value is related
   to the input by [nss no_pairs] (no tolerated conversion). Needs [tables_nss no_pairs live], recomputed on the live
   tables on every run. *)
Definition C20_full_statement : Prop :=
  forall (W : world) (sac : bool) (t : ty) (v v' : val),
    scalar_based t = true -> coerce live W sac t v = Ok v' -> nss live no_pairs v v' = true.
Theorem C20_full : C20_full_statement.
Proof. intros W sac t v v' Ht. exact (coerce_nss live no_pairs W sac live_wf live_nss t Ht v v'). Qed.
Print Assumptions C20_full.

(* the executable spec evaluated on the correspondence cases decides [conforms] *)
Theorem C20_spec_decides : forall (t : ty) (v : val), conformsb live t v = true <-> conforms live t v.
Proof. exact (conformsb_spec live). Qed.
Print Assumptions C20_spec_decides.
