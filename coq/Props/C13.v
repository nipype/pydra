(* C13 — Failures are reported and never cached as success. *)
From Pydra Require Import Base.Prelude Model.CacheSeq Spec.CacheSeq Proofs.CacheSeq Proofs.CacheSeqBind.

Definition C13_full_statement : Prop :=
  (* histories: every submission serves only stored successes and reports the outcome of the
     execution of the submitted task *)
  (forall (w : world) (sub : submission) (s : state), wf_taskb (s_task sub) = true ->
     spec_not_served (fst (observe_submit w sub s)) /\ spec_reported (fst (observe_submit w sub s)) /\
     spec_written (fst (observe_submit w sub s))) /\
  (* programs: a python return value either provides every mandatory output or the job fails *)
  (forall ds r outs, bind_outputs true ds r = Some outs -> outputs_complete ds outs) /\
  (forall ds r, provides ds r = false -> bind_outputs true ds r = None).

Theorem C13_full : C13_full_statement.
Proof.
  split; [|split; [exact bind_complete|exact bind_fails_when_not_provided]].
  intros w sub s Hwf. destruct (submit_meets_spec_core w sub s Hwf) as (_ & _ & _ & Hw & Hn & Hr). auto.
Qed.
Print Assumptions C13_full.

(* a stored failure is never returned by Job.run's early exit: the body is entered again and the
   directory then holds the new outcome *)
Theorem C13_error_not_served :
  forall (w : world) (cfg : config) (t : task) (s : state),
    wf_taskb t = true ->
    load_result (st s) (tid t) (all_caches cfg) = Some Err ->
    forall rr, let '(s', evs, r) := run_job w cfg rr t s in
    last_run (tid t) evs = Some r /\ 1 <= count_runs (tid t) evs /\ st s' (root cfg) (tid t) = Complete r.
Proof. intros w cfg t s _ Hl rr. apply run_job_exec, early_exit_err, Hl. Qed.
Print Assumptions C13_error_not_served.

(* the submission reports exactly the outcome of Job.run (Err = the failure is reported) *)
Theorem C13_error_reported :
  forall (w : world) (cfg : config) (rr : bool) (t : task) (s : state),
    wf_taskb t = true -> submit w cfg rr t s = run_job w cfg rr t s.
Proof. intros w cfg rr t s _. apply submit_reports_outcome. Qed.
Print Assumptions C13_error_reported.

(* a failing execution is stored as a failure and the next submission under the same root
   executes the task again, whatever its flags, read-only caches and world *)
Theorem C13_failure_reexecuted :
  forall (w : world) (cfg : config) (t : task) (s : state) (rr : bool),
    wf_taskb t = true ->
    forall s1 evs1, run_job w cfg rr t s = (s1, evs1, Err) ->
    st s1 (root cfg) (tid t) = Complete Err /\
    forall w2 cfg2 s2 rr2, root cfg2 = root cfg -> st s2 (root cfg) (tid t) = Complete Err ->
      let '(s3, evs3, r3) := run_job w2 cfg2 rr2 t s2 in last_run (tid t) evs3 = Some r3.
Proof.
  intros w cfg t s rr _ s1 evs1 E. split; [exact (run_job_err_stored w cfg rr t s s1 evs1 E)|].
  exact (stored_failure_reexecuted t (root cfg)).
Qed.
Print Assumptions C13_failure_reexecuted.

(* what the code did before "fix: python task fails when the returned dict lacks a mandatory
   output" (bind_outputs false): declared a, b, returned {"a": 1} => success with b = NOTHING *)
Theorem C13_unrepaired_binding_refuted : ~ outputs_complete_or_error false.
Proof. exact lenient_binding_refuted. Qed.
Print Assumptions C13_unrepaired_binding_refuted.

(* the outcome of a shell body is a function of the command's return code (Native.execute: any
   non-zero code, negative = killed by a signal included) and of the declared output files: for
   every return code other than 0 the stored result is errored, the failure is reported and a
   later submission under the same root executes again; code 0 with every mandatory output file
   present is a success *)
Theorem C13_shell_nonzero_never_cached_as_success :
  forall (w : world) (cfg : config) (c : ident) (s : state) (rr : bool)
         (rc : Z) (files : list (bool * bool)) (v : value),
    body w c (clock s) (execs s c) = shell_outcome rc files v ->
    early_exit cfg rr (st s) c = None ->
    let '(s1, evs, r) := submit w cfg rr (Leaf c) s in
    (rc <> 0%Z ->
       r = Err /\ st s1 (root cfg) c = Complete Err /\ last_run c evs = Some Err /\
       forall w2 cfg2 s2 rr2, root cfg2 = root cfg -> st s2 (root cfg) c = Complete Err ->
         let '(s3, evs3, r3) := run_job w2 cfg2 rr2 (Leaf c) s2 in last_run c evs3 = Some r3) /\
    (rc = 0%Z -> files_present files = true -> r = Ok v /\ st s1 (root cfg) c = Complete (Ok v)).
Proof. exact shell_nonzero_never_cached_as_success. Qed.
Print Assumptions C13_shell_nonzero_never_cached_as_success.
