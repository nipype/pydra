(* C11 — At-most-once execution per identity; rerun and read-only caches as documented. *)
From Pydra Require Import Base.Prelude Model.CacheSeq Spec.CacheSeq Proofs.CacheSeq.

(* The property at full strength: every submission of every history meets the whole reference
   semantics, including "a complete result present in any listed cache is reused". *)
Definition C11_full_statement : Prop :=
  forall (w : world) (sub : submission) (s : state),
    wf_taskb (s_task sub) = true -> step_spec (fst (observe_submit w sub s)).

(* refuted on the current tree: an errored result listed in front of a successful one (F11b) *)
Theorem C11_refuted_errored_shadow : ~ C11_full_statement.
Proof. intros H. exact (errored_shadow_not_reused (proj2 (H shadow_world shadow_sub shadow_state eq_refl))). Qed.
Print Assumptions C11_refuted_errored_shadow.

(* one submission, any world / configuration / well-formed task tree / store: at most once unless
   requested, rerun and propagation, only the root is written, the root holds the last outcomes,
   nothing but stored successes is served, the outcome is reported *)
Theorem C11_step :
  forall (w : world) (sub : submission) (s : state),
    wf_taskb (s_task sub) = true -> step_spec_core (fst (observe_submit w sub s)).
Proof. exact submit_meets_spec_core. Qed.
Print Assumptions C11_step.

(* reuse, outside the computable class errored_shadow (mirrored by the driver's classifier);
   covers the repaired leftover-directory case F11 *)
Theorem C11_reuse :
  forall (w : world) (sub : submission) (s : state),
    wf_taskb (s_task sub) = true ->
    errored_shadow (st s) (tid (s_task sub)) (all_caches (s_cfg sub)) = false ->
    spec_reuse (fst (observe_submit w sub s)).
Proof. intros w sub s _. apply submit_reuses. Qed.
Print Assumptions C11_reuse.

(* every history of submissions and planted leftovers, from every state: a successful execution of
   an identity under a root is followed by another one under that root only on a requested rerun *)
Theorem C11_once_per_identity :
  forall (w : world) (h : list step) (s : state),
    tasks_wf h = true -> history_once (observe w h s).
Proof. intros w h s Hwf. apply (chained_history_once _ (st s)); [apply observe_chained|now apply observe_all_core]. Qed.
Print Assumptions C11_once_per_identity.

(* the same at the level of the reference semantics alone: it applies to any chain of observed
   submissions that meet the per-step semantics — which is what the driver checks on real runs *)
Theorem C11_once_from_steps :
  forall (h : list hobs) (s : store), chained s h -> all_core h -> history_once h.
Proof. exact chained_history_once. Qed.
Print Assumptions C11_once_from_steps.

Theorem C11_rerun_reexecutes :
  forall (w : world) (cfg : config) (t : task) (s : state),
    wf_taskb t = true ->
    let '(s', evs, r) := run_job w cfg true t s in
    last_run (tid t) evs = Some r /\ st s' (root cfg) (tid t) = Complete r /\
    execs s' (tid t) = execs s (tid t) + count_runs (tid t) evs /\ 1 <= count_runs (tid t) evs.
Proof. intros w cfg t s Hwf. exact (executed_and_counted w cfg true t s Hwf eq_refl). Qed.
Print Assumptions C11_rerun_reexecutes.

Theorem C11_propagate :
  forall (w : world) (cfg : config), prop cfg = true ->
  forall (t : task) (s s' : state) (evs : list event) (v : value),
    run_job w cfg true t s = (s', evs, Ok v) ->
    map ev_id evs = postorder t /\ forallb is_run evs = true.
Proof. exact rerun_propagates. Qed.
Print Assumptions C11_propagate.

(* read-only caches are never modified, over whole histories *)
Theorem C11_writes_only_root :
  forall (w : world) (h : list step) (s : state) (l : loc) (c : ident),
    tasks_wf h = true ->
    (forall sub, In (Submit sub) h -> root (s_cfg sub) <> l) ->
    (forall l' c', In (Plant l' c') h -> l' <> l) ->
    st (fst (run_history w h s)) l c = st s l c.
Proof. intros w h s l c. apply history_writes_only_root. Qed.
Print Assumptions C11_writes_only_root.

(* the repaired finding F11 on its witness: now reused; before the repair nothing was found *)
Theorem C11_leftover_repaired :
  load_result leftover_store 5 [0; 1] = Some (Ok 7) /\
  load_result_first_dir leftover_store 5 [0; 1] = None /\
  leftover_shadow leftover_store 5 [0; 1] = true /\ errored_shadow leftover_store 5 [0; 1] = false.
Proof. vm_compute. repeat split. Qed.
Print Assumptions C11_leftover_repaired.
