(* C28 — Batch-scheduler workers follow the scheduler's verdict. *)
From Pydra Require Import Base.Prelude Model.Batch Spec.Batch Proofs.Batch.

(* SLURM, the verdict at full strength: for every pair of answer streams (squeue, sacct), every error
   file, with or without --no-requeue, and any status lists that say what the statement's classes say *)
Definition C28_full_statement : Prop :=
  forall sl st, lists_agree sl st ->
  forall norequeue errfile sq sa,
    let '(v, t) := poll_loop sl norequeue errfile sq sa in
    (outcome_of v, count_requeues t) = decide (negb norequeue) (reports st sq sa).

(* refuted: with --no-requeue a cancelled / timed-out / preempted job is reported complete *)
Theorem C28_refuted_norequeue_reported_complete : ~ C28_full_statement.
Proof.
  intros H. specialize (H sl0 st0 lists0 true None [{| sq_stdout := ""; sq_stderr := "" |}] [SaLine "CANCELLED" 0]).
  vm_compute in H. discriminate.
Qed.
Print Assumptions C28_refuted_norequeue_reported_complete.

(* the verdict for EVERY answer stream when requeueing is allowed (excluded class: --no-requeue):
   complete iff the first decisive report is COMPLETED with exit 0, failed iff it is another final state,
   one scontrol requeue per interruption before it, still waiting when the answers run out *)
Theorem C28_slurm_verdict : forall sl st, lists_agree sl st ->
  forall errfile sq sa,
    let '(v, t) := poll_loop sl false errfile sq sa in
    (outcome_of v, count_requeues t) = decide true (reports st sq sa).
Proof.
  intros sl st HL errfile sq sa. pose proof (poll_verdict sl st HL false errfile sq sa) as H.
  destruct (poll_loop sl false errfile sq sa) as [v t]. destruct H as [H|[X _]]; [exact H|discriminate X].
Qed.
Print Assumptions C28_slurm_verdict.

(* with --no-requeue: the same verdict, except exactly the refuted case *)
Theorem C28_slurm_verdict_norequeue : forall sl st, lists_agree sl st ->
  forall errfile sq sa,
    let '(v, t) := poll_loop sl true errfile sq sa in
    (outcome_of v, count_requeues t) = decide false (reports st sq sa) \/
    (decide false (reports st sq sa) = (OInterruptedNoRequeue, 0) /\ v = Complete /\ count_requeues t = 0).
Proof.
  intros sl st HL errfile sq sa. pose proof (poll_verdict sl st HL true errfile sq sa) as H.
  destruct (poll_loop sl true errfile sq sa) as [v t]. destruct H as [H|[_ H]]; [left|right]; exact H.
Qed.
Print Assumptions C28_slurm_verdict_norequeue.

(* requeued, never failed, on cancellation / timeout / preemption *)
Theorem C28_interrupted_never_failed : forall sl st, lists_agree sl st ->
  forall errfile sq sa,
    Forall (fun r => r = Some Active \/ r = Some Interrupted) (reports st sq sa) ->
    let '(v, t) := poll_loop sl false errfile sq sa in
    v = StillPolling /\
    count_requeues t = List.length (filter (fun r => match r with Some Interrupted => true | _ => false end) (reports st sq sa)).
Proof.
  intros sl st HL errfile sq sa HF. pose proof (C28_slurm_verdict sl st HL errfile sq sa) as HV.
  destruct (poll_loop sl false errfile sq sa) as [v t]. rewrite (decide_waiting _ HF) in HV.
  inversion HV as [[Ho Hn]]. split; [|reflexivity]. destruct v; try discriminate Ho. reflexivity.
Qed.
Print Assumptions C28_interrupted_never_failed.

(* the verdict on RAW scheduler text: sacct's stdout is parsed by the model of _sacct_re; for every stream of
   accounting answers that are empty or a printed accounting line (job id, blanks, state word, optional '+',
   blanks, code:signal, anything) the verdict is the one the text's state word and exit code call for *)
Theorem C28_slurm_verdict_raw : forall sl st, lists_agree sl st ->
  forall errfile sq answers,
    forallb (fun a => match a with None => true | Some l => wf_line l end) answers = true ->
    let '(v, t) := poll_loop sl false errfile sq (map parse_sacct (map render_ans answers)) in
    (outcome_of v, count_requeues t) = decide true (reports st sq (map ans_of answers)).
Proof.
  intros sl st HL errfile sq answers Hwf. rewrite parse_answers by exact Hwf. now apply C28_slurm_verdict.
Qed.
Print Assumptions C28_slurm_verdict_raw.

Theorem C28_parse_rendered : forall l, wf_line l = true -> parse_sacct (render_line l) = ans_of (Some l).
Proof. exact parse_rendered. Qed.
Print Assumptions C28_parse_rendered.

(* outside that language: an untruncated "CANCELLED by <uid>" is read as status <uid> => failed, not requeued *)
Theorem C28_refuted_cancelled_by :
  parse_sacct "123  CANCELLED by 1000  0:0" = SaLine "1000" 0 /\
  fst (poll_loop sl0 false (Some ["x"; "Exception: boom"; ""]%string) [{| sq_stdout := ""; sq_stderr := "" |}]
                 [parse_sacct "123  CANCELLED by 1000  0:0"]) = Failed "boom" /\
  classify st0 (SaLine "CANCELLED" 0) = Interrupted.
Proof. vm_compute. auto. Qed.
Print Assumptions C28_refuted_cancelled_by.

Theorem C28_submit_errors : forall sl c s,
  (sb_rc s <> 0 -> slurm_run sl c s = (sbatch_argv c, SubmitError, [])) /\
  (sb_rc s = 0 -> first_digits (sb_stdout s) = None -> slurm_run sl c s = (sbatch_argv c, NoJobId, [])).
Proof.
  intros sl c s. unfold slurm_run. split.
  - intros H. apply Nat.eqb_neq in H. now rewrite H.
  - intros H1 H2. rewrite H1, H2. reflexivity.
Qed.
Print Assumptions C28_submit_errors.

(* user options: shape of the sbatch vector for every argument string … *)
Theorem C28_sbatch_argv_shape : forall c,
  exists defaults, sbatch_argv c = (split_ws (sc_args c) ++ defaults ++ [sc_batch_script c])%list /\
    forall d, In d defaults ->
      (d = String.append "--job-name=" (sc_default_name c) /\ find_opt "-J" "--job-name=" (sc_args c) = None) \/
      (d = String.append "--output=" (String.append (sc_script_dir c) "/slurm-%j.out") /\ find_opt "-o" "--output=" (sc_args c) = None) \/
      (d = String.append "--error=" (String.append (sc_script_dir c) "/slurm-%j.err") /\ find_opt "-e" "--error=" (sc_args c) = None).
Proof. intros c. apply defaults_shape. Qed.
Print Assumptions C28_sbatch_argv_shape.

(* … and for EVERY list of clean tokens in the forms the code handles (forms_ok: no "-Xvalue", no bare
   "--long value", no token with the short name as a proper suffix or "--long=" inside): the vector is the user's
   tokens, then the worker's default for exactly those options the user did not give, then the script.  So each
   option the user gave stays exactly as often as given, and a default is added only when the user gave none. *)
Theorem C28_options_general : forall toks name dir script,
  forallb clean toks = true -> forms_ok toks = true ->
  sbatch_argv {| sc_args := join_sp toks; sc_default_name := name; sc_script_dir := dir; sc_batch_script := script |} =
  (toks ++ (if Nat.eqb (occurrences KName toks) 0 then [String.append "--job-name=" name] else [])
        ++ (if Nat.eqb (occurrences KOut toks) 0 then [String.append "--output=" (String.append dir "/slurm-%j.out")] else [])
        ++ (if Nat.eqb (occurrences KErr toks) 0 then [String.append "--error=" (String.append dir "/slurm-%j.err")] else [])
        ++ [script])%list.
Proof.
  intros toks name dir script Hc Hf. unfold forms_ok in Hf. cbn [forallb] in Hf.
  apply andb_prop in Hf. destruct Hf as [HJ Hf]. apply andb_prop in Hf. destruct Hf as [HO Hf].
  apply andb_prop in Hf. destruct Hf as [HE _].
  unfold sbatch_argv. cbn [sc_args sc_default_name sc_script_dir sc_batch_script].
  apply (f_equal2 (@app _) (split_join_sp toks Hc)).
  apply (f_equal2 (@app _) (default_added KName toks _ Hc HJ)).
  apply (f_equal2 (@app _) (default_added KOut toks _ Hc HO)).
  apply (f_equal2 (@app _) (default_added KErr toks _ Hc HE)). reflexivity.
Qed.
Print Assumptions C28_options_general.

(* … but not outside forms_ok: "--job-name name" (and "-Jname") get a second option appended *)
Theorem C28_refuted_option_form : ~ options_statement.
Proof. intros H. specialize (H ["--job-name"; "myname"]%string eq_refl eq_refl). vm_compute in H. discriminate. Qed.
Print Assumptions C28_refuted_option_form.

(* the pinned tree crashed in run() when the user gave an error option; the current model polls and reads the user's file *)
Theorem C28_pinned_refuted_user_error_option :
  slurm_run_pinned sl0 ctx_e sched_ok = (["-e"; "/tmp/my-%j.err"; "--job-name=add.uid"; "--output=/c/slurm_scripts/uid/slurm-%j.out";
                                           "/c/slurm_scripts/uid/batchscript_uid.sh"]%string, Crash, []) /\
  slurm_run sl0 ctx_e sched_ok = (["-e"; "/tmp/my-%j.err"; "--job-name=add.uid"; "--output=/c/slurm_scripts/uid/slurm-%j.out";
                                    "/c/slurm_scripts/uid/batchscript_uid.sh"]%string, Complete, [CSqueue; CSacct]) /\
  error_file ctx_e "123" = "/tmp/my-123.err"%string.
Proof. vm_compute. auto. Qed.
Print Assumptions C28_pinned_refuted_user_error_option.

(* SGE accounting: evicted / failed entries mean ERRORED (resubmit), "job id not found" means still pending *)
Theorem C28_sge_verify : forall nf1 rs1 nf2 rs2,
  forallb clean_record rs1 = true -> forallb clean_record rs2 = true ->
  sge_verify (answer_of nf1 rs1) (answer_of nf2 rs2) =
  match rs1 with
  | [] => sge_spec (negb nf2) (map kv rs2)
  | _ => sge_spec (negb nf1) (map kv rs1)
  end.
Proof.
  intros nf1 rs1 nf2 rs2 H1 H2. unfold sge_verify.
  destruct rs1 as [|r1 rs1]; cbn [answer_of qa_lines map].
  - now apply answer_verdict.
  - now apply (answer_verdict nf1 (r1 :: rs1)).
Qed.
Print Assumptions C28_sge_verify.
