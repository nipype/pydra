(* C04 — Splitting nested containers visits every inner element.
   Model/Nested.v follows pydra/engine/state.py after the repair of finding F04 (input_shape falls back
   to the flattened element count when the nesting is not rectangular). *)
From Pydra Require Import Base.Prelude Model.Nested Spec.Nested Proofs.Nested Proofs.ListFacts.
Local Open Scope nat_scope.

(* the property at full strength: a one-field splitter over any list value — any depth, any inner
   lengths, regular or ragged — and any container dimension >= 1 runs exactly the elements at that depth *)
Definition C04_full_statement : Prop :=
  forall (n : nat) (l : list value), 1 <= n -> single_ok n (Node l) (split1 (Some n) l).

Theorem C04_full : C04_full_statement.
Proof. intros n l Hn. exact (split1_full (Some n) l Hn). Qed.
Print Assumptions C04_full.

(* the general form, of which C04_full is the case Some n: any container_ndim entry, None (no entry) = container
   dimension 1 *)
Theorem C04_full_default :
  forall (cd : option nat) (l : list value),
    1 <= ndim_shape cd -> split1 cd l = Jobs (elements_at_depth (ndim_shape cd) (Node l)).
Proof. exact split1_full. Qed.
Print Assumptions C04_full_default.

(* what failed on ragged input before the repair of F04: the index range covers flatten's elements *)
Theorem C04_count :
  forall (n : nat) (l : list value), 1 <= n -> prod (input_shape l n) = List.length (flatten n l).
Proof. intros n l Hn. rewrite flatten_spec. exact (prod_input_shape Hn). Qed.
Print Assumptions C04_count.

(* on rectangular values the shape is the dimension vector (what inner splitters compare) *)
Theorem C04_shape_rect :
  forall (n : nat) (l : list value),
    1 <= n -> rectangular n (Node l) -> input_shape l n = dims n (Node l).
Proof. exact input_shape_rect. Qed.
Print Assumptions C04_shape_rect.

(* as an operand of an outer splitter [x, y] (either operand nested, each with its own dimension) *)
Theorem C04_outer :
  forall (cdx : option nat) (x : list value) (cdy : option nat) (y : list value),
    1 <= ndim_shape cdx -> 1 <= ndim_shape cdy ->
    outer_ok (ndim_shape cdx) (Node x) (ndim_shape cdy) (Node y) (split2 Outer cdx x cdy y).
Proof.
  intros cdx x cdy y Hx Hy. unfold outer_ok, split2, pair_ind. fold (single_ind cdx x) (single_ind cdy y).
  now rewrite (sequence_reads (Forall2_list_prod (get_all cdx x Hx) (get_all cdy y Hy) (get_pair_some cdx x cdy y))).
Qed.
Print Assumptions C04_outer.

(* as an operand of an inner splitter (x, y): all elements paired by position, or rejected for unequal
   shapes — never an IndexError, never a partial pairing, and never rejected when both are rectangular
   with equal dimensions *)
Theorem C04_inner :
  forall (cdx : option nat) (x : list value) (cdy : option nat) (y : list value),
    1 <= ndim_shape cdx -> 1 <= ndim_shape cdy ->
    inner_ok (ndim_shape cdx) (Node x) (ndim_shape cdy) (Node y) (split2 Inner cdx x cdy y).
Proof.
  intros cdx x cdy y Hx Hy. rewrite (split2_inner_eq cdx x cdy y Hx Hy).
  destruct (list_eqb Nat.eqb (input_shape x (ndim_shape cdx)) (input_shape y (ndim_shape cdy))) eqn:E.
  - apply nat_list_eqb_eq in E. split; [|reflexivity].
    now rewrite <- (prod_input_shape Hx), <- (prod_input_shape Hy), E.
  - intros [Rx [Ry D]].
    rewrite (input_shape_rect Hx Rx), (input_shape_rect Hy Ry), D in E.
    now rewrite (proj2 (nat_list_eqb_eq _ _) eq_refl) in E.
Qed.
Print Assumptions C04_inner.

Theorem C04_inner_rect :
  forall (cdx : option nat) (x : list value) (cdy : option nat) (y : list value),
    1 <= ndim_shape cdx -> 1 <= ndim_shape cdy ->
    rectangular (ndim_shape cdx) (Node x) -> rectangular (ndim_shape cdy) (Node y) ->
    dims (ndim_shape cdx) (Node x) = dims (ndim_shape cdy) (Node y) ->
    split2 Inner cdx x cdy y =
    Jobs (combine (elements_at_depth (ndim_shape cdx) (Node x)) (elements_at_depth (ndim_shape cdy) (Node y))).
Proof.
  intros cdx x cdy y Hx Hy Rx Ry D. rewrite (split2_inner_eq cdx x cdy y Hx Hy).
  rewrite (input_shape_rect Hx Rx), (input_shape_rect Hy Ry), D.
  now rewrite (proj2 (nat_list_eqb_eq _ _) eq_refl).
Qed.
Print Assumptions C04_inner_rect.

(* the boolean checks the driver evaluates on the one- and two-field cases decide the Prop specs above (on the tuple
   cases it evaluates tsingle_okb, the comparison with telements itself, which has no Prop form) *)
Theorem C04_exec_spec_sound :
  (forall n v o, single_okb n v o = true <-> single_ok n v o) /\
  (forall nx x ny y o, outer_okb nx x ny y o = true <-> outer_ok nx x ny y o) /\
  (forall nx x ny y o, inner_okb nx x ny y o = true <-> inner_ok nx x ny y o).
Proof.
  split; [|split].
  - intros n v o. apply (outcome_eqb_eq value_eqb value_eqb_eq).
  - intros nx x ny y o. apply (outcome_eqb_eq pair_eqb' pair_eqb'_eq).
  - intros nx x ny y o. unfold inner_okb, inner_ok. destruct o as [l| |].
    + apply andb_iff; [apply Nat.eqb_eq| apply (list_eqb_spec pair_eqb' pair_eqb'_eq)].
    + rewrite <- andb_assoc. apply negb_iff.
      repeat apply andb_iff; try apply rectangularb_spec. apply nat_list_eqb_eq.
    + split; [discriminate|intros []].
Qed.
Print Assumptions C04_exec_spec_sound.

(* sanity of the recursive definition of "rectangular": every level k < n is uniform *)
Theorem C04_rect_levels :
  forall (n : nat) (v : value) (k : nat),
    rectangular n v -> k < n -> level_uniform (elements_at_depth k v).
Proof. intros n v k R Hk. eexists. apply (rect_levels k n v R Hk). Qed.
Print Assumptions C04_rect_levels.

(* any number of fields: flat n-ary outer splitter [f0, ..., fk] and inner splitter (f0, ..., fk),
   every field with its own container dimension >= 1 (None = plain list, dimension 1), any number of
   them nested, in any position.  Each field contributes its elements at its depth. *)
Theorem C04_outer_n :
  forall (f0 : field) (fs : list field),
    Forall field_ok (f0 :: fs) ->
    outer_n_ok (map op_of (f0 :: fs)) (splitN Outer f0 fs).
Proof.
  intros f0 fs H. unfold outer_n_ok, splitN.
  rewrite nary_ind_outer, (sequence_reads (get_tuple_prod (f0 :: fs) H)), map_map. reflexivity.
Qed.
Print Assumptions C04_outer_n.

Theorem C04_inner_n :
  forall (f0 : field) (fs : list field),
    Forall field_ok (f0 :: fs) ->
    inner_n_ok (map op_of (f0 :: fs)) (splitN Inner f0 fs).
Proof. exact splitN_inner. Qed.
Print Assumptions C04_inner_n.

(* the boolean checks the driver evaluates on the n-ary cases decide the Prop specs of C04_outer_n / C04_inner_n *)
Theorem C04_exec_spec_sound_n :
  (forall ops o, outer_n_okb ops o = true <-> outer_n_ok ops o) /\
  (forall ops o, inner_n_okb ops o = true <-> inner_n_ok ops o).
Proof.
  split; intros ops o.
  - apply (outcome_eqb_eq _ (list_eqb_spec _ value_eqb_eq)).
  - unfold inner_n_okb, inner_n_ok, same_dims. destruct o as [l| |].
    + apply andb_iff; [apply (same_as_head_spec (@List.length value) Nat.eqb Nat.eqb_eq)| apply (list_eqb_spec _ (list_eqb_spec _ value_eqb_eq))].
    + apply negb_iff, andb_iff.
      * apply forallb_Forall. intros p. apply rectangularb_spec.
      * apply (same_as_head_spec (fun p : operand => dims (fst p) (snd p)) _ nat_list_eqb_eq).
    + split; [discriminate|intros []].
Qed.
Print Assumptions C04_exec_spec_sound_n.

(* tuples as containers inside the split value (Model: tvalue/tflatten/tshape_rec/tsplit1): flatten opens
   lists and tuples, input_shape only lists; a one-field splitter over a list whose inner containers are any mix
   of lists and tuples still runs exactly the elements at depth n (both kinds opened), depth first *)
Theorem C04_full_tuples :
  forall (n : nat) (l : list tvalue), 1 <= n -> tsplit1 n l = Jobs (telements n (TList l)).
Proof.
  intros n l Hn. unfold tsplit1, tsingle_ind, tinput_shape, range.
  destruct n as [|c]; [lia|]. rewrite Nat.sub_succ, Nat.sub_0_r, tprod_shape_rec, tflatten_spec.
  now rewrite (sequence_reads (reads_nth_error _)).
Qed.
Print Assumptions C04_full_tuples.
