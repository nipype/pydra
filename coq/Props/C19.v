(* C19 — Task execution cannot silently alter its recorded inputs. *)
From Pydra Require Import Base.Prelude Model.CacheSeq Spec.CacheSeq Proofs.CacheSeqMut.

(* The property at full strength, for the hash H (blake2b; no hypothesis about it) and the
   encoding the tree under test uses (sh = numpy shape is hashed): after the body, every field is
   unchanged or the change is detected — up to a collision of H —, a detected change is reported to
   the caller, and the result is stored under the identity of the inputs as submitted. *)
Definition C19_full_statement (sh : bool) : Prop :=
  detect_statement sh /\ reported_statement /\
  (forall H re late shared i f, fst (fst (run_with_check sh H re late shared i f)) = checksum sh H i).

(* refuted on the current tree: without raise_errors (the default of every worker but debug) the
   RuntimeError of the post-run check is logged and the stored successful result returned (F19) *)
Theorem C19_refuted_swallowed : forall sh, ~ C19_full_statement sh.
Proof. intros sh (_ & R & _). exact (swallowed_without_raise_errors R). Qed.
Print Assumptions C19_refuted_swallowed.

(* the strongest positive statement: the shape being hashed (probed on the tree at run time),
   an unreported run leaves every field equal or hides the change behind a collision of H *)
Theorem C19_detect_or_unchanged :
  forall (H : list nat -> nat) (i i' : inputs),
    same_shape i i' -> hash_changes true H (field_hashes true H i) i' = [] ->
    Forall2 (fun f f' => snd f = snd f' \/
                         (ser true (snd f) <> ser true (snd f') /\ H (ser true (snd f)) = H (ser true (snd f')))) i i'.
Proof. exact detect_or_unchanged. Qed.
Print Assumptions C19_detect_or_unchanged.

(* for any encoding flag: unchanged, or missed in one of the two named ways *)
Theorem C19_undetected_classified :
  forall (sh : bool) (H : list nat -> nat) (i i' : inputs),
    same_shape i i' -> hash_changes sh H (field_hashes sh H i) i' = [] ->
    unchanged_or_missed (ser sh) H i i'.
Proof. exact undetected_classified. Qed.
Print Assumptions C19_undetected_classified.

Theorem C19_encoding_injective : forall x y, ser true x = ser true y -> x = y.
Proof. exact ser_injective. Qed.
Print Assumptions C19_encoding_injective.

(* a tree whose numpy hash ignores the shape misses an in-place reshape (inherits F08a) *)
Theorem C19_refuted_shape_not_hashed : ~ detect_statement false.
Proof. exact detect_refuted_without_shape. Qed.
Print Assumptions C19_refuted_shape_not_hashed.

(* no false alarm: a reported field really differs *)
Theorem C19_reported_fields_differ :
  forall (sh : bool) (H : list nat -> nat) (i i' : inputs) (k : string),
    same_shape i i' -> In k (hash_changes sh H (field_hashes sh H i) i') ->
    exists x y, In (k, x) i /\ In (k, y) i' /\ x <> y.
Proof. exact reported_fields_differ. Qed.
Print Assumptions C19_reported_fields_differ.

Theorem C19_identity_of_original :
  forall sh H re late shared i f g,
    fst (fst (run_with_check sh H re late shared i f)) = checksum sh H i /\
    fst (fst (run_with_check sh H re late shared i f)) = fst (fst (run_with_check sh H re late shared i g)).
Proof. split; reflexivity. Qed.
Print Assumptions C19_identity_of_original.

(* with raise_errors the caller is told exactly when a change was detected *)
Theorem C19_reported_with_raise_errors :
  forall sh H late shared i f,
    snd (run_with_check sh H true late shared i f) = snd (fst (run_with_check sh H true late shared i f)).
Proof. intros sh H late shared i f. apply andb_true_r. Qed.
Print Assumptions C19_reported_with_raise_errors.

Theorem C19_copy_mode_independent :
  forall (f : fs) (jobdir orig : string) (c : option nat),
    let '(f1, dest) := stage_copy f jobdir orig in
    dest <> orig /\ f1 dest = f orig /\ fs_set f1 dest c orig = f orig.
Proof.
  intros f jobdir orig c. pose proof (staged_path_differs jobdir orig) as N. cbn.
  repeat split; [exact N|apply fs_set_same|now rewrite !fs_set_other].
Qed.
Print Assumptions C19_copy_mode_independent.
