(* C25 — Command-line templates define the task they spell out. *)
From Pydra Require Import Base.Prelude Model.CmdTemplate Spec.CmdTemplate Proofs.CmdTemplate.
From Coq Require Import Sorting.Permutation.
Local Open Scope string_scope.

(* every well-formed template of the documented grammar (one modifier per field; "$" only on outputs; no default on
   outputs; defaults are literals of the written type; distinct names) is accepted *)
Theorem C25_accepts : forall ts, wf_template ts = true -> exists fs, fields_of_ast ts = POk fs.
Proof.
  intros ts H. pose proof (fields_of_ast_cases ts) as C. destruct (fields_of_ast ts); [eauto|congruence].
Qed.
Print Assumptions C25_accepts.

(* inference: the k-th token's field has the name, input/output kind, type, optionality (?), multiplicity (+, * ),
   default (=), path template ($, or name + extension of the type), flag and position (k+1) the token spells *)
Theorem C25_inference :
  forall ts fs, Forall flags_nonempty ts -> fields_of_ast ts = POk fs ->
    List.length fs = List.length ts /\
    forall k t f, nth_error ts k = Some t -> nth_error fs k = Some f -> spells k t f.
Proof. exact inference. Qed.
Print Assumptions C25_inference.

(* order: whatever order the task's attrs class iterates its fields in (any permutation), the argument vector of the
   defined task is the executable followed by what the tokens spell, in template order *)
Theorem C25_order :
  forall executable ts fs vs fvs,
    Forall flags_nonempty ts -> fields_of_ast ts = POk fs ->
    List.length vs = List.length ts ->
    forallb value_ok vs = true -> forallb flag_ok ts = true ->
    Permutation fvs (combine fs vs) ->
    command_args executable fvs [] = expected_argv executable (combine ts vs).
Proof. exact order. Qed.
Print Assumptions C25_order.

(* position_sort on its own: entries that are a permutation of a list with strictly increasing non-negative
   positions come out in exactly that order *)
Theorem C25_position_sort :
  forall (A : Type) (entries sorted : list (Z * A)),
    Sorted.StronglySorted key_lt sorted -> Forall (fun e => (0 <= fst e)%Z) sorted ->
    Permutation entries sorted -> position_sort entries = map snd sorted.
Proof. exact @position_sort_sorted. Qed.
Print Assumptions C25_position_sort.

Definition ex_template : list token :=
  [ Arg "a" (Some (TySingle (TP PInt))) SNone;
    Opt "--opt" (Arg "x" None SOptional);
    Out "o" (Some (TySingle (TF FPng))) SNone;
    Flag "-v" "verbose" None;
    Opt "-y" (Arg "d" (Some (TyTuple [TP PInt; TP PStr])) SPlus) ].
Definition ex_values : list fvalue :=
  [ VScalar (SText "3"); VScalar (SText "xx"); out_value "/out" "o.png"; VFlag true;
    VMulti [STuple ["1"; "p"]; STuple ["2"; "q"]] ].

Example C25_example :
  wf_template ex_template = true /\ forallb value_ok ex_values = true /\ forallb flag_ok ex_template = true /\
  exists fs, fields_of_ast ex_template = POk fs /\
    map f_template fs = [None; None; Some "o.png"; None; None] /\
    command_args ["cmd"] (rev (combine fs ex_values)) [] =
      ["cmd"; "3"; "--opt"; "xx"; "/out/o.png"; "-v"; "-y"; "1"; "p"; "-y"; "2"; "q"].
Proof. repeat split; try reflexivity. eexists. repeat split; reflexivity. Qed.

(* the boolean reading of "spells" that the driver evaluates on every observed field implies the Prop above *)
Theorem C25_spellsb_sound : forall i t f, spellsb i t f = true -> spells i t f.
Proof. exact spellsb_sound. Qed.
Print Assumptions C25_spellsb_sound.
