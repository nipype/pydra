(* C05 — Equivalent splitter spellings agree; ill-formed split/combine is rejected early. *)
From Pydra Require Import Base.Prelude Model.State Spec.State Proofs.StateSpell.

(* (1) two spellings related by one-element wrappers and re-bracketing of outer chains / inner chains run the
       same jobs with the same inputs in the same order (or are both rejected for shape);
   (2) a request is accepted by the model of Task.split / Task.combine / Submitter / combiner_validation exactly
       when it is not ill-formed in one of the listed ways, and a rejected request runs no task body. *)
Definition C05_full_statement : Prop :=
  (forall (e : env) (s t : spl), respell s t -> wfb s = true -> wfb t = true ->
     prepare_states e s = prepare_states e t) /\
  (forall r : req, (exists os, validate r = inr os) <-> ~ illformed r) /\
  (forall (e : env) (r : req), illformed r -> exists v, submit e r = Rejected v /\ bodies (submit e r) = 0).

Theorem C05_full : C05_full_statement.
Proof. split; [exact respell_same_jobs| split; [exact validate_ok_iff| exact illformed_no_job]]. Qed.
Print Assumptions C05_full.

(* a bare field, a one-element list and a one-element tuple have the same RPN *)
Theorem C05_singleton : forall s, rpn (Outer [s]) = rpn s /\ rpn (Inner [s]) = rpn s.
Proof. exact rpn_single. Qed.
Print Assumptions C05_singleton.

(* re-spelling changes neither the reference expansion nor the order of the fields *)
Theorem C05_respell_expand : forall e s t, respell s t -> expand e s = expand e t /\ leaves s = leaves t.
Proof. intros e s t R. split; [exact (respell_expand e s t R)| exact (respell_leaves s t R)]. Qed.
Print Assumptions C05_respell_expand.

Theorem C05_assoc_outer : forall e l1 m l2, m <> [] ->
  expand e (Outer (l1 ++ Outer m :: l2)) = expand e (Outer (l1 ++ m ++ l2)).
Proof. intros. apply respell_expand. now constructor. Qed.
Print Assumptions C05_assoc_outer.

Theorem C05_assoc_inner : forall e l1 m l2, m <> [] ->
  expand e (Inner (l1 ++ Inner m :: l2)) = expand e (Inner (l1 ++ m ++ l2)).
Proof. intros. apply respell_expand. now constructor. Qed.
Print Assumptions C05_assoc_inner.

Theorem C05_shape_reject_no_job : forall e r, submit e r = RejectedShape -> bodies (submit e r) = 0.
Proof. exact rejected_shape_no_job. Qed.
Print Assumptions C05_shape_reject_no_job.

(* a request is judged alike whether the task is submitted directly or added to a workflow as a node *)
Definition with_node (b : bool) (r : req) : req :=
  {| r_split_called := r_split_called r; r_split := r_split r; r_vals := r_vals r; r_nonseq := r_nonseq r;
     r_comb := r_comb r; r_task := r_task r; r_node := b |}.
Theorem C05_node_same : forall (r : req) (b : bool), validate (with_node b r) = validate r.
Proof. intros r b. rewrite !validate_eq. reflexivity. Qed.
Print Assumptions C05_node_same.

Example C05_example_respell :
  respell (Outer [Fld 0; Outer [Inner [Fld 1; Inner [Fld 2; Fld 3]]; Outer [Fld 4]]])
          (Outer [Outer [Fld 0; Inner [Inner [Fld 1; Fld 2]; Fld 3]]; Fld 4]).
Proof.
  eapply rs_trans; [apply (rs_assoc_outer [Fld 0] [Inner [Fld 1; Inner [Fld 2; Fld 3]]; Outer [Fld 4]] []); discriminate|].
  cbn [app].
  eapply rs_trans; [apply (rs_cong_outer [Fld 0; Inner [Fld 1; Inner [Fld 2; Fld 3]]] (Outer [Fld 4]) (Fld 4) []); apply rs_single_outer|].
  cbn [app].
  eapply rs_trans; [apply (rs_cong_outer [Fld 0] (Inner [Fld 1; Inner [Fld 2; Fld 3]]) (Inner [Fld 1; Fld 2; Fld 3]) [Fld 4]);
                    apply (rs_assoc_inner [Fld 1] [Fld 2; Fld 3] []); discriminate|].
  cbn [app].
  apply rs_sym.
  eapply rs_trans; [apply (rs_assoc_outer [] [Fld 0; Inner [Inner [Fld 1; Fld 2]; Fld 3]] [Fld 4]); discriminate|].
  cbn [app].
  apply (rs_cong_outer [Fld 0] (Inner [Inner [Fld 1; Fld 2]; Fld 3]) (Inner [Fld 1; Fld 2; Fld 3]) [Fld 4]).
  apply (rs_assoc_inner [] [Fld 1; Fld 2] [Fld 3]); discriminate.
Qed.

Example C05_example_validate :
  let ok := {| r_split_called := true; r_split := Some (Outer [Fld 0; Inner [Fld 1; Fld 2]]); r_vals := [2; 0; 1];
               r_nonseq := []; r_comb := Some [1]; r_task := [0; 1; 2; 3]; r_node := false |} in
  validate ok = inr (Some (Outer [Fld 0; Inner [Fld 1; Fld 2]])) /\
  validate {| r_split_called := true; r_split := Some (Outer [Fld 0; Fld 0]); r_vals := [0]; r_nonseq := [];
              r_comb := None; r_task := [0; 1]; r_node := true |} = inl VDup /\
  validate {| r_split_called := true; r_split := Some (Outer [Fld 0; Fld 1]); r_vals := [0; 1]; r_nonseq := [];
              r_comb := Some [2]; r_task := [0; 1; 2]; r_node := true |} = inl VCombNotSplit /\
  validate {| r_split_called := false; r_split := None; r_vals := []; r_nonseq := [];
              r_comb := Some [0]; r_task := [0; 1]; r_node := false |} = inl VCombNoSplit /\
  validate {| r_split_called := false; r_split := None; r_vals := []; r_nonseq := [];
              r_comb := Some [0]; r_task := [0; 1]; r_node := true |} = inl VCombNoSplit.
Proof. repeat split. Qed.
