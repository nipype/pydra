(* C17 — workflow results do not depend on worker or schedule (partial: the model covers the two
   scheduling loops, every oracle and every max_concurrent; real pool timing and cloudpickle
   transport of jobs are runtime behaviour covered by the correspondence run only). *)
From Pydra Require Import Base.Prelude Base.SchedBase Model.Sched Spec.Sched Proofs.SchedH Proofs.SchedI Proofs.SchedTermA Proofs.SchedO.

(* job values are an uninterpreted function `body` of (node, index, values read from the results of
   the predecessor nodes' jobs when the node is started) *)
Theorem C17_confluence :
  forall (V : Type) (body : nat -> nat -> list (list (option V)) -> V) (vr : variant) (g : graph)
         (k1 k2 k3 : option nat) (o1 o2 : list oracle_step) (f1 f2 f3 : nat),
    fix14 vr = true -> wf_graph g ->
    let nofail := fun _ : job => false in
    let r1 := run_async V body nofail vr g k1 o1 f1 in
    let r2 := run_async V body nofail vr g k2 o2 f2 in
    let r3 := run_sync V body nofail vr g k3 f3 in
    o_status r1 = Finished -> o_status r2 = Finished -> o_status r3 = Finished ->
    node_outputs g r1 = reference_outputs V body g
    /\ node_outputs g r2 = reference_outputs V body g
    /\ node_outputs g r3 = reference_outputs V body g.
Proof.
  intros V body vr g k1 k2 k3 o1 o2 f1 f2 f3 F WF nofail r1 r2 r3 S1 S2 S3.
  split; [|split].
  - apply async_outputs; auto.
  - apply async_outputs; auto.
  - apply sync_outputs; auto.
Qed.
Print Assumptions C17_confluence.

(* Termination included: every node has at least one job and every max_concurrent is >= 1; then for
   EVERY pair of oracles the runs end by themselves within |jobs| + 1 iterations and agree. *)
Theorem C17_confluence_total :
  forall (V : Type) (body : nat -> nat -> list (list (option V)) -> V) (vr : variant) (g : graph)
         (k1 k2 k3 : option nat) (o1 o2 : list oracle_step) (f1 f2 f3 : nat),
    fix14 vr = true -> wf_graph g -> (forall nd, In nd g -> 1 <= njobs nd) ->
    (forall k, k1 = Some k -> 1 <= k) -> (forall k, k2 = Some k -> 1 <= k) -> (forall k, k3 = Some k -> 1 <= k) ->
    List.length (all_jobs g) + 1 <= f1 -> List.length (all_jobs g) + 1 <= f2 -> List.length (all_jobs g) + 1 <= f3 ->
    let nofail := fun _ : job => false in
    node_outputs g (run_async V body nofail vr g k1 o1 f1) = reference_outputs V body g
    /\ node_outputs g (run_async V body nofail vr g k2 o2 f2) = reference_outputs V body g
    /\ node_outputs g (run_sync V body nofail vr g k3 f3) = reference_outputs V body g.
Proof.
  intros V body vr g k1 k2 k3 o1 o2 f1 f2 f3 F WF NJ K1 K2 K3 B1 B2 B3 nofail.
  apply C17_confluence; auto.
  - apply async_terminates; auto.
  - apply async_terminates; auto.
  - apply sync_terminates; auto.
Qed.
Print Assumptions C17_confluence_total.

(* the reference semantics satisfies its defining equation: the value of job (n, i) is `body`
   applied to the reference values of every job of every predecessor node *)
Theorem C17_reference_equation :
  forall (V : Type) (body : nat -> nat -> list (list (option V)) -> V) (g : graph) (nd : node) (i : nat),
    wf_graph g -> In nd g -> i < njobs nd ->
    env_lookup V (nid nd, i) (reference V body g) =
    Some (body (nid nd) i (ref_inputs V g (reference V body g) nd)).
Proof. intros. apply Proofs.SchedSpec.reference_char; assumption. Qed.
Print Assumptions C17_reference_equation.

Example C17_hyps_nonvacuous :
  let g := [mkNode 0 [] 2; mkNode 1 [0] 1; mkNode 2 [0] 3; mkNode 3 [1; 2] 1] in
  o_status (run_async tv T (fun _ => false) repaired g (Some 2) [mkStep [1] [true]; mkStep [0; 5] [false; true]] 40) = Finished
  /\ o_status (run_async tv T (fun _ => false) repaired g None [mkStep [0] []; mkStep [3] [true; true]] 40) = Finished
  /\ o_status (run_sync tv T (fun _ => false) repaired g (Some 1) 40) = Finished.
Proof. vm_compute. repeat split. Qed.

(* Confluence when some jobs fail: in any two asynchronous runs (any oracles, any max_concurrent) that end by
   themselves, every job that is not downstream of a failure and does not fail itself has the same value —
   the reference value.  (Runs with failures end Finished or Stalled, C14_full_total; the values are claimed
   for the Finished ones.) *)
Theorem C17_confluence_with_failures :
  forall (V : Type) (body : nat -> nat -> list (list (option V)) -> V) (fails : job -> bool) (vr : variant)
         (g : graph) (k1 k2 : option nat) (o1 o2 : list oracle_step) (f1 f2 : nat),
    fix14 vr = true -> wf_graph g ->
    let r1 := run_async V body fails vr g k1 o1 f1 in
    let r2 := run_async V body fails vr g k2 o2 f2 in
    o_status r1 = Finished -> o_status r2 = Finished ->
    forall nd i, In nd g -> i < njobs nd -> should_run_b g fails (nid nd, i) = true -> fails (nid nd, i) = false ->
    value_of (ls_w (o_final r1)) (nid nd, i) = env_lookup V (nid nd, i) (reference V body g)
    /\ value_of (ls_w (o_final r2)) (nid nd, i) = env_lookup V (nid nd, i) (reference V body g).
Proof.
  intros V body fails vr g k1 k2 o1 o2 f1 f2 F WF r1 r2 S1 S2 nd i Hnd Hi SR NFj.
  apply Proofs.SchedSpec.should_run_b_true in SR. destruct SR as [_ T]. cbn in T.
  split.
  - apply (async_values_untainted V body fails vr F g WF k1 o1 f1 S1 nd Hnd T i Hi NFj).
  - apply (async_values_untainted V body fails vr F g WF k2 o2 f2 S2 nd Hnd T i Hi NFj).
Qed.
Print Assumptions C17_confluence_with_failures.

(* non-vacuity: a failing source n0, an independent chain n1 -> n2: two different oracles, both runs Finished,
   n2 = (2,0) is not downstream of the failure and has the same (reference) value in both *)
Example C17_failures_nonvacuous :
  let g := [mkNode 0 [] 1; mkNode 1 [] 1; mkNode 2 [1] 1; mkNode 3 [0] 1] in
  let fl := fun j => job_eqb j (0, 0) in
  let r1 := run_async tv T fl repaired g None [mkStep [1] [true]; mkStep [0] []] 20 in
  let r2 := run_async tv T fl repaired g (Some 1) [] 20 in
  o_status r1 = Finished /\ o_status r2 = Finished /\ should_run_b g fl (2, 0) = true /\ fl (2, 0) = false
  /\ should_run_b g fl (3, 0) = false
  /\ option_eqb tv_eqb (value_of (ls_w (o_final r1)) (2, 0)) (value_of (ls_w (o_final r2)) (2, 0)) = true
  /\ option_eqb tv_eqb (value_of (ls_w (o_final r1)) (2, 0)) (Some (T 2 0 [[Some (T 1 0 [])]])) = true.
Proof. vm_compute. repeat split. Qed.

(* Sequential loop, graphs with zero-job nodes anywhere (no hypothesis on the number of jobs of a node):
   2 * (|jobs| + |nodes|) + 3 passes suffice and the outputs are the reference outputs. *)
Theorem C17_sync_reference_any :
  forall (V : Type) (body : nat -> nat -> list (list (option V)) -> V) (vr : variant) (g : graph) (k : option nat) (fuel : nat),
    fix14 vr = true -> wf_graph g -> (forall k', k = Some k' -> 1 <= k') ->
    2 * (List.length (all_jobs g) + List.length g) + 3 <= fuel ->
    node_outputs g (run_sync V body (fun _ => false) vr g k fuel) = reference_outputs V body g.
Proof.
  intros V body vr g k fuel F WF KP B. apply sync_outputs; auto. apply sync_terminates_any; auto.
Qed.
Print Assumptions C17_sync_reference_any.

Example C17_sync_any_nonvacuous :
  let g := [mkNode 0 [] 0; mkNode 1 [0] 2; mkNode 2 [1] 1] in
  wf_graph g /\ 2 * (List.length (all_jobs g) + List.length g) + 3 <= 15
  /\ outs_eqb (node_outputs g (run_sync tv T (fun _ => false) repaired g None 15)) (reference_outputs tv T g) = true.
Proof. vm_compute. repeat split; repeat constructor. Qed.

(* Asynchronous loop with empty nodes: fewer than ten nodes with zero jobs (the stall block allows ten empty
   polls), no failing job, max_concurrent >= 1 or none: for every oracle, |jobs| + 2 iterations suffice and the
   outputs are the reference outputs (any two such runs agree). *)
Theorem C17_async_reference_bounded_empty :
  forall (V : Type) (body : nat -> nat -> list (list (option V)) -> V) (vr : variant) (g : graph)
         (k : option nat) (orc : list oracle_step) (fuel : nat),
    fix14 vr = true -> wf_graph g -> (forall k', k = Some k' -> 1 <= k') ->
    List.length (filter (fun nd => njobs nd =? 0) g) + 2 <= 11 ->
    List.length (all_jobs g) + 2 <= fuel ->
    node_outputs g (run_async V body (fun _ => false) vr g k orc fuel) = reference_outputs V body g.
Proof.
  intros V body vr g k orc fuel F WF KP EZ B. apply async_outputs; auto.
  apply (async_terminates_bounded_empty V body (fun _ => false) vr F g WF k (fun _ => eq_refl) KP); [exact EZ|exact B].
Qed.
Print Assumptions C17_async_reference_bounded_empty.

Example C17_bounded_empty_nonvacuous :
  let g := [mkNode 0 [] 0; mkNode 1 [0] 2; mkNode 2 [1] 0; mkNode 3 [1; 2] 1] in
  wf_graph g /\ List.length (filter (fun nd => njobs nd =? 0) g) + 2 <= 11 /\ List.length (all_jobs g) + 2 <= 5
  /\ outs_eqb (node_outputs g (run_async tv T (fun _ => false) repaired g (Some 1) [mkStep [1] [true]] 5)) (reference_outputs tv T g) = true.
Proof. vm_compute. repeat split; repeat constructor. Qed.
