(* C29 — Jobs and results survive serialization to worker processes (partial: the model is thin; what
   cloudpickle does to concrete Python values is assumed [cp] and exercised by the correspondence run). *)
From Pydra Require Import Base.Prelude Model.Pickle Spec.Pickle Proofs.Pickle.
Local Open Scope string_scope.

(* For every class table (what each __getstate__ drops / blanks, what each __setstate__ recreates and pushes
   into held objects — read off the live classes by the driver), every object graph and every faithful
   cloudpickle: if the round trip succeeds, every attribute outside the transient sets is restored, at every
   depth.  *)
Theorem C29_roundtrip_nontransient :
  forall (t : list (string * descr)) (cp : nat -> option nat),
    (forall n m, cp n = Some m -> m = n) -> push_wfb t = true ->
    forall v v', rt (table t) cp v = Some v' -> survives (table t) v v'.
Proof. exact roundtrip_nontransient_table. Qed.
Print Assumptions C29_roundtrip_nontransient.

(* Job.checksum reads only `_checksum` and `task`; when neither is transient for the job's class the
   deserialized job has the same cache identity, whatever the task hash function is. *)
Theorem C29_identity_preserved :
  forall (t : list (string * descr)) (cp : nat -> option nat) (task_hash : val -> nat) c l v' n,
    (forall n m, cp n = Some m -> m = n) -> push_wfb t = true ->
    identity_safe (table t) c = true -> lookup "task" l = Some (VData n) ->
    rt (table t) cp (VObj c l) = Some v' ->
    checksum task_hash v' = checksum task_hash (VObj c l).
Proof.
  intros t cp task_hash c l v' n F W S T E.
  exact (survives_checksum _ _ _ _ _ n S T (roundtrip_nontransient_table t cp F W _ _ E)).
Qed.
Print Assumptions C29_identity_preserved.

(* every constructor parameter of the job, submitter, worker, … (the list is read off the live signatures) is
   restored, provided the classes do not declare any of them transient — which the driver checks on the
   live table (config_safeb is part of the specification evaluated on every case) *)
Theorem C29_required_survive :
  forall t cp req c l v',
    (forall n m, cp n = Some m -> m = n) -> push_wfb t = true -> config_safeb t req = true ->
    rt (table t) cp (VObj c l) = Some v' ->
    exists l', v' = VObj c l' /\
      forall ks k, In (c, ks) req -> In k ks -> opt_rel (survives (table t)) (lookup k l) (lookup k l').
Proof.
  intros t cp req c l v' F W S E.
  destruct (survives_obj_inv _ _ _ _ (roundtrip_nontransient_table t cp F W _ _ E)) as (l' & -> & Hk).
  exists l'. split; [reflexivity|]. intros ks k Hc Hin. exact (Hk k (config_safe_not_transient t req c ks k S Hc Hin)).
Qed.
Print Assumptions C29_required_survive.

(* the round trip is defined exactly when no live resource sits outside the attributes __getstate__ removes
   or blanks (cloudpickle never failing on plain data) *)
Theorem C29_pickling_defined_iff :
  forall (desc : string -> descr) (cp : nat -> option nat), (forall n, cp n <> None) ->
    forall v, picklableb desc v = true <-> exists v', rt desc cp v = Some v'.
Proof.
  intros desc cp T v. split.
  - intros H. rewrite (picklable_is_some desc cp T) in H. destruct (rt desc cp v) as [v'|]; [now exists v'|discriminate].
  - intros [v' H]. now rewrite (picklable_is_some desc cp T), H.
Qed.
Print Assumptions C29_pickling_defined_iff.

(* the comparison the driver evaluates on (object before, object observed in the other process) is sound *)
Theorem C29_check_sound :
  forall desc a b, survivesb desc a b = true -> survives desc a b.
Proof. exact survivesb_sound. Qed.
Print Assumptions C29_check_sound.

Theorem C29_example_table :
  push_wfb ex_table = true /\ identity_safe (table ex_table) "Job" = true /\
  picklableb (table ex_table) ex_job = true /\
  exists v', rt (table ex_table) Some ex_job = Some v' /\ survives (table ex_table) ex_job v'.
Proof.
  destruct ex_roundtrip as (A & B & C & D). repeat apply conj; try assumption.
  eexists. split; [exact D|]. apply roundtrip_nontransient_table with (cp := Some); auto.
  intros n m H. inversion H. reflexivity.
Qed.
Print Assumptions C29_example_table.
