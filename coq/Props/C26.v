(* C26 — Output path templates resolve inside the job directory. *)
From Pydra Require Import Base.Prelude Base.PyPath Base.PyFormat Model.Template Spec.Template Proofs.Template Proofs.ListFacts.

(* the property at full strength: every path resolved from a path template lies strictly inside the job directory *)
Definition C26_full_statement : Prop :=
  forall (o : outarg) (values : env) (job_dir : list ascii) (r : resolved),
    resolve_output o values job_dir = Ok r -> all_inside job_dir r.

(* false on the unchanged code: the template ".." resolves to the parent of the job directory (finding F26) *)
Theorem C26_refuted_dotdot : ~ C26_full_statement.
Proof.
  intros H. specialize (H dotdot_outarg [] (la_of "/cache/job") (ROne (la_of "/cache/job/..")) eq_refl).
  cbn in H. apply insideb_spec in H. vm_compute in H. discriminate.
Qed.
Print Assumptions C26_refuted_dotdot.

(* ... and a template that fills in to "." resolves to the job directory itself *)
Theorem C26_refuted_jobdir :
  exists o values cd r, resolve_output o values cd = Ok r /\ ~ all_inside cd r /\ r = ROne (la_of "/cache/job").
Proof.
  exists jobdir_outarg, [(la_of "a", VAtom (AStr (la_of ".")))], (la_of "/cache/job"), (ROne (la_of "/cache/job")).
  split; [reflexivity|]. split; [|reflexivity].
  intros H. cbn in H. apply insideb_spec in H. vm_compute in H. discriminate.
Qed.
Print Assumptions C26_refuted_jobdir.

(* partial: for every outarg, template, input values and job directory, each resolved path is
   job_dir / (last component of the filled-in template); it is strictly inside the job directory when that
   component is neither missing nor "..", and it is not inside otherwise (so the guard is exact) *)
Theorem C26_inside :
  forall o values cd r,
    resolve_output o values cd = Ok r ->
    exists f, template_formatting o values = Ok f /\
      resolved_paths r = map (in_cache cd) (formatted_strings f) /\
      (forall s, In s (formatted_strings f) ->
         (bad_name s = false ->
            in_cache_path cd s = {| p_anchor := p_anchor (parse cd); p_comps := (p_comps (parse cd) ++ [pname (parse s)])%list |}
            /\ inside_str cd (in_cache cd s)) /\
         (bad_name s = true -> ~ inside_str cd (in_cache cd s))).
Proof.
  intros o values cd r H. destruct (resolve_output_shape _ _ _ _ H) as (f & Hf & ->).
  exists f. split; [exact Hf|]. split; [now destruct f|].
  intros s _. split.
  - intros Hb. split; [|now apply in_cache_inside_iff].
    rewrite in_cache_path_cases. unfold bad_name in Hb. now destruct (pname (parse s)).
  - intros Hb Hin. apply in_cache_inside_iff in Hin. congruence.
Qed.
Print Assumptions C26_inside.

(* the same with the excluded input class as one computable predicate (the driver's classifier for F26) *)
Theorem C26_partial :
  forall o values cd r,
    resolve_output o values cd = Ok r -> degenerate_name o values = false -> all_inside cd r.
Proof.
  intros o values cd r H Hd. destruct (resolve_output_shape _ _ _ _ H) as (f & Hf & ->).
  unfold degenerate_name in Hd. rewrite Hf in Hd. destruct f as [|s|l]; cbn.
  - exact I.
  - now apply in_cache_inside_iff.
  - apply Forall_forall. intros x Hx. apply in_map_iff in Hx. destruct Hx as (s & <- & Hs).
    apply in_cache_inside_iff. exact (existsb_false_at Hd Hs).
Qed.
Print Assumptions C26_partial.

Example C26_partial_nontrivial :
  let o := {| o_multi := false; o_keep := true; o_template := TOne (la_of "{a}_out") |} in
  let values := [(la_of "a", VAtom (APath (la_of "/data/in/x.nii.gz")))] in
  resolve_output o values (la_of "/cache/job") = Ok (ROne (la_of "/cache/job/x_out.nii.gz"))
  /\ degenerate_name o values = false.
Proof. split; reflexivity. Qed.

(* what Job.inputs holds for the outarg when the template is used *)
Theorem C26_partial_job_inputs :
  forall o values cd r,
    resolve_input o GTrue values cd = Ok r -> degenerate_name o values = false -> all_inside cd r.
Proof. exact C26_partial. Qed.
Print Assumptions C26_partial_job_inputs.

(* an explicitly supplied output path is used as given (up to pathlib's own normalisation of the text) *)
Theorem C26_explicit_as_given :
  forall o s values cd, exists x, resolve_input o (GPath s) values cd = Ok (ROne x) /\ same_path x s.
Proof.
  intros o s values cd. exists (pstr (parse s)). split; [reflexivity|]. unfold same_path, pstr. apply parse_render, parse_wf.
Qed.
Print Assumptions C26_explicit_as_given.

(* deterministic: the resolved path is a function of the job directory and of the values of the fields the
   template references (the names the code's two regexes find) — no other input can influence it *)
Theorem C26_deterministic :
  forall o g v1 v2 cd,
    (forall n, In n (template_refs o) -> lookup n v1 = lookup n v2) ->
    resolve_output o v1 cd = resolve_output o v2 cd /\ resolve_input o g v1 cd = resolve_input o g v2 cd.
Proof.
  intros o g v1 v2 cd H. assert (E : resolve_output o v1 cd = resolve_output o v2 cd).
  { unfold resolve_output. now rewrite (template_formatting_frame o v1 v2 H). }
  split; [exact E|]. destruct g; cbn; auto.
Qed.
Print Assumptions C26_deterministic.

(* keep_extension = False ("dropping as declared"): two input assignments that differ only in the extensions of
   their path-valued fields resolve to the same path *)
Theorem C26_ext_dropped :
  forall o v1 v2 cd, o_keep o = false -> same_up_to_ext v1 v2 -> resolve_output o v1 cd = resolve_output o v2 cd.
Proof.
  intros o v1 v2 cd Hk Hv. unfold resolve_output, template_formatting. rewrite Hk. destruct (o_template o) as [t|ts].
  - now rewrite (single_dropped (o_multi o) t v1 v2 Hv).
  - rewrite (mapM_ext _ (fun t => single_template_formatting (o_multi o) false t v2) ts); [reflexivity|].
    intros t _. now apply single_dropped.
Qed.
Print Assumptions C26_ext_dropped.

Example C26_ext_dropped_nontrivial :
  file_stem_path (la_of "/data/in/x.nii.gz") = file_stem_path (la_of "/data/in/x.txt")
  /\ resolve_output {| o_multi := false; o_keep := false; o_template := TOne (la_of "{a}_out") |}
       [(la_of "a", VAtom (APath (la_of "/data/in/x.nii.gz")))] (la_of "/cache/job") = Ok (ROne (la_of "/cache/job/x_out")).
Proof. split; reflexivity. Qed.

(* keep_extension = True ("keeping as declared"): when the input file has an extension e, the template has no '.'
   of its own and references the file once, formatting gives the keep_extension = False text followed by "." e *)
Theorem C26_ext_kept :
  forall t d n f e,
    all_word n = true -> n <> [] ->
    file_ext f = Some e -> has_dot t = false ->
    (forall ps, tokenize t = Ok ps -> count_field n ps <= 1) ->
    element_formatting t d (Some (n, f)) true =
    bind (element_formatting t d (Some (n, f)) false) (fun s => Ok (s ++ "."%char :: e)%list).
Proof.
  intros t d n f e Hw Hne He Hd Hc. unfold element_formatting. rewrite He, Hd. cbn [negb dot_join].
  destruct (ends_with t (field_ref n)) eqn:Ee.
  - rewrite !dict_set_set. now apply format_trailing_field.
  - now rewrite bind_ok_id.
Qed.
Print Assumptions C26_ext_kept.

Example C26_ext_kept_nontrivial :
  let t := la_of "pre_{a}" in let n := la_of "a" in let f := la_of "/data/in/x.nii.gz" in
  all_word n = true /\ file_ext f = Some (la_of "nii.gz") /\ has_dot t = false
  /\ (exists ps, tokenize t = Ok ps /\ count_field n ps = 1)
  /\ element_formatting t [] (Some (n, f)) true = Ok (la_of "pre_/data/in/x.nii.gz").
Proof. repeat split; try reflexivity. eexists. split; reflexivity. Qed.
