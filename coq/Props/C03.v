(* C03 — workflow state propagation = nested-loop reference evaluation. *)
From Pydra Require Import Base.Prelude Model.StateWf Spec.StateWf Proofs.StateWf Proofs.StateWfMain Proofs.StateWfCor.

(* the property at full strength: on every well-formed workflow of the modelled fragment the model
   (= the code) produces exactly the nested-loop outputs *)
Definition C03_full_statement : Prop :=
  forall wf : workflow, wf_ok wf = true -> model_run wf = Some (spec_run wf).

(* false on the unchanged tree: the diamond multiplies the shared origin (finding F03) *)
Theorem C03_refuted : ~ C03_full_statement.
Proof. exact refuted. Qed.
Print Assumptions C03_refuted.

Theorem C03_diamond_multiplies :
  option_map (map (fun v => match v with VList l => List.length l | _ => 0 end)) (model_run diamond) = Some [3; 3; 3; 9]
  /\ spec_njobs diamond = [3; 3; 3; 3].
Proof. exact diamond_counts. Qed.
Print Assumptions C03_diamond_multiplies.

(* the strongest positive theorem: for every workflow (any number of nodes, any list lengths, any own splitters
   and combiners) in which the state-carrying inputs of every node either carry separate origins (no open axis
   in common, none an input of another) or are exactly a state that has no state-carrying input itself and a node
   that only hands that state on, the model's outputs are the nested-loop outputs.  The excluded class is
   computable: share_class wf = false (finding F03). *)
Theorem C03_partial : forall wf : workflow,
  c03_aligned wf = true -> zip_len_ok wf = true -> model_run wf = Some (spec_run wf).
Proof. exact aligned. Qed.
Print Assumptions C03_partial.

(* own inner (zip) splitters mixed with outer ones, combiners named by any field of a zip group, both outputs of
   every node (each input chooses which one it consumes); a nested-workflow node is the same opaque node, only the
   harness builds it differently.
   model_run2 / spec_run2 are what the harness observes: both outputs of every node; spec_run2 is None exactly when
   two zipped fields differ in length (rejection).  The class: c03_aligned after combiner names are replaced by their
   group leaders, equal zip shapes, and two conditions that the proof does not use and that only mark where the
   model follows the code: no node with a combiner keeps a zip group open (F03z = inherited F02), combiners name
   whole zip groups (F03y). *)
Theorem C03_partial2 : forall wf : workflow, c03_class2 wf = true -> model_run2 wf = spec_run2 wf.
Proof. exact partial2. Qed.
Print Assumptions C03_partial2.
Example C03_partial2_zip_example : c03_class2 zip_example = true /\ spec_njobs (normalize zip_example) = [6; 6; 6].
Proof. split; [exact zip_example_in_class | exact zip_example_njobs]. Qed.

Theorem C03_separate_origins : forall wf : workflow,
  c03_domain wf = true -> zip_len_ok wf = true -> model_run wf = Some (spec_run wf).
Proof. exact partial. Qed.
Print Assumptions C03_separate_origins.

(* direct sharing: an origin reaching a node both directly and through an intermediate that only hands its state on
   (no splitter, no combiner of its own) is aligned (the _add_state_history case) — for all lists vs, us, ws and both
   field orders *)
Theorem C03_shared_direct : forall (vs us ws : list Z) (flip : bool),
  model_run (shared_direct vs us ws flip) = Some (spec_run (shared_direct vs us ws flip)).
Proof. exact shared_direct_ok. Qed.
Print Assumptions C03_shared_direct.
Example C03_shared_direct_not_separate : c03_domain (shared_direct [1; 2]%Z [3]%Z [4; 5]%Z false) = false.
Proof. exact shared_direct_not_separate. Qed.
Example C03_shared_direct_counts :
  spec_njobs (shared_direct [1; 2]%Z [3]%Z [4; 5]%Z false) = [2; 2; 4; 4]
  /\ option_map (map (fun v => match v with VList l => List.length l | _ => 0 end))
       (model_run (shared_direct [1; 2]%Z [3]%Z [4; 5]%Z false)) = Some [2; 2; 4; 4].
Proof. exact shared_direct_counts. Qed.

Example C03_partial_fanin_example : c03_domain fanin_example = true.
Proof. exact fanin_example_in_class. Qed.

(* chains, fan-out, trees of pipelines: every node takes all its upstream inputs from one node (possibly
   through several fields, with own splitters and combiners) — any length, any list sizes *)
Theorem C03_chain : forall wf : workflow,
  wf_ok wf = true -> zip_len_ok wf = true -> forallb single_input wf = true -> model_run wf = Some (spec_run wf).
Proof. exact chain_class. Qed.
Print Assumptions C03_chain.

Example C03_chain_example : wf_ok chain_example = true /\ forallb single_input chain_example = true.
Proof. exact chain_example_in_class. Qed.

(* fan-in of independent origins: the inputs of every node have pairwise no common ancestor
   (a graph condition: the provenance of every node is a forest) *)
Theorem C03_fanin_independent : forall wf : workflow,
  wf_ok wf = true -> zip_len_ok wf = true -> independent_inputs wf = true -> model_run wf = Some (spec_run wf).
Proof. exact fanin_class. Qed.
Print Assumptions C03_fanin_independent.

Example C03_fanin_example : independent_inputs fanin_example = true.
Proof. exact fanin_example_independent. Qed.
Example C03_diamond_excluded : independent_inputs diamond = false /\ c03_domain diamond = false.
Proof. exact diamond_not_independent. Qed.

(* the harness observes model_run3 / spec_run3, which also know nodes whose splitter pairs two upstream states
   explicitly, ("_A", "_B") (Model.build_pair, Spec.spec_entry_pair).  Nothing is proved about pair nodes:
   c03_class3 = "no pair node" && c03_class2, i.e. C03_partial3 only carries C03_partial2 over to the observable
   functions the correspondence run uses; pair nodes are compared with model and spec differentially. *)
Theorem C03_partial3 : forall w3 : workflow3, c03_class3 w3 = true -> model_run3 w3 = spec_run3 w3.
Proof. exact partial3. Qed.
Print Assumptions C03_partial3.
