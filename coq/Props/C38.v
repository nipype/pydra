(* C38 — Mount lookup compares whole path components. *)
From Pydra Require Import Base.Prelude Model.Mount Spec.Mount Proofs.Mount.

Definition C38_full_statement : Prop :=
  forall (matches : table) (path : string),
    is_mount_of (parse_table matches) path (find (matches_entry path) (parse_table matches)).

Theorem C38_full : C38_full_statement.
Proof. intros matches path. apply find_longest, parse_table_sorted. Qed.
Print Assumptions C38_full.

Theorem C38_sibling_never_confused :
  forall (t : table) (path : string) (e : entry),
    find (matches_entry path) t = Some e -> comp_prefix (fst e) path.
Proof. intros t path e H. apply find_some in H. now apply comp_prefixb_spec. Qed.
Print Assumptions C38_sibling_never_confused.

Theorem C38_table_longest_first : forall matches, len_desc (parse_table matches).
Proof. exact parse_table_sorted. Qed.
Print Assumptions C38_table_longest_first.
