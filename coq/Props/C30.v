(* C30 — Workflow construction caching and repeated runs are transparent.
   Model: Model/WfCache.v (Workflow.construct's class-level cache, clear_cache, task objects, result store);
   Spec: Spec/WfCache.v (every construct / run shows what a fresh process shows for the task as it is now).
   The model is of pydra after the repair of finding F30 (no per-task `_constructed` memo). *)
From Pydra Require Import Base.Prelude Model.WfCache Spec.WfCache Proofs.WfCache.
Local Open Scope string_scope.
Local Open Scope list_scope.

(* The property at full strength on the modelled family of workflow classes: every history of
   new / setattr / copy / evolve / construct / Workflow.construct(lazy, dont_cache) / run / clear_cache
   operations is observationally equal to the cache-free reference. *)
Definition C30_full_statement : Prop :=
  forall ops : list cop, map c_abs (c_history ops) = c_spec_history ops.

(* refuted (finding F30b): t = Inner(x=5, flag=0) whose constructor says `if flag: Add else: Sub`;
   Workflow.construct(t, lazy=["flag"]); run t  -->  105 instead of -95 *)
Theorem C30_refuted_nonparametric : ~ C30_full_statement.
Proof. exact full_statement_refuted. Qed.
Print Assumptions C30_refuted_nonparametric.

(* the positive statement on the same family: outside the computable class `c_excluded`
   (a request whose constructor builds a different resolved graph when inputs that were lazy in an
   earlier request are handed to it lazily) every history is transparent *)
Theorem C30_partial :
  forall ops : list cop, c_excluded ops = false -> map c_abs (c_history ops) = c_spec_history ops.
Proof. exact concrete_partial. Qed.
Print Assumptions C30_partial.

Example C30_partial_example :
  c_excluded [ ONew W_cond [("x", AVal (VInt 5%Z)); ("flag", AVal (VInt 1%Z))];
               OWConstruct 0 ["flag"] false; ORun 0 false; OSet 0 "x" (AVal (VInt 7%Z)); ORun 0 false ] = false.
Proof. vm_compute. reflexivity. Qed.

(* ... and in that history the run really goes through a superset-of-lazy hit (the theorem is not
   vacuous on the interesting path): model and spec both give 105 *)
Example C30_superset_path_example :
  let h := [ ONew W_cond [("x", AVal (VInt 5%Z)); ("flag", AVal (VInt 1%Z))];
             OWConstruct 0 ["flag"] false; ORun 0 false ] in
  nth 2 (c_history h) NoObs = ObsOut (Some (VInt 105%Z)) (Some Superset) /\
  nth 2 (c_spec_history h) SNone = SOut (Some (VInt 105%Z)).
Proof. vm_compute. split; reflexivity. Qed.

(* the same for ANY value type, class type, constructor, resolution and execution function and
   any digests, under the explicit hypotheses: digest comparison is equality, no collisions,
   distinct field names *)
Theorem C30_partial_abstract :
  forall (V T G R HT HD HC : Type) (ht_eqb : HT -> HT -> bool) (hd_eqb : HD -> HD -> bool) (hc_eqb : HC -> HC -> bool)
         (hash_type : T -> HT) (hash_dict : list (fname * V) -> HD) (checksum : T -> list (fname * V) -> HC)
         (type_name : T -> string) (fields : T -> list fname) (default : T -> fname -> attr V)
         (ctor : T -> list (fname * arg V) -> G) (subst : list (fname * V) -> G -> G) (eval : G -> R)
         (g_eqb : G -> G -> bool),
    (forall a b : HT, ht_eqb a b = true <-> a = b) ->
    (forall a b : HD, hd_eqb a b = true <-> a = b) ->
    (forall a b : HC, hc_eqb a b = true <-> a = b) ->
    (forall a b : G, g_eqb a b = true <-> a = b) ->
    (forall a b : T, hash_type a = hash_type b -> a = b) ->
    (forall a b : list (fname * V), hash_dict a = hash_dict b -> a = b) ->
    (forall (t : T) (l : list (fname * V)) (t' : T) (l' : list (fname * V)),
        checksum t l = checksum t' l' -> t = t' /\ l = l') ->
    (forall t : T, NoDup (fields t)) ->
    forall ops : list (op V T),
      excluded V T G fields default ctor subst g_eqb ops = false ->
      map (abs_obs V G R subst)
          (history V T G R HT HD HC ht_eqb hd_eqb hc_eqb hash_type hash_dict checksum type_name fields default
                   ctor subst eval ops)
      = spec_history V T G R type_name fields default ctor subst eval ops.
Proof. exact history_transparent. Qed.
Print Assumptions C30_partial_abstract.

(* full transparency for constructors that treat lazy inputs parametrically *)
Theorem C30_parametric_full :
  forall (V T G R HT HD HC : Type) (ht_eqb : HT -> HT -> bool) (hd_eqb : HD -> HD -> bool) (hc_eqb : HC -> HC -> bool)
         (hash_type : T -> HT) (hash_dict : list (fname * V) -> HD) (checksum : T -> list (fname * V) -> HC)
         (type_name : T -> string) (fields : T -> list fname) (default : T -> fname -> attr V)
         (ctor : T -> list (fname * arg V) -> G) (subst : list (fname * V) -> G -> G) (eval : G -> R)
         (g_eqb : G -> G -> bool),
    (forall a b : HT, ht_eqb a b = true <-> a = b) ->
    (forall a b : HD, hd_eqb a b = true <-> a = b) ->
    (forall a b : HC, hc_eqb a b = true <-> a = b) ->
    (forall a b : G, g_eqb a b = true <-> a = b) ->
    (forall a b : T, hash_type a = hash_type b -> a = b) ->
    (forall a b : list (fname * V), hash_dict a = hash_dict b -> a = b) ->
    (forall (t : T) (l : list (fname * V)) (t' : T) (l' : list (fname * V)),
        checksum t l = checksum t' l' -> t = t' /\ l = l') ->
    (forall t : T, NoDup (fields t)) ->
    parametric V T G ctor subst ->
    forall ops : list (op V T),
      map (abs_obs V G R subst)
          (history V T G R HT HD HC ht_eqb hd_eqb hc_eqb hash_type hash_dict checksum type_name fields default
                   ctor subst eval ops)
      = spec_history V T G R type_name fields default ctor subst eval ops.
Proof. exact parametric_transparent. Qed.
Print Assumptions C30_parametric_full.

(* the hypotheses are met by a non-trivial instance: the generated classes without `if <field>:`
   (digests = the hashed things themselves) *)
Theorem C30_family_full : forall ops : list cop, map c_abs (pf_history ops) = pf_spec_history ops.
Proof. exact family_transparent. Qed.
Print Assumptions C30_family_full.

(* after ANY history: an exact hit returns precisely the fresh construction of the request *)
Theorem C30_exact_hit_sound :
  forall (V T G R HT HD HC : Type) (ht_eqb : HT -> HT -> bool) (hd_eqb : HD -> HD -> bool) (hc_eqb : HC -> HC -> bool)
         (hash_type : T -> HT) (hash_dict : list (fname * V) -> HD) (checksum : T -> list (fname * V) -> HC)
         (type_name : T -> string) (fields : T -> list fname) (default : T -> fname -> attr V)
         (ctor : T -> list (fname * arg V) -> G) (subst : list (fname * V) -> G -> G) (eval : G -> R)
         (g_eqb : G -> G -> bool),
    (forall a b : HT, ht_eqb a b = true <-> a = b) ->
    (forall a b : HD, hd_eqb a b = true <-> a = b) ->
    (forall a b : G, g_eqb a b = true <-> a = b) ->
    (forall a b : T, hash_type a = hash_type b -> a = b) ->
    (forall a b : list (fname * V), hash_dict a = hash_dict b -> a = b) ->
    (forall t : T, NoDup (fields t)) ->
    forall (ops : list (op V T)) (t : T) (attrs : list (fname * attr V)) (lazy : list fname) (dc : bool)
           (c' : cache V G HT HD) (w : wf V G),
      map fst attrs = fields t ->
      construct V T G HT HD ht_eqb hd_eqb hash_type hash_dict type_name ctor
        (wcache V T G R HT HD HC
           (state_after V T G R HT HD HC ht_eqb hd_eqb hc_eqb hash_type hash_dict checksum type_name fields
                        default ctor subst eval (st0 V T G R HT HD HC) ops))
        t attrs lazy dc = (c', w, Exact) ->
      w = fresh V T G type_name ctor t attrs lazy.
Proof. intros until g_eqb. intros Hht Hhd _. now apply exact_hit_sound. Qed.
Print Assumptions C30_exact_hit_sound.

(* after ANY history: a superset-of-lazy hit shows the fresh construction, provided the constructor
   is parametric at this request (pointwise, computable hypothesis) *)
Theorem C30_superset_hit_sound :
  forall (V T G R HT HD HC : Type) (ht_eqb : HT -> HT -> bool) (hd_eqb : HD -> HD -> bool) (hc_eqb : HC -> HC -> bool)
         (hash_type : T -> HT) (hash_dict : list (fname * V) -> HD) (checksum : T -> list (fname * V) -> HC)
         (type_name : T -> string) (fields : T -> list fname) (default : T -> fname -> attr V)
         (ctor : T -> list (fname * arg V) -> G) (subst : list (fname * V) -> G -> G) (eval : G -> R)
         (g_eqb : G -> G -> bool),
    (forall a b : HT, ht_eqb a b = true <-> a = b) ->
    (forall a b : HD, hd_eqb a b = true <-> a = b) ->
    (forall a b : G, g_eqb a b = true <-> a = b) ->
    (forall a b : T, hash_type a = hash_type b -> a = b) ->
    (forall a b : list (fname * V), hash_dict a = hash_dict b -> a = b) ->
    (forall t : T, NoDup (fields t)) ->
    forall (ops : list (op V T)) (t : T) (attrs : list (fname * attr V)) (lazy : list fname) (dc : bool)
           (c' : cache V G HT HD) (w : wf V G),
      map fst attrs = fields t ->
      (forall ks : list fname, nonparam_at V T G ctor subst g_eqb t attrs lazy ks = false) ->
      construct V T G HT HD ht_eqb hd_eqb hash_type hash_dict type_name ctor
        (wcache V T G R HT HD HC
           (state_after V T G R HT HD HC ht_eqb hd_eqb hc_eqb hash_type hash_dict checksum type_name fields
                        default ctor subst eval (st0 V T G R HT HD HC) ops))
        t attrs lazy dc = (c', w, Superset) ->
      view V G subst w = view V G subst (fresh V T G type_name ctor t attrs lazy).
Proof. exact superset_hit_sound. Qed.
Print Assumptions C30_superset_hit_sound.

(* after ANY history and for ANY constructor (no parametricity): whatever path construct takes,
   the returned workflow carries the requester's own input values, lazy exactly where the
   requester is lazy -- no construction's inputs leak into another's *)
Theorem C30_no_leak :
  forall (V T G R HT HD HC : Type) (ht_eqb : HT -> HT -> bool) (hd_eqb : HD -> HD -> bool) (hc_eqb : HC -> HC -> bool)
         (hash_type : T -> HT) (hash_dict : list (fname * V) -> HD) (checksum : T -> list (fname * V) -> HC)
         (type_name : T -> string) (fields : T -> list fname) (default : T -> fname -> attr V)
         (ctor : T -> list (fname * arg V) -> G) (subst : list (fname * V) -> G -> G) (eval : G -> R)
         (g_eqb : G -> G -> bool),
    (forall a b : HT, ht_eqb a b = true <-> a = b) ->
    (forall a b : HD, hd_eqb a b = true <-> a = b) ->
    (forall a b : G, g_eqb a b = true <-> a = b) ->
    (forall a b : T, hash_type a = hash_type b -> a = b) ->
    (forall a b : list (fname * V), hash_dict a = hash_dict b -> a = b) ->
    (forall t : T, NoDup (fields t)) ->
    forall (ops : list (op V T)) (t : T) (attrs : list (fname * attr V)) (lazy : list fname) (dc : bool)
           (c' : cache V G HT HD) (w : wf V G) (h : hit),
      map fst attrs = fields t ->
      construct V T G HT HD ht_eqb hd_eqb hash_type hash_dict type_name ctor
        (wcache V T G R HT HD HC
           (state_after V T G R HT HD HC ht_eqb hd_eqb hc_eqb hash_type hash_dict checksum type_name fields
                        default ctor subst eval (st0 V T G R HT HD HC) ops))
        t attrs lazy dc = (c', w, h) ->
      wname w = type_name t /\ winputs w = spec_inputs V attrs lazy.
Proof. intros until g_eqb. intros Hht Hhd _. now apply no_leak. Qed.
Print Assumptions C30_no_leak.

(* object identity (Model: `ids`, allocation numbers of task objects): in EVERY history, for ANY digests
   and constructors and without any hypothesis, the `inputs` object of a returned workflow is never one
   of the user's task objects (new / copy.copy / attrs.evolve), and a setattr never writes to an object
   held by the class-level cache.  So a later setattr on a task that was used for a construction cannot
   change a cached workflow (what `lazy_spec = copy(task)` is for). *)
Theorem C30_no_alias :
  forall (V T G R HT HD HC : Type) (ht_eqb : HT -> HT -> bool) (hd_eqb : HD -> HD -> bool) (hc_eqb : HC -> HC -> bool)
         (hash_type : T -> HT) (hash_dict : list (fname * V) -> HD) (checksum : T -> list (fname * V) -> HC)
         (type_name : T -> string) (fields : T -> list fname) (default : T -> fname -> attr V)
         (ctor : T -> list (fname * arg V) -> G) (subst : list (fname * V) -> G -> G) (eval : G -> R)
         (ops : list (op V T)),
    Forall (fun o : idobs =>
              (forall n, id_ret o = Some n -> ~ In n (id_user o)) /\
              (forall n, id_written o = Some n -> ~ In n (id_cached o)))
           (id_history V T G R HT HD HC ht_eqb hd_eqb hc_eqb hash_type hash_dict checksum type_name fields
                       default ctor subst eval ops).
Proof. exact history_no_alias. Qed.
Print Assumptions C30_no_alias.
