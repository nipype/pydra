(* C02 — Combine groups job outputs into an exact, ordered partition. *)
From Coq Require Import Permutation Sorting.Sorted.
From Pydra Require Import Base.Prelude Model.State Spec.State Proofs.StateComb Proofs.StateProj Proofs.StateClass2.

(* the property at full strength: for every well-formed splitter, every non-empty combiner subset of its fields
   and all non-empty lists, the groups the model of State.prepare_states computes are the reference partition *)
Definition C02_full_statement : Prop :=
  forall (e : env) (s : spl) (comb : list nat),
    wf s -> comb <> [] -> (forall x, In x comb -> In x (leaves s)) ->
    (forall f, In f (leaves s) -> nprod (e f) >= 1) -> jobs e s <> None ->
    groups_of (prepare_combined e s comb) = spec_groups e s comb.

(* ['a', ['b', ('c', 'd')]] combined over a, b: the model (and the code) return [[0;2]; []; []; [1;3]] *)
Theorem C02_refuted : ~ C02_full_statement.
Proof.
  intros H. pose (s := Outer [Fld 0; Outer [Fld 1; Inner [Fld 2; Fld 3]]]). pose (e := fun f => nth f [[2]; [1]; [2]; [2]] []).
  assert (W : wf s). { split; [reflexivity|]. repeat constructor; cbn; intuition discriminate. }
  assert (A : forall x, In x [0; 1] -> In x (leaves s)) by (cbn; intuition).
  assert (B : forall f, In f (leaves s) -> nprod (e f) >= 1) by (cbn; intros f [<-|[<-|[<-|[<-|[]]]]]; cbn; lia).
  specialize (H e s [0; 1] W ltac:(discriminate) A B). vm_compute in H. specialize (H ltac:(discriminate)). discriminate.
Qed.
Print Assumptions C02_refuted.

(* no output is lost or duplicated, members stay in enumeration order: whenever the model of
   State.prepare_states (with combiner) returns groups, every job index occurs in exactly one group *)
Theorem C02_partition : forall (e : env) (s : spl) (comb : list nat) si m,
  prepare_combined e s comb = inr (si, m) ->
  Permutation (List.concat m) (seq 0 (List.length si)) /\ Forall (StronglySorted lt) m.
Proof. exact combined_partition. Qed.
Print Assumptions C02_partition.

(* the strongest positive statement: outside the computable class `good_removalb s comb = false` (finding F02)
   the groups are one per job of the remaining splitter, in its order, each holding in order the jobs whose
   remaining fields equal it *)
Theorem C02_partial : forall (e : env) (s : spl) (comb : list nat),
  wfb s = true -> NoDup (leaves s) -> comb <> [] -> (forall f, In f (leaves s) -> nprod (e f) >= 1) ->
  good_removalb s comb = true ->
  groups_of (prepare_combined e s comb) = spec_groups_pruned e s comb.
Proof. exact combined_pruned. Qed.
Print Assumptions C02_partial.

(* when the linked fields are all the fields, nothing of the splitter remains and the one group holds every job *)
Theorem C02_all : forall (e : env) (s : spl) (comb : list nat) js,
  wfb s = true -> NoDup (leaves s) -> comb <> [] -> (forall f, In f (leaves s) -> nprod (e f) >= 1) ->
  good_removalb s comb = true -> jobs e s = Some js -> prune (linked s comb) s = None ->
  groups_of (prepare_combined e s comb) = Some [seq 0 (List.length js)].
Proof. exact combined_all. Qed.
Print Assumptions C02_all.

(* fields of one axis (zipped by an inner product) are combined together, whichever of them the combiner names *)
Theorem C02_linked : forall s comb ax f g,
  In ax (axes s) -> In f ax -> In f comb -> In g ax -> In g (linked s comb).
Proof. exact linked_axis. Qed.
Print Assumptions C02_linked.

(* the two formulations of the reference partition (indexed by the jobs of the remaining splitter / by the
   distinct remaining assignments in order of first appearance) coincide when every inner product is over plain
   fields and is combined as a whole or not at all *)
Theorem C02_formulations_agree : forall (e : env) (s : spl) (comb : list nat),
  wfb s = true -> flat_innerb s = true -> closedb (linked s comb) s = true ->
  (forall f, In f (leaves s) -> nprod (e f) >= 1) ->
  spec_groups_pruned e s comb = spec_groups e s comb.
Proof. intros e s comb _. apply pruned_is_distinct. Qed.
Print Assumptions C02_formulations_agree.

(* hence, for every splitter whose inner products are over plain fields and outside the F02 class, the model
   computes the property's own partition: one group per distinct assignment of the remaining axes, in order of first
   appearance, each holding in enumeration order exactly the jobs with that assignment *)
Theorem C02_partial_flat : forall (e : env) (s : spl) (comb : list nat),
  wfb s = true -> NoDup (leaves s) -> comb <> [] -> (forall f, In f (leaves s) -> nprod (e f) >= 1) ->
  flat_innerb s = true -> good_removalb s comb = true ->
  groups_of (prepare_combined e s comb) = spec_groups e s comb.
Proof. exact combined_flat. Qed.
Print Assumptions C02_partial_flat.

(* a SYNTACTIC class on which the computable condition of C02_partial is proved for every size: flat outer products
   [f1, f2, ..., fn] (n >= 2 distinct fields, the all-outer splitter in its flat spelling) with ANY non-empty
   combiner over their fields.  For them the model of splits_groups/combine_final_groups yields exactly the combined
   fields and the model of remove_inp_from_splitter_rpn returns the RPN of the remaining flat product (when the first
   field is removed it is the most recently scanned surviving operator that is popped - which is the right one here,
   and the wrong one for the F02 witness ['a',['b',('c','d')]], which is outside this class). *)
Theorem C02_good_removal_class : forall (fs comb : list nat),
  2 <= List.length fs -> NoDup fs -> comb <> [] -> (forall c, In c comb -> In c fs) ->
  good_removalb (Outer (map Fld fs)) comb = true.
Proof.
  intros fs comb L N Hne Hsub. destruct (atoms_of_fields fs) as [<- F].
  apply good_removal_atoms; rewrite ?map_length, ?F; assumption.
Qed.
Print Assumptions C02_good_removal_class.

(* on that class the groups ARE the property's partition (first-appearance formulation), for all non-empty lists *)
Theorem C02_class_groups : forall (e : env) (fs comb : list nat),
  2 <= List.length fs -> NoDup fs -> comb <> [] -> (forall c, In c comb -> In c fs) ->
  (forall f, In f fs -> nprod (e f) >= 1) ->
  groups_of (prepare_combined e (Outer (map Fld fs)) comb) = spec_groups e (Outer (map Fld fs)) comb.
Proof.
  intros e fs comb L N Hne Hsub Pos. destruct (atoms_of_fields fs) as [<- F].
  apply atoms_spec_groups; rewrite ?map_length, ?F; assumption.
Qed.
Print Assumptions C02_class_groups.

Example C02_class_example :
  good_removalb (Outer (map Fld [3; 0; 2; 5; 1])) [2; 3; 1] = true /\
  groups_of (prepare_combined (fun f => [S (Nat.modulo f 3)]) (Outer (map Fld [3; 0; 2; 5; 1])) [2; 3; 1]) =
    Some [[0; 1; 6; 7; 12; 13]; [2; 3; 8; 9; 14; 15]; [4; 5; 10; 11; 16; 17]] /\
  (* the F02 witness is not in the class and the condition fails there *)
  good_removalb (Outer [Fld 0; Outer [Fld 1; Inner [Fld 2; Fld 3]]]) [0; 1] = false.
Proof. vm_compute. repeat split. Qed.

(* a wider SYNTACTIC class: flat outer products whose operands are plain fields or inner PAIRS of plain fields,
   [f1, (g1,g2), f3, (h1,h2), ...], at least two operands, all fields distinct, ANY non-empty combiner over the fields
   (a pair is then combined as a whole, because combining one of its fields links the other).  `atom`, `sa`, `afields`
   are defined in Proofs/StateClass2.v: AF f is the field f, AP g1 g2 the tuple (g1, g2). *)
Theorem C02_good_removal_class_pairs : forall (L : list atom) (comb : list nat),
  2 <= List.length L -> NoDup (flat_map afields L) -> comb <> [] -> (forall c, In c comb -> In c (flat_map afields L)) ->
  good_removalb (Outer (map sa L)) comb = true.
Proof. intros L comb Len N _. exact (good_removal_atoms L comb Len N). Qed.
Print Assumptions C02_good_removal_class_pairs.

Theorem C02_class_pairs_groups : forall (e : env) (L : list atom) (comb : list nat),
  2 <= List.length L -> NoDup (flat_map afields L) -> comb <> [] -> (forall c, In c comb -> In c (flat_map afields L)) ->
  (forall f, In f (flat_map afields L) -> nprod (e f) >= 1) ->
  groups_of (prepare_combined e (Outer (map sa L)) comb) = spec_groups e (Outer (map sa L)) comb.
Proof. exact atoms_spec_groups. Qed.
Print Assumptions C02_class_pairs_groups.

(* non-vacuity, and why the class stops at pairs: with an inner group of THREE fields the condition fails exactly when
   the first operand is combined and the first surviving operand is that group (the removal then pops a '.' of the
   group instead of its '*': the F02 mechanism); the nested all-outer tree of the last line satisfies the condition, as do the four of
   C02_nested_outer_examples; not every such tree does (see there) *)
Example C02_class_pairs_example :
  let s := Outer (map sa [AP 1 2; AF 0; AP 3 4; AF 6]) in
  good_removalb s [0; 1] = true /\ good_removalb s [2] = true /\ good_removalb s [4; 6; 1] = true /\
  groups_of (prepare_combined (fun f => [2]) s [0; 1]) = spec_groups (fun f => [2]) s [0; 1] /\
  good_removalb (Outer [Fld 0; Inner [Fld 1; Fld 2; Fld 3]]) [0] = false /\
  good_removalb (Outer [Inner [Fld 1; Fld 2]; Fld 0; Inner [Fld 3; Fld 4; Fld 5]; Fld 6]) [0; 1] = false /\
  good_removalb (Outer [Inner [Fld 1; Fld 2]; Fld 0; Inner [Fld 3; Fld 4; Fld 5]; Fld 6]) [3] = true /\
  good_removalb (Outer [Outer [Fld 0; Outer [Fld 1; Outer [Fld 2; Fld 3]]]; Outer [Outer [Fld 4; Fld 5]; Fld 6]]) [0; 4; 5] = true.
Proof. vm_compute. repeat split. Qed.

(* nested all-outer trees are not a class on which the condition holds: on [a,[[[b,c],d],e]] combined over a
   (Outer [Fld 0; Outer [Outer [Outer [Fld 1; Fld 2]; Fld 3]; Fld 4]], [0]) the count-based removal returns b c * d e * *,
   a re-bracketing of the RPN b c * d * e * of the pruned tree: good_removalb is false there, the groups are still the
   reference partition.  Evidence only (every non-empty combiner of four nested trees with 5-7 fields, evaluated): the
   condition holds on all of them, i.e. the removal returns exactly the RPN of the pruned tree there, not merely an
   equivalent re-bracketing. *)
Fixpoint all_subsets (l : list nat) : list (list nat) :=
  match l with [] => [[]] | x :: r => all_subsets r ++ map (cons x) (all_subsets r) end.
Definition all_combiners_good (s : spl) : bool :=
  forallb (fun c => match c with [] => true | _ => good_removalb s c end) (all_subsets (leaves s)).
Example C02_nested_outer_examples :
  all_combiners_good (Outer [Outer [Fld 0; Fld 1]; Outer [Fld 2; Outer [Fld 3; Fld 4]]]) = true /\
  all_combiners_good (Outer [Outer [Outer [Fld 0; Fld 1]; Fld 2]; Outer [Fld 3; Fld 4; Fld 5]]) = true /\
  all_combiners_good (Outer [Fld 0; Outer [Outer [Fld 1; Fld 2]; Outer [Fld 3; Fld 4]]; Fld 5]) = true /\
  all_combiners_good (Outer [Outer [Fld 0; Outer [Fld 1; Outer [Fld 2; Fld 3]]]; Outer [Outer [Fld 4; Fld 5]; Fld 6]]) = true.
Proof. vm_compute. repeat split. Qed.

(* finding F02b: the declared nesting of the outputs (State.depth, used by nest_output_type) is computed from the
   combiner as written, not from the linked fields: for ([a,d],[c,b]) combined over a,b everything is combined
   (depth 0, one flat list) but the declared depth is 1, and the run fails with a TypeError after all jobs ran *)
Definition C02_declared_depth_statement : Prop :=
  forall (s : spl) (comb : list nat), wf s -> (forall x, In x comb -> In x (leaves s)) ->
    state_depth s comb = state_depth s (linked s comb).
Theorem C02_declared_depth_refuted : ~ C02_declared_depth_statement.
Proof.
  intros H. pose (s := Inner [Outer [Fld 0; Fld 3]; Outer [Fld 2; Fld 1]]).
  assert (W : wf s). { split; [reflexivity|]. repeat constructor; cbn; intuition discriminate. }
  assert (A : forall x, In x [0; 1] -> In x (leaves s)) by (cbn; intuition).
  specialize (H s [0; 1] W A). vm_compute in H. discriminate.
Qed.
Print Assumptions C02_declared_depth_refuted.

(* non-vacuity: the hypotheses of C02_partial hold for the inner-pair splitter when the pair itself is combined,
   and the two formulations of the reference agree there; they fail for the F02 witness *)
Example C02_example :
  let s := Outer [Fld 0; Outer [Fld 1; Inner [Fld 2; Fld 3]]] in
  let e := fun f => nth f [[2]; [1]; [2]; [2]] [] in
  good_removalb s [2] = true /\ good_removalb s [0; 1] = false /\
  groups_of (prepare_combined e s [2]) = Some [[0; 1]; [2; 3]] /\
  spec_groups e s [2] = Some [[0; 1]; [2; 3]] /\ spec_groups_pruned e s [2] = Some [[0; 1]; [2; 3]] /\
  linked s [2] = [2; 3] /\ flat_innerb s = true /\ closedb (linked s [2]) s = true.
Proof. vm_compute. repeat split. Qed.
