(* C22 — Shell argument vector follows the documented field semantics. *)
From Pydra Require Import Base.Prelude Base.Shlex Model.Shell Spec.Shell
  Proofs.ShellRefute Proofs.ShellAssign Proofs.ShellOrderThm Proofs.ShellContrib Proofs.ShellArgv.
Local Open Scope list_scope.

(* the property at full strength: every accepted definition (functional or class form), every value assignment *)
Definition C22_full_statement : Prop := C22_statement.

(* the unchanged code violates it (each witness is replayed against pydra by the driver) *)
Theorem C22_refuted_gap : ~ C22_full_statement.
Proof. exact refuted_gap. Qed.
Print Assumptions C22_refuted_gap.

(* the other four finding classes (F22b-e), each as a computed pair: what the model yields on the witness beside what
   the reference says *)
Theorem C22_refuted_class_form :
  task_argv ClassForm echo (map to_field cls_fields) cls_vals (AppList [])
    = Good (map la_of ["echo"; "-a"; "A"; "-m"; "M"; "-z"; "Z"]%string)
  /\ spec_argv echo cls_fields cls_vals [] = map la_of ["echo"; "-z"; "Z"; "-a"; "A"; "-m"; "M"]%string
  /\ task_argv Functional echo (map to_field cls_fields) cls_vals (AppList []) = Good (spec_argv echo cls_fields cls_vals []).
Proof. repeat split; vm_compute; reflexivity. Qed.
Print Assumptions C22_refuted_class_form.

Theorem C22_refuted_wrap :
  has_dup (raw_positions wrap_fields) = false /\
  task_argv Functional echo (map to_field wrap_fields) [sv "o" "O"; sv "m" "M"] (AppList []) = Bad EOverlap.
Proof. split; vm_compute; reflexivity. Qed.
Print Assumptions C22_refuted_wrap.

Theorem C22_refuted_falsy :
  task_argv Functional echo (map to_field zero_fields) [(la_of "n", VAtom (AInt 0))] (AppList []) = Good [la_of "echo"]
  /\ spec_argv echo zero_fields [(la_of "n", VAtom (AInt 0))] [] = map la_of ["echo"; "-n"; "0"]%string.
Proof. split; vm_compute; reflexivity. Qed.
Print Assumptions C22_refuted_falsy.

Theorem C22_refuted_dots_sep :
  task_argv Functional echo (map to_field dots_fields) dots_vals (AppList []) = Good (map la_of ["echo"; "-r"; "1,"; "-r"; "2"]%string)
  /\ spec_argv echo dots_fields dots_vals [] = map la_of ["echo"; "-r"; "1"; "-r"; "2"]%string.
Proof. split; vm_compute; reflexivity. Qed.
Print Assumptions C22_refuted_dots_sep.

(* strongest positive statement: for ALL definitions and values inside the computable class c22_in_domain
   (Spec/Shell.v) the faithful model of define + _command_args yields exactly the reference vector *)
Theorem C22_partial : forall e fs vals app,
  c22_in_domain Functional e fs vals = true ->
  task_argv Functional e (map to_field fs) vals (AppList app) = Good (spec_argv e fs vals app).
Proof. exact argv_in_domain. Qed.
Print Assumptions C22_partial.

(* the class is not trivial: an explicit position below the first free slot, negatives, flags, lists with '...', templates, a
   multi-input, an unset optional, shell metacharacters in the values *)
Definition ex_fields : list sfield :=
  [mkS (la_of "out") TPath (SA [[Lit (la_of "-o")]; [Self]] false) (Some (-1)%Z) (la_of " ");
   mkS (la_of "v") TBool (SA [[Lit (la_of "--verbose")]] false) None (la_of " ");
   mkS (la_of "inp") TList (SA [[Lit (la_of "-i")]] true) (Some 1%Z) (la_of " ");
   mkS (la_of "k") TInt (SA [[Lit (la_of "--k="); Self]] false) None (la_of " ");
   mkS (la_of "m") TMulti (SA [[Lit (la_of "-m")]] false) (Some (-2)%Z) (la_of " ");
   mkS (la_of "l") TList (SA [[Lit (la_of "--l")]] false) None (la_of ",");
   mkS (la_of "u") TStr (SA [[Lit (la_of "-u")]] false) None (la_of " ")].
Definition ex_vals : vals_t :=
  [(la_of "out", VAtom (APath (la_of "res/$x*.txt"))); (la_of "v", VBool true);
   (la_of "inp", VList [AStr (la_of "a;b"); AStr (la_of "c|d")]); (la_of "k", VAtom (AInt 7));
   (la_of "m", VList [AStr (la_of "p"); AStr (la_of "q")]); (la_of "l", VList [AInt 1; AInt 2]); (la_of "u", VNone)].
Example C22_partial_nontrivial :
  c22_in_domain Functional echo ex_fields ex_vals = true /\
  spec_argv echo ex_fields ex_vals [la_of "x y"] =
    map la_of ["echo"; "-i"; "a;b"; "-i"; "c|d"; "--verbose"; "--k=7"; "--l"; "1,2"; "-m"; "p"; "-m"; "q"; "-o"; "res/$x*.txt"; "x y"]%string.
Proof. split; vm_compute; reflexivity. Qed.

(* a numeric 0 / 0.0 is dropped only where Python's `if value:` is consulted (argstr without placeholder, F22d);
   inside a template it is an ordinary member of the class *)
Example C22_partial_zero_templated :
  let fs := [mkS (la_of "level") TInt (SA [[Lit (la_of "--level="); Self]] false) None (la_of " ");
             mkS (la_of "sc") TFloat (SA [[Lit (la_of "-s")]; [Self]] false) None (la_of " ")] in
  let vals := [(la_of "level", VAtom (AInt 0)); (la_of "sc", VAtom (AFloat (la_of "0.0") false))] in
  c22_in_domain Functional echo fs vals = true /\
  spec_argv echo fs vals [] = map la_of ["echo"; "--level=0"; "-s"; "0.0"]%string.
Proof. split; vm_compute; reflexivity. Qed.

(* Optional-typed fields are classified after unwrapping (optional_type): a `bool | None` flag switched on is still a
   flag, an `int | None` / `list[str] | None` / `MultiInputObj[str] | None` behaves like its base kind *)
Example C22_partial_optional_kinds :
  let fs := [mkS (la_of "force") (TOpt TBool) (SA [[Lit (la_of "--force")]] false) None (la_of " ");
             mkS (la_of "n") (TOpt TInt) (SA [[Lit (la_of "-n")]] false) None (la_of " ");
             mkS (la_of "m") (TOpt TMulti) (SA [[Lit (la_of "-m")]] false) None (la_of " ");
             mkS (la_of "l") (TOpt TList) (SA [[Lit (la_of "-l")]] true) None (la_of " ");
             mkS (la_of "q") (TOpt TBool) (SA [[Lit (la_of "-q")]] false) None (la_of " ")] in
  let vals := [(la_of "force", VBool true); (la_of "n", VAtom (AInt 3)); (la_of "m", VList []);
               (la_of "l", VList [AStr (la_of "a"); AStr (la_of "b")]); (la_of "q", VNone)] in
  c22_in_domain Functional echo fs vals = true /\
  spec_argv echo fs vals [] = map la_of ["echo"; "--force"; "-n"; "3"; "-l"; "a"; "-l"; "b"]%string.
Proof. split; vm_compute; reflexivity. Qed.

(* order: define() gives every unpositioned field a position; sorting by those positions is the stated order
   whenever each explicit non-negative position lies below the first implicit one -- whatever the fields contribute *)
Theorem C22_order_dense : forall (g : sfield -> option (list la)) fs ex,
  (forall f p, g (set_spos f p) = g f) ->
  has_dup (used_slots (map to_field fs)) = false ->
  order_ok fs = true ->
  define Functional (map to_field fs) = Good (map to_field (sassign fs (free_slots (map to_field fs)))) /\
  List.concat (position_sort ((Some 0%Z, ex) :: ents g (sassign fs (free_slots (map to_field fs)))))
  = ex ++ List.concat (map (payload g) (spec_order fs)).
Proof.
  intros g fs ex Hg Hd Ho. split; [now apply define_sassign|now apply order_theorem].
Qed.
Print Assumptions C22_order_dense.

(* omission: None and empty multi-inputs are dropped before anything else; a flag contributes itself or nothing *)
Theorem C22_omission :
  (forall F vals nm, (forall g, In g F -> f_name g = nm -> is_unset g (lookup vals nm) = true) ->
                     is_present (drop_unset F vals) nm = false)
  /\ (forall f, is_unset f VNone = true /\ (optional_type (f_ty f) = TMulti -> is_unset f (VList []) = true))
  /\ (forall f vals argstr b, optional_type (f_ty f) = TBool -> f_argstr f = Some argstr -> has_char lbrace argstr = false ->
        lookup vals (f_name f) = VBool b ->
        command_pos_args f vals = Good (Some (f_pos f, if b then [argstr] else []))).
Proof.
  split; [|split].
  - intros F vals nm. apply absent_iff.
  - intros f. split; [reflexivity|]. intros E. unfold is_unset. now rewrite E.
  - intros f vals argstr b Ht Ha Hb Hl. unfold command_pos_args. rewrite Ha, Ht, Hb, Hl. now destruct b.
Qed.
Print Assumptions C22_omission.

(* list values: '...' repeats the argstr per element; otherwise the elements are joined by the separator into one
   argument (a blank separator gives separate arguments); a MultiInputObj yields one occurrence per element *)
Theorem C22_list_expansion : forall f ws dots, field_hyps f ws dots -> forall valsM valsS l,
  lookup valsM (sf_name f) = VList l -> forallb atom_benign l = true ->
  (dots = true -> sf_sep f = [" "%char] -> forallb (fun a => inert ws valsS (render_atom a)) l = true ->
     format_arg (to_field f) (render_words (sf_name f) ws ++ (if dots then ellipsis else [])) valsM
     = Good (List.concat (map (fun a => occurrence ws valsS (render_atom a)) l)))
  /\ (dots = false -> forallb benign_char (sf_sep f) = true -> l <> [] ->
      inert ws valsS (join_sep (sf_sep f) (map render_atom l)) = true ->
     format_arg (to_field f) (render_words (sf_name f) ws ++ (if dots then ellipsis else [])) valsM
     = Good (occurrence ws valsS (join_sep (sf_sep f) (map render_atom l))))
  /\ (dots = false -> sf_sep f = [" "%char] -> has_ph ws = false ->
     format_arg (to_field f) (render_words (sf_name f) ws ++ (if dots then ellipsis else [])) valsM
     = Good (match l with [] => [] | _ => map (inst_word valsS []) ws ++ map render_atom l end)).
Proof.
  intros f ws dots FH valsM valsS l Hl Hok. repeat split.
  - intros Hd Hs Hin. now apply format_dots.
  - intros Hd Hs Hne Hin. now apply format_join_sep.
  - intros Hd Hs Hph. now apply format_join_blank.
Qed.
Print Assumptions C22_list_expansion.
