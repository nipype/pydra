(* C12 — A crash at any point never yields a wrong result or a wedged cache. *)
From Pydra Require Import Base.Prelude.
From Pydra Require Import Model.CacheProto Spec.CacheProto Proofs.CacheProto Proofs.CacheProtoC10
  Proofs.CacheProtoC12 Proofs.CacheProtoSpec.

(* Any history of submissions by any number of processes killed at arbitrary points (ACrash after any
   checkpoint, AProgress n: any length of a partially written file), deterministic body, no rerun.  A process
   that is not in the middle of a submission submits again while every other live process is outside its with
   block (the holders of the two markers, if any, are dead): its submission terminates on its own with
   observations meeting the C12 spec. *)
Definition C12_full_statement : Prop :=
  forall pickle unpickle, codec_ok pickle unpickle ->
  forall bv pre tr s p (asy : bool),
    det_trace tr = true -> run pickle unpickle bv (init bv pre) tr = Some s ->
    alive s p -> (pc (procs s p) = Idle \/ pc (procs s p) = Done) ->
    (forall r, r <> p -> alive s r -> holds (pc (procs s r)) = false) ->
    exists tr' s', (forall e, In e tr' -> fst e = p) /\ run pickle unpickle bv s tr' = Some s' /\
                   c12_spec bv (runs (gl s)) (observe_g s' [p]) (observe_p s' p).

Theorem C12_recover : C12_full_statement.
Proof. intros pickle unpickle C bv pre tr s p asy. now apply c12_model_meets_spec. Qed.
Print Assumptions C12_recover.

(* when a whole result can be read back nothing is executed again and the directory is left as it is *)
Theorem C12_recover_hit :
  forall pickle unpickle, codec_ok pickle unpickle ->
  forall bv pre tr s p (asy : bool) r,
    det_trace tr = true -> run pickle unpickle bv (init bv pre) tr = Some s ->
    alive s p -> (pc (procs s p) = Idle \/ pc (procs s p) = Done) ->
    (forall q, q <> p -> alive s q -> holds (pc (procs s q)) = false) ->
    load_result pickle unpickle (gl s) = Some r ->
    r = ok bv /\
    exists s', run pickle unpickle bv s (map (pair p) (hit_actions asy)) = Some s' /\
               pc (procs s' p) = Done /\ ret (procs s' p) = Some (good bv) /\ gl s' = set_lock None (gl s).
Proof. intros pickle unpickle (H1 & H2 & H3) bv pre tr s p asy r. now apply recover_hit. Qed.
Print Assumptions C12_recover_hit.

(* a strict prefix of the pickle, of any length, is never read back as a result *)
Theorem C12_truncation :
  forall pickle unpickle, codec_ok pickle unpickle ->
  forall g r n, resf g = Writing r n -> n < List.length (pickle r) -> load_result pickle unpickle g = None.
Proof. intros pickle unpickle (H1 & H2 & H3) g r n. now apply truncation. Qed.
Print Assumptions C12_truncation.

(* a marker whose owner is dead does not block: under the recovery hypothesis each marker is absent or names a
   dead process *)
Theorem C12_dead_markers :
  forall pickle unpickle bv pre tr s p,
    run pickle unpickle bv (init bv pre) tr = Some s ->
    alive s p -> holds (pc (procs s p)) = false ->
    (forall r, r <> p -> alive s r -> holds (pc (procs s r)) = false) ->
    free (lock (gl s)) (gl s) = true /\ free (slock (gl s)) (gl s) = true.
Proof.
  intros pickle unpickle bv pre tr s p R _ Hp Oth.
  exact (alone_outside_free s p (lock_inv_reachable pickle unpickle bv _ _ _ R) Oth Hp).
Qed.
Print Assumptions C12_dead_markers.

Example C12_codec_example : codec_ok toy_pickle toy_unpickle.
Proof. exact toy_codec_ok. Qed.
