(* C06 — a cache hit returns what executing the task now would return. *)
From Pydra Require Import Base.Prelude Model.Hash Spec.Hash Proofs.HashCtx
     Proofs.HashInj Proofs.HashTask Proofs.HashRefuted Proofs.HashCache Proofs.HashChecksum.

(* For every blake2b H, every deterministic [run] that may depend on all aspects of a task (the hashed field
   values, the closure cells / globals hidden in its function value, the per-field metadata), and every history
   of submissions into one cache root: each submission returns what running the task now returns. *)
Definition C06_full_statement : Prop :=
  forall (H : string -> string) (O : Type) (run : taskdef -> O) (ts : list taskdef),
    fst (submit_all (ident_of H) run [] ts) = map run ts.

(* two python tasks whose function differs only in a captured closure value *)
Theorem C06_refuted_closure : ~ C06_full_statement.
Proof.
  intros S. destruct (closure_witness toyH) as [E N].
  exact (cache_stale (ident_of toyH) (fun t => t) (task_closure 1) (task_closure 100) E N
                     (S toyH taskdef (fun t => t) [task_closure 1; task_closure 100])).
Qed.
Print Assumptions C06_refuted_closure.

(* two shell tasks that differ only in the argstr of an input field *)
Theorem C06_refuted_field_metadata : ~ C06_full_statement.
Proof.
  intros S. destruct (argstr_witness toyH) as [E N].
  exact (cache_stale (ident_of toyH) (fun t => t) (task_argstr "-a") (task_argstr "-b") E N
                     (S toyH taskdef (fun t => t) [task_argstr "-a"; task_argstr "-b"])).
Qed.
Print Assumptions C06_refuted_field_metadata.

(* in general, for every H: neither metadata nor closure values reach the identity *)
Theorem C06_identity_ignores_metadata : forall H ty fields m1 m2,
    identity H {| t_type := ty; t_fields := fields; t_meta := m1 |} =
    identity H {| t_type := ty; t_fields := fields; t_meta := m2 |}.
Proof. reflexivity. Qed.
Print Assumptions C06_identity_ignores_metadata.

Theorem C06_identity_ignores_closure : forall H ty meta pre post n i src h1 h2,
    identity H {| t_type := ty; t_fields := pre ++ (n, VFunc i src h1) :: post; t_meta := meta |} =
    identity H {| t_type := ty; t_fields := pre ++ (n, VFunc i src h2) :: post; t_meta := meta |}.
Proof. exact identity_ignores_closure. Qed.
Print Assumptions C06_identity_ignores_closure.

(* the strongest positive statement, for any notion of task, identity and run: over any history, if the identity
   separates the submitted tasks that compute different things, every submission returns run of the submitted
   task (invariant: every stored entry is run of a task with that identity) *)
Theorem C06_sound_if_identity_separates :
  forall (T O : Type) (ident : T -> string) (run : T -> O) (ts : list T),
    (forall t1 t2, In t1 ts -> In t2 ts -> ident t1 = ident t2 -> run t1 = run t2) ->
    fst (submit_all ident run [] ts) = map run ts.
Proof.
  intros T O ident run ts Hsep. apply (cache_sound ident run ts [] []); [intros d o Hf; discriminate|exact Hsep].
Qed.
Print Assumptions C06_sound_if_identity_separates.

(* and it is necessary: one identity for two tasks with different results makes the second submission stale *)
Theorem C06_stale_if_identity_merges :
  forall (T O : Type) (ident : T -> string) (run : T -> O) t1 t2,
    ident t1 = ident t2 -> run t1 <> run t2 -> fst (submit_all ident run [] [t1; t2]) <> map run [t1; t2].
Proof. intros T O. exact cache_stale. Qed.
Print Assumptions C06_stale_if_identity_merges.

(* the identity is a function of the field names and of the digests the field values have alone *)
Theorem C06_identity_of_digests : forall H env1 env2 ty f1 f2,
    Forall2 (fun a b : string * pyval => fst a = fst b /\ dg H (snd a) = dg H (snd b)) f1 f2 ->
    (forall kv, In kv f1 -> hashable_acyclic H env1 (snd kv)) ->
    (forall kv, In kv f2 -> hashable_acyclic H env2 (snd kv)) ->
    checksum H ty f1 = checksum H ty f2.
Proof. exact checksum_only_sees_digests. Qed.
Print Assumptions C06_identity_of_digests.

(* input values: content, Python type and nesting are separated by the value digests (C08_ser_injective) *)
Theorem C06_separates_values :
  forall H v1 v2 d, inj_dom v1 -> inj_dom v2 -> digest H v1 = Ok d -> digest H v2 = Ok d ->
                    veq v1 v2 \/ collision H (S (vdepth v1)) v1 (S (vdepth v2)) v2.
Proof. exact ser_injective. Qed.
Print Assumptions C06_separates_values.

(* array shape and dtype, after the repair of F06c: different bytes *)
Theorem C06_array_shape_dtype_separated : forall H,
    preimage H (nd_zeros "float64" [2; 3]) <> preimage H (nd_zeros "float64" [3; 2]) /\
    preimage H (nd_zeros "float64" [6]) <> preimage H (nd_zeros "int64" [6]) /\
    preimage H (nd_zeros "float64" [6]) <> preimage H (nd_zeros "float64" [2; 3]).
Proof. exact (fun H => array_shape_dtype_separated H _). Qed.
Print Assumptions C06_array_shape_dtype_separated.

(* The Merkle argument carried through _compute_hashes + _checksum: two tasks whose hashed field values lie in the
   domain of C08_ser_injective and whose checksums are equal have the same task type and, matched by field name,
   equal values (sets as sets, dicts as maps) — or an explicit collision of H between two byte strings hashed for a
   pair of field values, or for the two outer lists of (name, hex digest) tuples. *)
Theorem C06_checksum_injective : forall H env1 env2 ty1 ty2 f1 f2 c,
    (forall kv, In kv f1 -> field_ok H env1 kv) -> (forall kv, In kv f2 -> field_ok H env2 kv) ->
    checksum H ty1 f1 = Ok c -> checksum H ty2 f2 = Ok c ->
    ty1 = ty2 /\
    ((fields_match H f1 f2 /\ fields_match H f2 f1) \/
     exists l1 l2, outer_value H f1 = Ok l1 /\ outer_value H f2 = Ok l2 /\
                   collision H (S (vdepth l1)) l1 (S (vdepth l2)) l2).
Proof. exact checksum_injective. Qed.
Print Assumptions C06_checksum_injective.

Theorem C06_identity_separates_or_collision : forall H t1 t2,
    in_domain H t1 -> in_domain H t2 -> ident_of H t1 = ident_of H t2 ->
    same_hashed_aspects t1 t2 \/ task_collision H t1 t2.
Proof. exact identity_separates_or_collision. Qed.
Print Assumptions C06_identity_separates_or_collision.

(* histories: over tasks of that domain, if run depends only on the aspects that enter the checksum (task type,
   field names and values incl. the function bytes and the Outputs class), every submission — in particular every
   cache hit — returns what executing the task now would return, or two submitted tasks exhibit a collision of H *)
Theorem C06_history_sound_or_collision : forall H (O : Type) (run : taskdef -> O) (ts : list taskdef),
    (forall t, In t ts -> in_domain H t) ->
    (forall t1 t2, same_hashed_aspects t1 t2 -> run t1 = run t2) ->
    fst (submit_all (ident_of H) run [] ts) = map run ts \/
    exists t1 t2, In t1 ts /\ In t2 ts /\ task_collision H t1 t2.
Proof. exact history_sound_or_collision. Qed.
Print Assumptions C06_history_sound_or_collision.

(* non-vacuity: a history [A; B; A] of tasks in the domain (list-valued input, function and Outputs fields) *)
Theorem C06_checksum_example : forall H t, In t [ck_task 1; ck_task 2; ck_task 1] -> in_domain H t.
Proof. exact ck_history. Qed.
Print Assumptions C06_checksum_example.
