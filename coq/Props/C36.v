(* C36 — Provenance records are complete and consistent. *)
From Pydra Require Import Base.Prelude Model.Audit Spec.Audit Proofs.Audit Proofs.ListFacts.

(* For every forest of job executions nested to any depth (workflow jobs running their node jobs inside
   their own run, succeeding or failing anywhere), with or without resource monitoring, with or without
   a message_dir, under a synchronous or an asynchronous worker: the messages satisfy the specification
   — provided PROV is on and every Job owns its Audit object (what Job.__init__ does since the F36 fix;
   the driver reads [c_sharing] off the live code on every run). *)
Definition C36_full_statement : Prop :=
  forall c : cfg, c_sharing c = false -> c_prov c = true ->
  forall (ts : list task) (cwd0 : loc),
    audit_ok (c_md c) (fst (session c cwd0 ts)) (snd (session c cwd0 ts)).

Theorem C36_full : C36_full_statement.
Proof.
  intros c Sh P ts cwd0. unfold session.
  pose proof (run_seq_inv c Sh P ts (init cwd0)) as H.
  destruct (run_seq c ts (init cwd0)) as [[s' ms] rs]. exact (Inv_audit_ok H).
Qed.
Print Assumptions C36_full.

Example C36_full_applies :
  let c := mkCfg true true None false false in
  c_sharing c = false /\ c_prov c = true /\
  List.length (fst (session c 9 [wf2; Leaf 4 "main" ["f"%string] true true true false; Leaf 5 "main" [] false false false true])) = 34.
Proof. vm_compute. auto. Qed.

(* one job tree started in an arbitrary interpreter state (any heap of Audit objects, any uuid history, any cwd) *)
Theorem C36_any_state :
  forall c : cfg, c_sharing c = false -> c_prov c = true ->
  forall (t : task) (s : sys), let '(_, ms, rs, _) := run_job c t s in audit_ok (c_md c) ms rs.
Proof.
  intros c Sh P t s. pose proof (run_job_inv c Sh P t s) as H.
  destruct (run_job c t s) as [[[s' ms] rs] e]. exact (Inv_audit_ok H).
Qed.
Print Assumptions C36_any_state.

(* the check the driver evaluates on the observed message files decides the specification *)
Theorem C36_check_decides_spec :
  forall md log rs, audit_okb md log rs = true <-> audit_ok md log rs.
Proof.
  intros md log rs. unfold audit_okb, audit_ok. rewrite <- andb_assoc. repeat apply andb_iff.
  - apply nodupb_NoDup.
  - apply permb_ok, pair_eqb_ok; apply Nat.eqb_eq.
  - apply permb_ok, pair_eqb_ok; [apply Nat.eqb_eq|apply eqb_true_iff].
Qed.
Print Assumptions C36_check_decides_spec.

(* what the repaired defect (F36) was: with the Submitter's Audit object shared by all its jobs, a workflow
   with two nodes under the debug worker violates the specification — the workflow's activity is never
   ended and the last node's is ended twice (Proofs.Audit.shared_audit_witness evaluates both lists).  This is
   why [c_sharing = false] is a hypothesis, which the driver re-establishes against the code. *)
Theorem C36_sharing_breaks_nested :
  forall md, In md [None; Some 0] ->
  let c := mkCfg true false md true false in
  ~ audit_ok md (fst (session c 9 [wf2])) (snd (session c 9 [wf2])).
Proof.
  intros md Hmd c H. apply C36_check_decides_spec in H.
  destruct Hmd as [<-|[<-|[]]]; vm_compute in H; discriminate.
Qed.
Print Assumptions C36_sharing_breaks_nested.

(* with AuditFlag.PROV off (the default) no message is written, whatever else is configured *)
Theorem C36_silent_without_prov :
  forall c, c_prov c = false -> forall t s, let '(_, ms, _, _) := run_job c t s in ms = [].
Proof.
  intros c P. apply (run_job_ind c (fun _ _ ms _ => ms = [])).
  - reflexivity.
  - intros. now apply frame_silent.
  - intros s s1 m1 r1 s2 m2 r2 -> ->. reflexivity.
Qed.
Print Assumptions C36_silent_without_prov.
